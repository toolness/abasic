(* Run/HarnessRef.v — evaluating the reference interpreter on generated programs. *)
From Coq Require Import List NArith ZArith Bool.
From Coq Require String.
From Abasic Require Import Model.Bytes Model.Num Model.Token Model.Data Model.Lexer Gen.Tables
     Model.State Ref.RefSem Run.Harness.
Import ListNotations.

(* a numeric literal, as the tokenizer reads its spelling *)
Definition lit (s : String.string) : f64 := match parse_f64 (bs s) with Some x => x | None => f64_zero end.
Definition L (s : String.string) : rexpr := XNum (lit s).
Definition S' (s : String.string) : rexpr := XStr (bs s).
Definition V (s : String.string) : rexpr := XVar (bs s).
Definition DN (s : String.string) : data_elem := DNum (lit s).
Definition DS (s : String.string) : data_elem := DStr (bs s).

Definition err_name (e : rerr) : bytes :=
  bs match e with
     | RTypeMismatch => "TypeMismatch" | RDivisionByZero => "DivisionByZero" | ROutOfData => "OutOfData"
     | RDataTypeMismatch => "DataTypeMismatch" | RBadSubscript => "BadSubscript" | RIllegalQuantity => "IllegalQuantity"
     | RStackOverflow => "OutOfMemory(StackOverflow)" | RArrayTooLarge => "OutOfMemory(ArrayTooLarge)"
     | RRedim => "RedimensionedArray" | RUndefinedLine => "UndefinedStatement"
     | RReturnWithoutGosub => "ReturnWithoutGosub" | RNextWithoutFor => "NextWithoutFor"
     | RUnimplemented => "Unimplemented" | RSyntax => "Syntax"
     end%string.

(* printed records, then how it ended: "end", "running" (budget exhausted) or Kind@line *)
Definition ref_render (o : outcome) : bytes :=
  match o with
  | Done st => join [59%N] (map esc (r_out st)) ++ [124%N] ++ bs "end"
  | Next _ st => join [59%N] (map esc (r_out st)) ++ [124%N] ++ bs "running"
  | Fail e l st => join [59%N] (map esc (r_out st)) ++ [124%N] ++ err_name e ++ [64%N] ++ show_N l
  | NoFuel => bs "REF-OUT-OF-FUEL"
  end.

(* 400: RefSem.eval's fuel, the depth to which the reference evaluates an expression; a
   deeper one renders as REF-OUT-OF-FUEL, which no observed text equals *)
Definition ref_ok (c : N * nat * rprogram * String.string) : bool :=
  let '(seed, steps, p, obs) := c in
  bytes_eqb (ref_render (run_ref 400 steps seed p)) (bs obs).
Definition ref_failing (cs : list (N * nat * rprogram * String.string)) : list N := failing_from ref_ok cs 0%N.
Definition ref_show (c : N * nat * rprogram * String.string) : String.string :=
  let '(seed, steps, p, obs) := c in to_string (ref_render (run_ref 400 steps seed p)).
