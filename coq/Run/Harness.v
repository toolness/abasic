(* Run/Harness.v — definitions used by the generated cases files: they run the
   model on the inputs the implementation ran and compute, inside Coq, where
   (if anywhere) the model's canonical rows differ from the observed ones. *)
From Coq Require Import List NArith ZArith Bool Ascii.
From Coq Require String.
From Abasic Require Import Model.Bytes Model.Num Model.Token Model.Data Model.Lexer Gen.Tables
     Model.State Model.Eval Model.Interp.
Import ListNotations.
Open Scope N_scope.

Notation string := String.string.

(* escaped text (the harness's \xHH scheme) -> raw bytes *)
Definition u (s : string) : bytes := unesc (bs s).

Fixpoint to_string (b : bytes) : string :=
  match b with
  | [] => String.EmptyString
  | x :: r => String.String (ascii_of_N x) (to_string r)
  end.

Fixpoint failing_from {A} (f : A -> bool) (l : list A) (i : N) : list N :=
  match l with
  | [] => []
  | x :: r => if f x then failing_from f r (i + 1) else i :: failing_from f r (i + 1)
  end.

(* Lexer and DATA parser cases: (skip, escaped input, expected canonical text) *)

Definition tok_model (skip : nat) (inp : string) : bytes := canon_tok_result (tokenize (u inp) skip).
Definition tok_ok (c : nat * string * string) : bool :=
  let '(skip, inp, exp) := c in bytes_eqb (tok_model skip inp) (bs exp).
Definition tok_failing (cs : list (nat * string * string)) : list N := failing_from tok_ok cs 0.

Definition data_model (inp : string) : bytes := canon_data_result (parse_data (u inp)).
Definition data_ok (c : string * string) : bool :=
  let '(inp, exp) := c in bytes_eqb (data_model inp) (bs exp).
Definition data_failing (cs : list (string * string)) : list N := failing_from data_ok cs 0.

(* Session cases *)

Inductive sop :=
| SLine (s : string) | SCont | SReply (s : string) | SBreak | SRand (n : N)
| SReplace | SFlags (w t : bool) | SNew.

Definition hostop_of (o : sop) : hostop :=
  match o with
  | SLine s => HLine (u s) | SCont => HCont | SReply s => HReply (u s) | SBreak => HBreak
  | SRand n => HRand n | SReplace => HReplace | SFlags w t => HFlags w t | SNew => HNew
  end.

Definition row_fields (r : row) : list bytes :=
  [r_outcome r; r_state r; r_outputs r; r_caret r; r_msg r; r_reads r; r_snap r].

(* observed: None for operations that print no row (flags, new) *)
Definition sess_case := (list (Z * Z * Z) * list (sop * option (list string)))%type.

Fixpoint fields_diff (mask : list bool) (model : list bytes) (obs : list string) (i : N) : option (N * bytes) :=
  match mask, model, obs with
  | m :: mr, a :: ar, b :: br =>
      if m && negb (bytes_eqb a (bs b)) then Some (i, a) else fields_diff mr ar br (i + 1)
  | _, _, _ => None
  end.

(* first operation at which a compared field differs: (op index, field index, model text).
   99 and 98 are no field indices: the model has no row for an operation that printed one
   (not legal in the model's state) / has a row where none was printed; vlib/sess.py
   reports any index beyond the seven fields as legality(n) *)
Fixpoint sess_diff (fuel : nat) (mask : list bool) (s : interp)
         (ops : list (sop * option (list string))) (i : N) : option (N * N * string) :=
  match ops with
  | [] => None
  | (o, obs) :: r =>
      let '(rw, s') := step fuel s (hostop_of o) in
      match rw, obs with
      | None, None => sess_diff fuel mask s' r (i + 1)
      | Some rw, Some obs =>
          match fields_diff mask (row_fields rw) obs 0 with
          | Some (f, a) => Some (i, f, to_string a)
          | None => sess_diff fuel mask s' r (i + 1)
          end
      | None, Some _ => Some (i, 99, to_string (bs "model: operation not legal here"))
      | Some rw, None => Some (i, 98, to_string (r_outcome rw))
      end
  end.

Definition sess_check (mask : list bool) (c : sess_case) : option (N * N * string) :=
  let '(oracle, ops) := c in sess_diff default_fuel mask (fresh oracle) ops 0.

Fixpoint sess_report_from (mask : list bool) (cs : list sess_case) (i : N) : list (N * N * N * string) :=
  match cs with
  | [] => []
  | c :: r =>
      match sess_check mask c with
      | Some (o, f, t) => (i, o, f, t) :: sess_report_from mask r (i + 1)
      | None => sess_report_from mask r (i + 1)
      end
  end.

Definition sess_report (mask : list bool) (cs : list sess_case) : list (N * N * N * string) :=
  sess_report_from mask cs 0.

Definition mask_all : list bool := [true; true; true; true; true; true; true].
