(* C18: the methods of `impl Rng` as TRANSLATED from random.rs on this run
   (Gen/RandomRs.v) are the model's rng_new / lcg / latest_random / rng_rnd, and
   their plain u64 `*`, `+`, `%` (Model/RustInt.v: an overflow or a remainder by
   zero is a panic) never panic on a reduced generator state.  So
   the C18 theorems, stated over the model, are re-checked against the text of
   random.rs on every run. *)
From Coq Require Import List NArith ZArith Bool String Lia.
From Abasic Require Import Model.Num Model.RustInt Gen.Tables Gen.RandomRs Model.State Proofs.RngProofs.
Import ListNotations.
Open Scope N_scope.

Lemma u64_chk_lt : forall x, x < U64_LIMIT -> u64_chk x = Some x.
Proof. intros x H. unfold u64_chk. apply N.ltb_lt in H. rewrite H. reflexivity. Qed.

Lemma U64_LIMIT_value : U64_LIMIT = 2 ^ 64.
Proof. reflexivity. Qed.

Lemma MODULUS_u64 : MODULUS < U64_LIMIT.
Proof. vm_compute. reflexivity. Qed.

Theorem rs_new_is_model : forall seed, rs_new seed = Some (rng_new seed).
Proof.
  intros seed. unfold rs_new, u64_rem, rng_new.
  destruct (MODULUS =? 0) eqn:E; [apply N.eqb_eq in E; exfalso; exact (MODULUS_pos E)|reflexivity].
Qed.

Theorem rs_latest_is_model : forall s, rs_latest_random s = latest_random s.
Proof. reflexivity. Qed.

Theorem rs_random_is_model : forall s, s < MODULUS ->
  rs_random s = Some (lcg s, latest_random (lcg s)).
Proof.
  intros s H. unfold rs_random.
  assert (E : u64_rem (u64_add (u64_mul (Some MULTIPLIER) (Some s)) (Some INCREMENT)) (Some MODULUS) = Some (lcg s)).
  { pose proof (lcg_no_u64_overflow s H) as Hov. rewrite <- U64_LIMIT_value in Hov.
    cbn [u64_mul]. rewrite u64_chk_lt by (eapply N.le_lt_trans; [|exact Hov]; lia).
    cbn [u64_add]. rewrite u64_chk_lt by exact Hov.
    unfold u64_rem, lcg.
    destruct (MODULUS =? 0) eqn:E0; [apply N.eqb_eq in E0; exfalso; exact (MODULUS_pos E0)|reflexivity]. }
  rewrite E. rewrite rs_latest_is_model. reflexivity.
Qed.

(* the result of one translated call, read as the model's result; the model has
   no overflow panic, so [RsPanic] is sent to an arbitrary one: the theorems show
   it never arises *)
Definition rs_to_res (r : rs_result) : res f64 :=
  match r with
  | RsPanic => Panic PCellIndex
  | RsErr _ => Err EUnimplemented None
  | RsOk _ v => Ok v
  end.

Definition rs_field (old : N) (r : rs_result) : N :=
  match r with RsOk s' _ => s' | _ => old end.

Theorem rs_rnd_is_model : forall x st, rng st < MODULUS ->
  rs_rnd x (rng st) <> RsPanic /\
  (forall e, rs_rnd x (rng st) = RsErr e -> e = "Unimplemented"%string) /\
  fst (rng_rnd x st) = rs_to_res (rs_rnd x (rng st)) /\
  rng (snd (rng_rnd x st)) = rs_field (rng st) (rs_rnd x (rng st)) /\
  rs_field (rng st) (rs_rnd x (rng st)) < MODULUS.
Proof.
  intros x st H. rewrite rng_rnd_spec. unfold rs_rnd.
  destruct (f64_ltb x f64_zero).
  { repeat split; try discriminate; try assumption. intros e He; injection He as <-; reflexivity. }
  destruct (f64_eqb x f64_zero).
  { repeat split; try discriminate; try assumption. }
  rewrite (rs_random_is_model _ H).
  repeat split; try discriminate. cbn [rs_field]. apply lcg_range.
Qed.

(* a whole session of the translated code: seed it, then call rnd on the
   successive arguments *)
Fixpoint rs_calls (field : N) (args : list f64) : list rs_result :=
  match args with
  | [] => []
  | x :: r => let o := rs_rnd x field in o :: rs_calls (rs_field field o) r
  end.

Definition rs_session (seed : N) (args : list f64) : option (list rs_result) :=
  match rs_new seed with
  | Some s => Some (rs_calls s args)
  | None => None
  end.

Lemma rs_calls_pure : forall args s, s < MODULUS ->
  map rs_to_res (rs_calls s args) = rnd_pure s args /\ ~ In RsPanic (rs_calls s args).
Proof.
  induction args as [|x r IH]; intros s H; [split; [reflexivity|intros []]|].
  cbn [rs_calls rnd_pure map]. unfold rs_rnd.
  destruct (f64_ltb x f64_zero).
  { cbn [rs_field rs_to_res]. destruct (IH s H) as [E N]. rewrite E. split; [reflexivity|].
    intros [D|D]; [discriminate|exact (N D)]. }
  destruct (f64_eqb x f64_zero).
  { cbn [rs_field rs_to_res]. destruct (IH s H) as [E N]. rewrite E. split; [reflexivity|].
    intros [D|D]; [discriminate|exact (N D)]. }
  rewrite (rs_random_is_model _ H). cbn [rs_field rs_to_res].
  destruct (IH (lcg s) (lcg_range s)) as [E N]. rewrite E. split; [reflexivity|].
  intros [D|D]; [discriminate|exact (N D)].
Qed.

(* for every seed (any N, so any u64) and every argument list: no arithmetic
   panic anywhere, and the results are the sequence a program observes after
   `randomize seed` whatever the rest of the state *)
Theorem rs_session_is_model : forall seed args,
  exists outs, rs_session seed args = Some outs /\ ~ In RsPanic outs /\
               map rs_to_res outs = rnd_seq seed args /\
               forall st0, map rs_to_res outs = rnd_seq_from st0 seed args.
Proof.
  intros seed args. unfold rs_session. rewrite rs_new_is_model.
  destruct (rs_calls_pure args (rng_new seed) (rng_new_range seed)) as [E N].
  exists (rs_calls (rng_new seed) args). repeat split; [exact N|exact E|].
  intros st0. rewrite rnd_seq_from_pure. exact E.
Qed.
