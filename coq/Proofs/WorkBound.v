(* C09, the work bound: with no user function defined, the number of
   token-cursor reads (the hook counter [reads]) of one host call is linear in
   the length of the line the cursor is on.

   A potential argument: every read that consumes a token is paid by that
   token (KA reads each); the reads that consume nothing are counted along
   each path through an evaluator and covered by the tokens that path did
   consume, up to a constant [B] that depends on the result ([Jpost]). *)
From Coq Require Import List NArith ZArith Bool Lia.
From Abasic Require Import Model.Bytes Model.Token Model.Lexer
     Model.State Model.Eval Model.Interp Proofs.Monad Proofs.Frames Proofs.StoreProofs Proofs.Safety
     Proofs.ResetProofs Proofs.Termination Proofs.InputProofs.
Import ListNotations.
Local Open Scope Z_scope.

(* A one-token operand costs 4 reads (no sign, no "(", the token, the "(" peek
   after a name) and one miss per operator tier (6); one more is left to the
   caller, whose next read may miss too. *)
Definition KA : Z := 11.
Definition SB : Z := 2.   (* what one statement may cost beyond (KA+1) * room + idx *)
Definition EF : Z := 3.   (* a failing expression, beyond the tokens it consumed: no sign, no "(", no token *)
Definition zr (s : interp) : Z := Z.of_nat (reads s).
Definition zm (s : interp) : Z := Z.of_nat (room s).
Definition zi (s : interp) : Z := Z.of_nat (loc_idx (loc s)).

Definition Jpost {A} (B : res A -> Z) (s : interp) (x : res A * interp) : Prop :=
  match fst x with
  | Ok _ => zr (snd x) <= zr s + KA * (zm s - zm (snd x)) + B (fst x) /\ zi (snd x) <= zi s + (zm s - zm (snd x))
  | _ => zr (snd x) <= zr s + KA * zm s + B (fst x)
  end.

Definition Jc {A} (m : M A) (B : res A -> Z) : Prop :=
  forall s, wf s -> functions s = [] -> Jpost B s (m s).

Definition ob {A} (bo be : Z) : res A -> Z := fun r => match r with Ok _ => bo | _ => be end.

Lemma zm_nonneg s : 0 <= zm s. Proof. unfold zm; lia. Qed.
Lemma zi_nonneg s : 0 <= zi s. Proof. unfold zi; lia. Qed.

Lemma Jpost_weaken {A} (B1 B2 : res A -> Z) s x : (forall r, B1 r <= B2 r) -> Jpost B1 s x -> Jpost B2 s x.
Proof. intros H. unfold Jpost. destruct x as [r s']. cbn [fst snd]. pose proof (H r). destruct r; lia. Qed.

(* continue from an intermediate state reached with cost [c] *)
Lemma Jpost_trans {A} (B : res A -> Z) s s1 c x :
  zr s1 <= zr s + KA * (zm s - zm s1) + c -> zi s1 <= zi s + (zm s - zm s1) ->
  Jpost (fun r => B r - c) s1 x -> Jpost B s x.
Proof.
  unfold Jpost. destruct x as [r s']. cbn [fst snd]. intros H1 H2. pose proof (zm_nonneg s1). unfold KA in *.
  destruct r; lia.
Qed.

(* a step that leaves the state as it is: [ret], [fail], [fail_at], [panic],
   [out_of_fuel], [oracle_miss], [lift_res] *)
Lemma Jpost_stay {A} (B : res A -> Z) s (r : res A) : 0 <= B r -> Jpost B s (r, s).
Proof. intros H. unfold Jpost. cbn [fst snd]. pose proof (zm_nonneg s). unfold KA. destruct r; lia. Qed.

(* The evaluators are walked with [Jf] (and statements with [Sf] below): a
   cost needs no well-formedness, and nothing on the line touches the function
   table, whatever the outcome.  [Jc] is [Jf] with [wf s] as a hypothesis more: the cost of an expression is
   stated in it (C09_expression_cost). *)
Definition Fpost {A} (B : res A -> Z) (s : interp) (x : res A * interp) : Prop :=
  Jpost B s x /\ functions (snd x) = [].

Definition Jf {A} (m : M A) (B : res A -> Z) : Prop :=
  forall s, functions s = [] -> Fpost B s (m s).

Lemma Jc_of_Jf {A} (m : M A) B : Jf m B -> Jc m B.
Proof. intros H s _ Hfn. apply (H s Hfn). Qed.

Lemma Fpost_weaken {A} (B1 B2 : res A -> Z) s x : (forall r, B1 r <= B2 r) -> Fpost B1 s x -> Fpost B2 s x.
Proof. intros H [HJ Hf]. exact (conj (Jpost_weaken _ _ _ _ H HJ) Hf). Qed.

Lemma Fpost_trans {A} (B : res A -> Z) s s1 c x :
  zr s1 <= zr s + KA * (zm s - zm s1) + c -> zi s1 <= zi s + (zm s - zm s1) ->
  Fpost (fun r => B r - c) s1 x -> Fpost B s x.
Proof. intros H1 H2 [HJ Hf]. exact (conj (Jpost_trans _ _ _ _ _ H1 H2 HJ) Hf). Qed.

Lemma Fpost_stay {A} (B : res A -> Z) s (r : res A) : functions s = [] -> 0 <= B r -> Fpost B s (r, s).
Proof. intros Hf H. exact (conj (Jpost_stay B s r H) Hf). Qed.

Lemma Jf_weaken {A} (m : M A) B1 B2 : Jf m B1 -> (forall r, B1 r <= B2 r) -> Jf m B2.
Proof. intros Hm H s Hfn. exact (Fpost_weaken _ _ _ _ H (Hm s Hfn)). Qed.

Lemma Jf_stay {A} (r : res A) B : 0 <= B r -> Jf (fun s => (r, s)) B.
Proof. intros H s Hfn. apply Fpost_stay; assumption. Qed.

(* a failure of the first step is a failure of the whole, at the type of the whole.  What [Ok _] is sent to
   does not matter: the third premise of [Jf_bind] asks nothing of it *)
Definition recast {A B} (r : res A) : res B :=
  match r with Ok _ => OutOfFuel | Err e l => Err e l | Panic p => Panic p | OutOfFuel => OutOfFuel | OracleMiss => OracleMiss end.

Lemma Jf_bind {A C} (m : M A) (f : A -> M C) (B1 : res A -> Z) (B : res C -> Z) :
  Jf m B1 -> (forall a, Jf (f a) (fun r => B r - B1 (Ok a))) ->
  (forall r, match r with Ok _ => True | _ => B1 r <= B (recast r) end) ->
  Jf (bind m f) B.
Proof.
  intros Hm Hf Hs s Hfn. rewrite bind_run. destruct (Hm s Hfn) as [HJ Hfn1].
  destruct (m s) as [r s1]. pose proof (Hs r) as Hr. cbn [snd] in Hfn1.
  destruct r as [a|e l|p| |]; try (split; [|exact Hfn1]; unfold Jpost in *; cbn [fst snd recast] in *; lia).
  unfold Jpost in HJ. cbn [fst snd] in HJ. destruct HJ as [H1 H2].
  apply (Fpost_trans B s s1 _ _ H1 H2). apply Hf, Hfn1.
Qed.

Lemma Jf_assoc {A C D} (m : M A) (f : A -> M C) (g : C -> M D) B :
  Jf (bind m (fun a => bind (f a) g)) B -> Jf (bind (bind m f) g) B.
Proof. intros H s Hfn. rewrite bind_assoc. exact (H s Hfn). Qed.

Lemma Jf_bind_ret {A C} (a : A) (f : A -> M C) B : Jf (f a) B -> Jf (bind (ret a) f) B.
Proof. exact (fun H => H). Qed.

Lemma Jf_repeat {S R} (body : S -> M (S + R)) (bo be : Z) :
  (forall acc, Jf (body acc) (fun r => match r with Ok (inl _) => 0 | Ok (inr _) => bo | _ => be end)) ->
  0 <= be ->
  forall n acc, Jf (repeat_m n body acc) (ob bo be).
Proof.
  intros Hb Hbe. induction n as [|n IH]; intros acc; cbn [repeat_m]; [apply (Jf_stay OutOfFuel); exact Hbe|].
  eapply Jf_bind; [apply Hb | | intros [[a|r]|e l|p| |]; cbn; try exact I; lia].
  intros [a|r]; [eapply Jf_weaken; [apply IH|] | apply (Jf_stay (Ok r))]; try intros [x|e l|p| |]; cbn; lia.
Qed.

Lemma zr_bump s : zr (bump s) = zr s + 1. Proof. unfold zr, bump. cbn. lia. Qed.

Lemma adv_facts s t : nth_error (cur_toks s) (loc_idx (loc s)) = Some t ->
  zr (adv s) = zr s + 1 /\ zm (adv s) = zm s - 1 /\ zi (adv s) = zi s + 1.
Proof.
  intros H. assert (Hlt : (loc_idx (loc s) < length (cur_toks s))%nat) by (apply nth_error_Some; congruence).
  unfold zr, zm, zi, adv, room. change (cur_toks (set_loc _ (bump s))) with (cur_toks s).
  cbn [loc set_loc loc_idx reads bump set_reads]. repeat split; lia.
Qed.

(* a read that consumes nothing costs 1; a read that consumes a token is paid by it *)
Lemma Fpost_bump {A} (B : res A -> Z) s r : functions s = [] -> 1 <= B r -> Fpost B s (r, bump s).
Proof.
  intros Hf H. split; [|exact Hf]. unfold Jpost. cbn [fst snd]. rewrite zr_bump.
  change (zm (bump s)) with (zm s). change (zi (bump s)) with (zi s). pose proof (zm_nonneg s). unfold KA. destruct r; lia.
Qed.

Lemma Fpost_adv {A} (B : res A -> Z) s t (a : A) : functions s = [] ->
  nth_error (cur_toks s) (loc_idx (loc s)) = Some t -> 1 - KA <= B (Ok a) -> Fpost B s (Ok a, adv s).
Proof.
  intros Hf Et H. split; [|exact Hf]. unfold Jpost. cbn [fst snd]. destruct (adv_facts s t Et) as (-> & -> & ->).
  unfold KA in *. lia.
Qed.

Lemma Jf_peek : Jf peek_next_token (fun _ => 1).
Proof. intros s Hfn. destruct (peek_run s) as [E|[_ [p E]]]; rewrite E; apply Fpost_bump; trivial; lia. Qed.

Lemma Jf_next_token : Jf next_token (fun r => match r with Ok (Some _) => 1 - KA | _ => 1 end).
Proof.
  intros s Hfn. pose proof (next_token_run s) as H.
  destruct (nth_error (cur_toks s) (loc_idx (loc s))) as [t|] eqn:Et.
  - rewrite H. apply (Fpost_adv _ s t); trivial; lia.
  - destruct H as (r & -> & Hr). apply Fpost_bump; [exact Hfn|]. destruct r as [[t|]|e l|p| |]; try lia. destruct (Hr t eq_refl).
Qed.

Lemma Jf_accept t : Jf (accept_next_token t) (fun r => match r with Ok true => 1 - KA | _ => 1 end).
Proof.
  intros s Hfn. unfold accept_next_token. rewrite bind_run.
  destruct (peek_run s) as [E|[_ [p E]]]; rewrite E; [|apply Fpost_bump; trivial; lia].
  destruct (nth_error (cur_toks s) (loc_idx (loc s))) as [t'|] eqn:Et; [destruct (token_eqb t' t)|];
    [apply (Fpost_adv _ s t') | apply Fpost_bump | apply Fpost_bump]; trivial; lia.
Qed.

Lemma Jf_try {C} (g : token -> option C) :
  Jf (try_next_token g) (fun r => match r with Ok (Some _) => 1 - KA | _ => 1 end).
Proof.
  intros s Hfn. unfold try_next_token. rewrite bind_run.
  destruct (peek_run s) as [E|[_ [p E]]]; rewrite E; [|apply Fpost_bump; trivial; lia].
  destruct (nth_error (cur_toks s) (loc_idx (loc s))) as [t'|] eqn:Et; [destruct (g t')|];
    [apply (Fpost_adv _ s t') | apply Fpost_bump | apply Fpost_bump]; trivial; lia.
Qed.

Lemma Jf_discard : Jf discard_remaining_tokens (fun _ => 0).
Proof.
  intros s Hfn. unfold discard_remaining_tokens. rewrite bind_run.
  destruct (cur_tokens_run s) as [E|[_ [p E]]]; rewrite E; [|apply Fpost_stay; trivial; lia].
  split; [|exact Hfn]. unfold modify, Jpost. cbn [fst snd].
  set (s' := set_loc _ s).
  assert (Em : zm s' = 0).
  { unfold zm, room, s'. change (cur_toks (set_loc _ s)) with (cur_toks s). cbn [loc set_loc loc_idx]. lia. }
  change (zr s') with (zr s). change (zi s') with (Z.of_nat (length (cur_toks s))).
  rewrite Em. unfold zm, zi, room, KA. lia.
Qed.

(* steps that read nothing and leave the cursor alone *)
Definition Z0 (s s' : interp) : Prop :=
  reads s' = reads s /\ loc s' = loc s /\ st_toks s' = st_toks s /\ immediate s' = immediate s
  /\ functions s' = functions s.

Lemma Z0_preorder : preorder Z0.
Proof.
  split; [intros s; repeat split|].
  intros x y z (A1 & A2 & A3 & A4 & A5) (B1 & B2 & B3 & B4 & B5). repeat split; congruence.
Qed.

Lemma Jf_of_Z0 {A} (m : M A) : mrel Z0 m -> Jf m (fun _ => 0).
Proof.
  intros H s Hfn. destruct (H s) as (A1 & A2 & A3 & A4 & A5). split; [|congruence]. unfold Jpost.
  assert (Er : zr (snd (m s)) = zr s) by (unfold zr; rewrite A1; reflexivity).
  assert (Em : zm (snd (m s)) = zm s) by (unfold zm, room, cur_toks; rewrite A2, A3, A4; reflexivity).
  assert (Ei : zi (snd (m s)) = zi s) by (unfold zi; rewrite A2; reflexivity).
  pose proof (zm_nonneg s). unfold KA.
  destruct (fst (m s)); lia.
Qed.

Ltac z0leaf := field_leaf Z0_preorder ltac:(repeat split; reflexivity).

(* walking an evaluator: [Jf_bind] at every bind, the cost lemma of its first
   step from the database [jf] (or the context), the side conditions by [lia] *)
Create HintDb jf discriminated.
#[local] Hint Resolve Jf_peek Jf_next_token Jf_accept Jf_try Jf_discard : jf.
#[local] Hint Resolve Jf_of_Z0 | 5 : jf.

(* a step that has its [Z0] lemma already is a leaf *)
Ltac zwalk := repeat (mstep Z0_preorder ltac:(first [z0leaf | solve [auto 1 with jf nocore]])).

Lemma Z0_variables_set n v : mrel Z0 (variables_set n v). Proof. unfold variables_set. zwalk. Qed.
Lemma Z0_push_output o : mrel Z0 (push_output o). Proof. unfold push_output. zwalk. Qed.
Lemma Z0_rng_rnd x : mrel Z0 (rng_rnd x). Proof. unfold rng_rnd. zwalk. Qed.
Lemma Z0_maybe_default n d : mrel Z0 (maybe_create_default_array n d). Proof. unfold maybe_create_default_array. zwalk. Qed.
Lemma Z0_arrays_create n i : mrel Z0 (arrays_create n i). Proof. unfold arrays_create. zwalk. Qed.
#[local] Hint Resolve Z0_variables_set Z0_push_output Z0_rng_rnd Z0_maybe_default Z0_arrays_create : jf.
Lemma Z0_warn m : mrel Z0 (warn m). Proof. unfold warn, get_line_number. zwalk. Qed.
Lemma Z0_arrays_get n i : mrel Z0 (arrays_get n i). Proof. unfold arrays_get. zwalk. Qed.
Lemma Z0_arrays_set n i v : mrel Z0 (arrays_set n i v). Proof. unfold arrays_set. zwalk. Qed.
#[local] Hint Resolve Z0_warn Z0_arrays_get Z0_arrays_set : jf.
Lemma Z0_maybe_warn n : mrel Z0 (maybe_warn_undeclared_array n). Proof. unfold maybe_warn_undeclared_array. zwalk. Qed.
#[local] Hint Resolve Z0_maybe_warn : jf.

Lemma Z0_assign lv v : mrel Z0 (assign_value lv v).
Proof. unfold assign_value. zwalk. Qed.
Lemma Z0_next_data : mrel Z0 next_data_element.
Proof.
  intros s. unfold next_data_element.
  destruct (data_it s) as [d|].
  - destruct (data_next _ d). cbn [snd]. destruct s; repeat split.
  - destruct (data_chunks (st_keys s) (st_toks s)); try (apply (po_refl _ Z0_preorder)).
    destruct (data_next _ _). cbn [snd]. destruct s; repeat split.
Qed.
Lemma Z0_take_input : mrel Z0 take_input. Proof. unfold take_input. zwalk. Qed.
Lemma Z0_is_else : mrel Z0 is_else_of_then_clause. Proof. unfold is_else_of_then_clause, cur_tokens. zwalk. Qed.
#[local] Hint Resolve Z0_next_data Z0_take_input Z0_is_else : jf.
Lemma Z0_set_state st : mrel Z0 (modify (set_state st)).
Proof. z0leaf. Qed.
#[local] Hint Resolve Z0_assign : jf.

Lemma Jf_of_same {A} (m : M A) : mrel same m -> Jf m (fun _ => 0).
Proof. intros H. apply Jf_of_Z0, (mrel_same _ _ Z0_preorder H). Qed.
#[local] Hint Resolve Jf_of_same | 5 : jf.
#[local] Hint Resolve same_find_var same_variables_get same_get_line_number same_expect_number same_eval_unary
  same_eval_addsub same_eval_muldiv same_eval_eq same_eval_and same_eval_or same_eval_pow : jf.

Lemma Z0_get {A} (f : interp -> A) : mrel Z0 (get f). Proof. apply (mrel_get _ Z0_preorder). Qed.
Lemma Z0_lift_res {A} (r : res A) : mrel Z0 (lift_res r). Proof. apply (mrel_lift_res _ Z0_preorder). Qed.
#[local] Hint Resolve Z0_get Z0_lift_res : jf.

Ltac jarith :=
  cbv beta iota; unfold ob, KA, EF, SB in *; cbv beta iota;
  repeat (match goal with |- context [match ?v with _ => _ end] => is_var v; destruct v end; cbv beta iota);
  lia.
(* [forall r, ...]: a bound below another, or the failure side of a bind rule *)
Ltac jside := let r := fresh "r" in intros r; destruct r; cbn [recast]; try exact I; jarith.

(* the first step's cost: a [Jf_*] lemma or hypothesis, or [Jf_of_Z0] /
   [Jf_of_same] and then a [Z0_*] / [same_*] fact: two steps at most *)
Ltac jleaf := solve [eauto 2 with jf nocore].

Ltac jstep :=
  cbv beta zeta;
  lazymatch goal with
  | |- Jf (bind (bind _ _) _) _ => apply Jf_assoc
  | |- Jf (bind (ret _) _) _ => apply Jf_bind_ret
  | |- Jf (bind (if ?b then _ else _) _) _ => destruct b
  | |- Jf (bind (match ?x with _ => _ end) _) _ => destruct x
  | |- Jf (bind _ _) _ => eapply Jf_bind; [jleaf | intro | jside]
  | |- Jf (ret ?a) _ => apply (Jf_stay (Ok a)); jarith
  | |- Jf (fail ?e) _ => apply (Jf_stay (Err e None)); jarith
  | |- Jf (fail_at ?e ?l) _ => apply (Jf_stay (Err e (Some l))); jarith
  | |- Jf (panic ?p) _ => apply (Jf_stay (Panic p)); jarith
  | |- Jf out_of_fuel _ => apply (Jf_stay OutOfFuel); jarith
  | |- Jf oracle_miss _ => apply (Jf_stay OracleMiss); jarith
  | |- Jf (fun s => (?r, s)) _ => apply (Jf_stay r); jarith
  | |- Jf (if ?b then _ else _) _ => destruct b
  | |- Jf (match ?x with _ => _ end) _ => destruct x
  | |- Jf _ _ => eapply Jf_weaken; [jleaf | jside]
  end.
Ltac jwalk := repeat jstep.

Lemma Jf_has_next : Jf has_next_token (fun _ => 1).
Proof. unfold has_next_token. jwalk. Qed.
Lemma Jf_peek_is t : Jf (peek_is t) (fun _ => 1).
Proof. unfold peek_is. jwalk. Qed.
Lemma Jf_next_unwrapped : Jf next_unwrapped_token (ob (1 - KA) 1).
Proof. unfold next_unwrapped_token. jwalk. Qed.
#[local] Hint Resolve Jf_has_next Jf_peek_is Jf_next_unwrapped : jf.
Lemma Jf_expect t : Jf (expect_next_token t) (ob (1 - KA) 1).
Proof. unfold expect_next_token. jwalk. Qed.
Lemma Jf_accept_as {O} t (o : O) : Jf (accept_as t o) (fun r => match r with Ok (Some _) => 1 - KA | _ => 1 end).
Proof. unfold accept_as. jwalk. Qed.
#[local] Hint Resolve Jf_expect Jf_accept_as : jf.

Lemma user_fn_none (rec : M value) name s : functions s = [] -> user_function_call rec name s = (Ok None, s).
Proof. intros H. unfold user_function_call. rewrite bind_get, H. reflexivity. Qed.

Lemma Jf_user_function_call (rec : M value) name B : 0 <= B (Ok None) -> Jf (user_function_call rec name) B.
Proof. intros H s Hfn. rewrite (user_fn_none rec name s Hfn). apply Fpost_stay; assumption. Qed.

(* A term costs 2 - KA (its token pays, the "(" peek does not; likewise an
   lvalue), in parentheses or not 3 - KA, with or without a sign 4 - KA; each
   of the six tiers adds its last miss: -1 for an expression.  The brackets of
   ( arg ) pay 2 - 2 * KA, those of a subscript list 3 - 2 * KA: the comma that
   is not there. *)

Section ExprCost.
  Variable fuel : nat.
  Variable rec : M value.
  Hypothesis HJrec : Jf rec (ob 0 EF).

  Lemma Jf_unary_arg : Jf (unary_number_function_arg rec) (ob (2 - 2 * KA) EF).
  Proof. unfold unary_number_function_arg. jwalk. Qed.
  Hint Resolve Jf_unary_arg : jf.

  Lemma Jf_array_index : Jf (evaluate_array_index fuel rec) (ob (3 - 2 * KA) EF).
  Proof.
    unfold evaluate_array_index.
    pose proof (fun body Hb => @Jf_repeat (list N) (list N) body 1 EF Hb ltac:(unfold EF; lia) fuel) as Hloop.
    eapply Jf_bind; [jleaf | intro | jside].
    eapply Jf_bind; [apply Hloop; intros acc; jwalk | intro; jwalk | jside].
  Qed.

  Lemma Jf_function_call name :
    Jf (function_call rec name) (fun r => match r with Ok (Some _) => 2 - 2 * KA | Ok None => 0 | _ => EF end).
  Proof. unfold function_call. jwalk. apply Jf_user_function_call. lia. Qed.
  Hint Resolve Jf_array_index Jf_function_call : jf.

  Lemma Jf_term : Jf (expression_term fuel rec) (ob (2 - KA) 1).
  Proof. unfold expression_term. jwalk. Qed.
  Hint Resolve Jf_term : jf.

  Lemma Jf_paren : Jf (parenthesized_expression fuel rec) (ob (3 - KA) 2).
  Proof. unfold parenthesized_expression. jwalk. Qed.
  Hint Resolve Jf_paren : jf.

  Lemma Jf_unary : Jf (unary_operator fuel rec) (ob (4 - KA) EF).
  Proof. unfold unary_operator. jwalk. Qed.

  (* every tier adds the read that finds no further operator *)
  Lemma Jf_tier {O} (get_op : M (option O)) (operand : M value) (ap : O -> value -> value -> M value) bo bo' :
    Jf get_op (fun r => match r with Ok (Some _) => 1 - KA | _ => 1 end) ->
    (forall o x y, Jf (ap o x y) (fun _ => 0)) ->
    Jf operand (ob bo EF) -> bo <= 0 -> bo' = bo + 1 ->
    Jf (tier fuel get_op operand ap) (ob bo' EF).
  Proof.
    intros Jg Ja Jo Hbo ->. unfold tier.
    eapply Jf_bind; [exact Jo | intro | jside].
    eapply Jf_weaken; [apply (Jf_repeat _ 1 EF) | jside]; [|unfold EF; lia].
    intros acc. jwalk.
  Qed.

  Lemma Jf_logical_or : Jf (logical_or_expression fuel rec) (ob (-1) EF).
  Proof.
    unfold logical_or_expression, logical_and_expression, equality_expression,
      plus_or_minus_expression, multiply_or_divide_expression, exponent_expression.
    repeat (eapply Jf_tier; [jleaf | intros; jleaf | | |]); [apply Jf_unary | ..]; first [reflexivity | unfold KA; lia].
  Qed.
End ExprCost.

Theorem Jf_evaluate_expression fuel : forall n, Jf (evaluate_expression fuel n) (ob (-1) EF).
Proof.
  induction fuel as [|k IH]; intros n; cbn [evaluate_expression]; [jwalk|].
  destruct (Nat.eqb n max_nesting); [jwalk|].
  apply Jf_logical_or. eapply Jf_weaken; [apply IH | jside].
Qed.

Theorem Jc_evaluate_expression fuel : forall n, Jc (evaluate_expression fuel n) (ob (-1) EF).
Proof. intros n. apply Jc_of_Jf, Jf_evaluate_expression. Qed.

(* a peek whose answer the continuation depends on, and the read that follows it *)
Lemma Fpost_peek {A} (B : res A -> Z) (k : option token -> M A) s : functions s = [] ->
  (forall p, 1 <= B (Panic p)) ->
  Fpost (fun r => B r - 1) (bump s) (k (nth_error (cur_toks s) (loc_idx (loc s))) (bump s)) ->
  Fpost B s (bind peek_next_token k s).
Proof.
  intros Hfn Hp H. rewrite bind_run. destruct (peek_run s) as [E|[_ [p E]]]; rewrite E; [|apply Fpost_bump; auto].
  apply (Fpost_trans B s (bump s) 1); [rewrite zr_bump | change (zi (bump s)) with (zi s)| exact H]; change (zm (bump s)) with (zm s); lia.
Qed.

Lemma Fpost_next_some {A} (B : res A -> Z) (k : option token -> M A) s t :
  nth_error (cur_toks s) (loc_idx (loc s)) = Some t ->
  Fpost (fun r => B r - (1 - KA)) (adv s) (k (Some t) (adv s)) ->
  Fpost B s (bind next_token k s).
Proof.
  intros Et H. rewrite bind_run. unfold next_token. rewrite bind_run.
  destruct (peek_run s) as [E|[E _]]; [|rewrite E in Et; destruct (loc_idx (loc s)); discriminate Et].
  rewrite E, Et. destruct (adv_facts s t Et) as (A1 & A2 & A3).
  apply (Fpost_trans B s (adv s) (1 - KA)); [rewrite A1, A2; unfold KA; lia | rewrite A3, A2; lia | exact H].
Qed.

Section StmtLine.
  Variable fuel nest : nat.

  Lemma Jf_expr : Jf (expr fuel nest) (ob (-1) EF).
  Proof. apply Jf_evaluate_expression. Qed.
  Hint Resolve Jf_expr : jf.

  Lemma Jf_st_array_index : Jf (evaluate_array_index fuel (expr fuel nest)) (ob (3 - 2 * KA) EF).
  Proof. apply Jf_array_index. eapply Jf_weaken; [apply Jf_expr | jside]. Qed.
  Hint Resolve Jf_st_array_index : jf.

  Lemma Jc_st_array_index : Jc (evaluate_array_index fuel (expr fuel nest)) (ob (3 - 2 * KA) EF).
  Proof. apply Jc_of_Jf, Jf_st_array_index. Qed.

  Lemma Jf_optional_index : Jf (parse_optional_array_index fuel nest) (ob 1 (EF + 1)).
  Proof. unfold parse_optional_array_index. jwalk. Qed.
  Hint Resolve Jf_optional_index : jf.

  Lemma Jf_parse_lvalue : Jf (parse_lvalue fuel nest) (ob (2 - KA) 1).
  Proof. unfold parse_lvalue. jwalk. Qed.
  Hint Resolve Jf_parse_lvalue : jf.

  Lemma Jf_dim : Jf (evaluate_dim_statement fuel nest) (ob (2 - KA) 1).
  Proof. unfold evaluate_dim_statement. jwalk. Qed.

  Lemma Jf_assignment sym : Jf (evaluate_assignment_statement fuel nest sym) (ob (1 - KA) (EF + 1)).
  Proof. unfold evaluate_assignment_statement. jwalk. Qed.
  Hint Resolve Jf_assignment : jf.

  Lemma Jf_let : Jf (evaluate_let_statement fuel nest) (ob (2 - 2 * KA) 1).
  Proof. unfold evaluate_let_statement. jwalk. Qed.

  (* PRINT.  An item that is an expression — every token but five — is paid by
     the tokens of the expression; a separator is read twice, by the peek and
     by the [next_token] that is then certain to consume it. *)
  Lemma Jf_print : Jf (evaluate_print_statement fuel nest) (ob 1 (EF + 1)).
  Proof.
    unfold evaluate_print_statement.
    eapply Jf_bind; [apply (Jf_repeat _ 1 (EF + 1)); [|unfold EF; lia] | intros [semi text]; jwalk | jside].
    intros [semi text].
    assert (Hitem : Jf (v <- expr fuel nest ;; ret (@inl _ (bool * bytes) (false, text ++ show_value v)))
                       (fun r => match r with Ok (inl _) => 0 | Ok (inr _) => 1 | _ => EF + 1 end - 1)) by jwalk.
    intros s Hfn. apply Fpost_peek; [exact Hfn | intros; unfold EF; lia|].
    assert (Hfn1 : functions (bump s) = []) by exact Hfn.
    destruct (nth_error (cur_toks s) (loc_idx (loc s))) as [t|] eqn:Et; [|apply Fpost_stay; trivial; lia].
    destruct t; try exact (Hitem (bump s) Hfn1); try (apply Fpost_stay; trivial; lia);
      (apply (Fpost_next_some _ _ (bump s) _ Et); apply Fpost_stay; trivial; unfold KA; lia).
  Qed.
End StmtLine.
(* a section's hints end with it *)
#[local] Hint Resolve Jf_expr Jf_st_array_index Jf_optional_index Jf_parse_lvalue Jf_dim Jf_assignment Jf_let Jf_print : jf.

(* what runs after the cursor may have left the line costs a constant *)
Definition Kpost {A} (c : Z) (s : interp) (x : res A * interp) : Prop := zr (snd x) <= zr s + c.
Definition Kc {A} (m : M A) (c : Z) : Prop := forall s, Kpost c s (m s).

Lemma Kpost_trans {A} c c1 s s1 (x : res A * interp) : zr s1 <= zr s + c1 -> Kpost (c - c1) s1 x -> Kpost c s x.
Proof. unfold Kpost. lia. Qed.

Lemma Kc_stay {A} (r : res A) c : 0 <= c -> Kc (fun s => (r, s)) c.
Proof. intros H s. unfold Kpost. cbn [snd]. lia. Qed.

Lemma Kc_weaken {A} (m : M A) c1 c : Kc m c1 -> c1 <= c -> Kc m c.
Proof. intros H Hc s. specialize (H s). unfold Kpost in *. lia. Qed.

Lemma Kc_bind {A C} (m : M A) (f : A -> M C) c1 c :
  Kc m c1 -> (forall a, Kc (f a) (c - c1)) -> c1 <= c -> Kc (bind m f) c.
Proof.
  intros Hm Hf Hc s. rewrite bind_run. specialize (Hm s).
  destruct (m s) as [[a|e l|p| |] s1]; [exact (Kpost_trans c c1 s s1 _ Hm (Hf a s1)) | unfold Kpost in *; cbn [snd] in *; lia ..].
Qed.

Lemma Kc_assoc {A C D} (m : M A) (f : A -> M C) (g : C -> M D) c :
  Kc (bind m (fun a => bind (f a) g)) c -> Kc (bind (bind m f) g) c.
Proof. intros H s. rewrite bind_assoc. exact (H s). Qed.

Lemma Kc_bind_ret {A C} (a : A) (f : A -> M C) c : Kc (f a) c -> Kc (bind (ret a) f) c.
Proof. exact (fun H => H). Qed.

Lemma Kc_of_keeps {A} (m : M A) : mrel (keeps reads) m -> Kc m 0.
Proof. intros H s. unfold Kpost, zr. rewrite (H s). lia. Qed.

Ltac krleaf := field_leaf (keeps_preorder reads) ltac:(reflexivity).
Create HintDb kc discriminated.
Ltac krwalk := cbv zeta; repeat (mstep (keeps_preorder reads) ltac:(first [krleaf | solve [auto 1 with kc nocore]])).

Lemma KR_set_imm ts : mrel (keeps reads) (set_and_goto_immediate_line ts).
Proof. unfold set_and_goto_immediate_line. krwalk. Qed.
Lemma KR_goto n : mrel (keeps reads) (goto_line_number n).
Proof. unfold goto_line_number. krwalk. Qed.
#[local] Hint Resolve KR_set_imm KR_goto : kc.
Lemma KR_gosub n : mrel (keeps reads) (gosub_line_number n).
Proof. unfold gosub_line_number. krwalk. Qed.
Lemma KR_return : mrel (keeps reads) return_to_last_gosub.
Proof. unfold return_to_last_gosub. krwalk. Qed.
Lemma KR_program_end : mrel (keeps reads) program_end.
Proof. unfold program_end. krwalk. Qed.
Lemma KR_break : mrel (keeps reads) break_at_current_location.
Proof. unfold break_at_current_location, get_line_number, push_output, program_break_at_current_location. krwalk. Qed.
Lemma KR_start_loop sym a b c : mrel (keeps reads) (start_loop sym a b c).
Proof. unfold start_loop, remove_loop_with_name, variables_set. krwalk. Qed.
Lemma KR_end_loop sym : mrel (keeps reads) (end_loop sym).
Proof. unfold end_loop, remove_loop_with_name, variables_get, variables_set. krwalk. Qed.
Lemma KR_reset_data : mrel (keeps reads) reset_data_cursor.
Proof. unfold reset_data_cursor. krwalk. Qed.
Lemma KR_define_function n a : mrel (keeps reads) (define_function n a).
Proof. unfold define_function. krwalk. Qed.
Lemma KR_next_line : mrel (keeps reads) next_line.
Proof. unfold next_line. krwalk. Qed.
Lemma KR_discard : mrel (keeps reads) discard_remaining_tokens.
Proof. unfold discard_remaining_tokens, cur_tokens. krwalk. Qed.
Lemma KR_idle : mrel (keeps reads) return_to_idle_state.
Proof. unfold return_to_idle_state. krwalk. Qed.

Lemma Kc_peek : Kc peek_next_token 1.
Proof. intros s. unfold Kpost. destruct (peek_run s) as [E|[_ [p E]]]; rewrite E; cbn [snd]; rewrite zr_bump; lia. Qed.

#[local] Hint Resolve Kc_peek : kc.
#[local] Hint Resolve Kc_of_keeps | 5 : kc.
#[local] Hint Resolve KR_gosub KR_return KR_program_end KR_break KR_start_loop KR_end_loop
  KR_reset_data KR_define_function KR_next_line KR_discard KR_idle : kc.

Ltac kleaf := solve [eauto 2 with kc nocore].
Ltac kstep :=
  cbv beta iota zeta;
  lazymatch goal with
  | |- Kc (bind (bind _ _) _) _ => apply Kc_assoc
  | |- Kc (bind (ret _) _) _ => apply Kc_bind_ret
  | |- Kc (bind (if ?b then _ else _) _) _ => destruct b
  | |- Kc (bind (match ?x with _ => _ end) _) _ => destruct x
  | |- Kc (bind _ _) _ => eapply Kc_bind; [kleaf | intro | jarith]
  | |- Kc (ret ?a) _ => apply (Kc_stay (Ok a)); jarith
  | |- Kc (fail ?e) _ => apply (Kc_stay (Err e None)); jarith
  | |- Kc (if ?b then _ else _) _ => destruct b
  | |- Kc (match ?x with _ => _ end) _ => destruct x
  | |- Kc _ _ => eapply Kc_weaken; [kleaf | jarith]
  end.
Ltac kwalk := repeat kstep.

Lemma Kc_peek_is t : Kc (peek_is t) 1.
Proof. unfold peek_is. kwalk. Qed.
Lemma Kc_has_next : Kc has_next_token 1.
Proof. unfold has_next_token. kwalk. Qed.
#[local] Hint Resolve Kc_peek_is Kc_has_next : kc.

(* a statement as a whole, against the room at entry.  [KA + 1] per token left, not [KA]: a token that is
   taken becomes a token before the cursor, and INPUT's rewind may read it once more; [zi s] pays for those
   that were before the cursor already ([Spost_trans], [await_cost]) *)
Definition Spost {A} (b : Z) (s : interp) (x : res A * interp) : Prop :=
  zr (snd x) <= zr s + (KA + 1) * zm s + zi s + b.

Definition Sf {A} (m : M A) (b : Z) : Prop := forall s, functions s = [] -> Spost b s (m s).

Lemma Spost_weaken {A} b1 b2 s (x : res A * interp) : b1 <= b2 -> Spost b1 s x -> Spost b2 s x.
Proof. unfold Spost. lia. Qed.

Lemma Spost_trans {A} b s s1 c (x : res A * interp) :
  zr s1 <= zr s + KA * (zm s - zm s1) + c -> zi s1 <= zi s + (zm s - zm s1) ->
  Spost (b - c) s1 x -> Spost b s x.
Proof. unfold Spost. pose proof (zm_nonneg s1). unfold KA. lia. Qed.

Lemma Spost_of_K {A} b c s (x : res A * interp) : c <= b -> Kpost c s x -> Spost b s x.
Proof. unfold Spost, Kpost. pose proof (zm_nonneg s). pose proof (zi_nonneg s). unfold KA. lia. Qed.

Lemma Spost_then_K {A} b b1 s s1 (x : res A * interp) :
  zr s1 <= zr s + (KA + 1) * zm s + zi s + b1 -> Kpost (b - b1) s1 x -> Spost b s x.
Proof. unfold Spost, Kpost. lia. Qed.

Lemma Sf_weaken {A} (m : M A) b1 b : Sf m b1 -> b1 <= b -> Sf m b.
Proof. intros H Hb s Hfn. exact (Spost_weaken b1 b s _ Hb (H s Hfn)). Qed.

Lemma Spost_of_J {A} (B : res A -> Z) b s (x : res A * interp) : (forall r, B r <= b) -> Jpost B s x -> Spost b s x.
Proof.
  intros HB. unfold Jpost, Spost. destruct x as [r s']. cbn [fst snd]. pose proof (HB r).
  pose proof (zm_nonneg s). pose proof (zm_nonneg s'). pose proof (zi_nonneg s). unfold KA in *.
  destruct r; intros; lia.
Qed.

Lemma Sf_of_Jf {A} (m : M A) B b : Jf m B -> (forall r, B r <= b) -> Sf m b.
Proof. intros H HB s Hfn. exact (Spost_of_J _ _ _ _ HB (proj1 (H s Hfn))). Qed.

Lemma Sf_of_Kc {A} (m : M A) c b : Kc m c -> c <= b -> Sf m b.
Proof. intros H Hc s _. exact (Spost_of_K b c s _ Hc (H s)). Qed.

Lemma Sf_bind {A C} (m : M A) (f : A -> M C) (B1 : res A -> Z) b :
  Jf m B1 -> (forall a, Sf (f a) (b - B1 (Ok a))) ->
  (forall r, match r with Ok _ => True | _ => B1 r <= b end) ->
  Sf (bind m f) b.
Proof.
  intros Hm Hf Hs s Hfn. rewrite bind_run. destruct (Hm s Hfn) as [HJ Hfn1].
  destruct (m s) as [r s1]. pose proof (Hs r) as Hr. cbn [snd] in Hfn1.
  pose proof (zm_nonneg s). pose proof (zi_nonneg s).
  destruct r as [a|e l|p| |]; try (unfold Jpost, Spost in *; cbn [fst snd] in *; unfold KA in *; lia).
  destruct HJ as [H1 H2]. exact (Spost_trans b s s1 _ _ H1 H2 (Hf a s1 Hfn1)).
Qed.

(* a statement that may leave the line: only a tail may follow *)
Lemma Sf_then_K {A C} (m : M A) (f : A -> M C) b1 b :
  Sf m b1 -> (forall a, Kc (f a) (b - b1)) -> b1 <= b -> Sf (bind m f) b.
Proof.
  intros Hm Hf Hb s Hfn. rewrite bind_run. specialize (Hm s Hfn).
  destruct (m s) as [[a|e l|p| |] s1]; [exact (Spost_then_K b b1 s s1 _ Hm (Hf a s1)) | unfold Spost in *; cbn [snd] in *; lia ..].
Qed.

Lemma Sf_assoc {A C D} (m : M A) (f : A -> M C) (g : C -> M D) b :
  Sf (bind m (fun a => bind (f a) g)) b -> Sf (bind (bind m f) g) b.
Proof. intros H s Hfn. rewrite bind_assoc. exact (H s Hfn). Qed.

Lemma Sf_bind_ret {A C} (a : A) (f : A -> M C) b : Sf (f a) b -> Sf (bind (ret a) f) b.
Proof. exact (fun H => H). Qed.

Lemma Sf_stay {A} (r : res A) b : 0 <= b -> Sf (fun s => (r, s)) b.
Proof. intros H. apply (Sf_of_Kc _ 0); [apply Kc_stay|]; lia. Qed.

(* at a bind, three cases: the first step stays on the line and hands on what it did not spend ([Sf_bind]); the
   first step may leave the line, after which only a tail of constant cost may follow ([Sf_then_K]); the whole
   is of constant cost ([Sf_of_Kc]).  The hints of [jf], [kc], [sf] are for this file's walks only *)
Create HintDb sf discriminated.
Ltac sleaf := solve [eauto 2 with sf nocore].
Ltac sstep :=
  cbv beta iota zeta;
  lazymatch goal with
  | |- Sf (bind (bind _ _) _) _ => apply Sf_assoc
  | |- Sf (bind (ret _) _) _ => apply Sf_bind_ret
  | |- Sf (bind (if ?b then _ else _) _) _ => destruct b
  | |- Sf (bind (match ?x with _ => _ end) _) _ => destruct x
  | |- Sf (bind _ _) ?b =>
      first [ eapply Sf_bind; [jleaf | intro | jside]
            | eapply Sf_then_K; [sleaf | intro; kwalk | jarith]
            | apply (Sf_of_Kc _ b b); [kwalk | lia] ]
  | |- Sf (ret ?a) _ => apply (Sf_stay (Ok a)); jarith
  | |- Sf (fail ?e) _ => apply (Sf_stay (Err e None)); jarith
  | |- Sf (panic ?p) _ => apply (Sf_stay (Panic p)); jarith
  | |- Sf out_of_fuel _ => apply (Sf_stay OutOfFuel); jarith
  | |- Sf (fun s => (?r, s)) _ => apply (Sf_stay r); jarith
  | |- Sf (if ?b then _ else _) _ => destruct b
  | |- Sf (match ?x with _ => _ end) _ => destruct x
  | |- Sf _ ?b =>
      first [ eapply Sf_of_Jf; [jleaf | jside]
            | eapply Sf_weaken; [sleaf | jarith]
            | eapply Sf_of_Kc; [kleaf | jarith] ]
  end.
Ltac swalk := repeat sstep.

(* INPUT rewinds over the tokens before the cursor, one read each *)
Lemma rewind_cost t : forall i s, zr (snd (rewind_loop i t s)) <= zr s + Z.of_nat i.
Proof.
  induction i as [|i IH]; intros s; cbn [rewind_loop]; [unfold panic; cbn [snd]; lia|].
  rewrite bind_modify. rewrite bind_run.
  set (s1 := set_loc _ s). pose proof (Kc_peek_is t s1) as H. unfold Kpost in H.
  change (zr s1) with (zr s) in H.
  destruct (peek_is t s1) as [[b|e l|p| |] s2]; cbn [snd] in *; try lia.
  destruct b; [unfold ret; cbn [snd]; lia|]. specialize (IH s2). lia.
Qed.

Lemma await_cost s : zr (snd (rewind_program_and_await_input s)) <= zr s + zi s.
Proof.
  unfold rewind_program_and_await_input, rewind_before_token. rewrite bind_run, bind_get.
  pose proof (rewind_cost TInput (loc_idx (loc s)) s) as H.
  destruct (rewind_loop (loc_idx (loc s)) TInput s) as [[u|e l|p| |] s1]; cbn [snd] in *; unfold zi; try lia.
  unfold modify. cbn [snd]. change (zr (set_state AwaitingInput s1)) with (zr s1). lia.
Qed.

Lemma Spost_await b s : 0 <= b -> Spost b s (rewind_program_and_await_input s).
Proof. intros Hb. unfold Spost. pose proof (await_cost s). pose proof (zm_nonneg s). unfold KA. lia. Qed.

Lemma Sf_await : Sf rewind_program_and_await_input 0.
Proof. intros s _. apply Spost_await. lia. Qed.
#[local] Hint Resolve Sf_await : sf.

Section StmtCost.
  Variable fuel nest : nat.
  Variable rec : M unit.
  Hypothesis HSrec : Sf rec SB.

  Lemma Sf_goto_stmt : Sf evaluate_goto_statement 1.
  Proof. unfold evaluate_goto_statement. swalk. Qed.
  Hint Resolve Sf_goto_stmt : sf.

  Lemma Sf_gosub_stmt : Sf evaluate_gosub_statement 1.
  Proof. unfold evaluate_gosub_statement. swalk. Qed.

  Lemma Sf_stmt_or_goto : Sf (statement_or_goto_line_number rec) (SB + 1).
  Proof. unfold statement_or_goto_line_number. swalk. Qed.
  Hint Resolve Sf_stmt_or_goto : sf.

  Lemma Sf_next_stmt : Sf evaluate_next_statement 1.
  Proof. unfold evaluate_next_statement. swalk. Qed.

  Lemma Sf_for : Sf (evaluate_for_statement fuel nest) 1.
  Proof. unfold evaluate_for_statement. swalk. Qed.

  Lemma Jf_read : Jf (evaluate_read_statement fuel nest) (ob 1 (EF + 2)).
  Proof.
    unfold evaluate_read_statement. apply (Jf_repeat _ 1 (EF + 2)); [|unfold EF; lia]. intros []. jwalk.
  Qed.

  Lemma Sf_input : Sf (evaluate_input_statement fuel nest) 1.
  Proof. unfold evaluate_input_statement. swalk. Qed.

  Definition def_skip : unit -> M (unit + unit) := fun _ : unit =>
    t <- next_token ;;
    match t with
    | None => ret (inr tt)
    | Some TColon => ret (inr tt)
    | Some _ => ret (inl tt)
    end.
  Definition def_tail (name : bytes) (args : list bytes) : M unit :=
    define_function name args ;;; repeat_m fuel def_skip tt.

  (* the function table is not empty after DEF, and the skip only moves the cursor *)
  Lemma skip_cost : forall n s, zr (snd (repeat_m n def_skip tt s)) <= zr s + KA * zm s + 1.
  Proof.
    induction n as [|n IH]; intros s; pose proof (zm_nonneg s); cbn [repeat_m]; [unfold out_of_fuel, KA; cbn [snd]; lia|].
    unfold def_skip at 1. rewrite bind_assoc, bind_run. pose proof (next_token_run s) as Hn.
    destruct (nth_error (cur_toks s) (loc_idx (loc s))) as [t|] eqn:Et.
    - rewrite Hn. destruct (adv_facts s t Et) as (A1 & A2 & A3). specialize (IH (adv s)). pose proof (zm_nonneg (adv s)).
      destruct t; rewrite bind_ret; cbv beta iota; unfold ret; cbn [snd]; unfold KA in *; lia.
    - destruct Hn as (r & -> & Hr). destruct r as [[t|]|e l|p| |]; rewrite ?bind_ret; try (unfold ret; cbn [snd]; rewrite zr_bump; unfold KA; lia).
      destruct (Hr t eq_refl).
  Qed.

  Lemma Sf_def_tail name args : Sf (def_tail name args) 1.
  Proof.
    intros s _. unfold def_tail, Spost. rewrite bind_run.
    pose proof (KR_define_function name args s) as Hk.
    assert (Hroom : zm (snd (define_function name args s)) = zm s /\ zi (snd (define_function name args s)) = zi s).
    { unfold define_function. rewrite bind_get. destruct (loc_line (loc s)); split; reflexivity. }
    pose proof (zm_nonneg s). pose proof (zi_nonneg s).
    destruct (define_function name args s) as [[u|e l|p| |] s1]; cbn [snd] in *; unfold keeps in Hk;
      try (unfold zr; rewrite Hk; unfold KA; lia).
    pose proof (skip_cost fuel s1) as Hsk. destruct Hroom as [R1 R2].
    rewrite R1 in Hsk. unfold zr in *. rewrite Hk in Hsk. unfold KA in *. lia.
  Qed.
  Hint Resolve Sf_def_tail : sf.

  Lemma def_unfold : evaluate_def_statement fuel =
    (t <- next_token ;;
     match t with
     | Some (TSymbol name) =>
         expect_next_token TLeftParen ;;;
         args <- repeat_m fuel (fun acc : list bytes =>
                   a <- next_token ;;
                   match a with
                   | Some (TSymbol arg) =>
                       let acc' := acc ++ [arg] in
                       d <- next_token ;;
                       match d with
                       | Some TComma => ret (inl acc')
                       | Some TRightParen => ret (inr acc')
                       | _ => fail EUnexpectedToken
                       end
                   | _ => fail EUnexpectedToken
                   end) [] ;;
         expect_next_token TEquals ;;;
         def_tail name args
     | _ => fail EUnexpectedToken
     end).
  Proof. reflexivity. Qed.

  Lemma Sf_def : Sf (evaluate_def_statement fuel) 2.
  Proof.
    rewrite def_unfold.
    match goal with |- context [repeat_m fuel ?b _] =>
      assert (Hloop : forall acc, Jf (repeat_m fuel b acc) (ob 0 1)) by (apply Jf_repeat; [intros acc; jwalk | lia]) end.
    swalk.
  Qed.

  (* IF: the scan for ELSE after a false condition *)
  Lemma Sf_if_scan : forall n u, Sf (repeat_m n (if_scan_body rec) u) (SB + 2).
  Proof.
    induction n as [|n IH]; intros u; cbn [repeat_m]; [swalk|].
    unfold if_scan_body at 1. swalk.
  Qed.

  (* the condition may fail (EF) where the selected statement would have cost SB *)
  Lemma Sf_if : Sf (evaluate_if_statement fuel nest rec) (SB + EF).
  Proof. rewrite if_unfold. unfold if_clause, else_probe. pose proof (Sf_if_scan fuel). swalk. Qed.

  Hint Resolve Sf_input Sf_if Sf_gosub_stmt Sf_for Sf_next_stmt Sf_def : sf.
  Hint Resolve Jf_read : jf.

  Lemma Sf_statement_body : Sf (evaluate_statement_body fuel nest rec) SB.
  Proof. unfold evaluate_statement_body. swalk. Qed.
End StmtCost.

Theorem Sf_evaluate_statement fuel : forall n, Sf (evaluate_statement fuel n) SB.
Proof.
  induction fuel as [|k IH]; intros n; cbn [evaluate_statement]; [swalk|].
  destruct (Nat.eqb n max_nesting); [swalk|]. apply Sf_statement_body, IH.
Qed.

Lemma Sf_run_next_statement fuel : Sf (run_next_statement fuel) (SB + 2).
Proof.
  pose proof (Sf_evaluate_statement fuel 0). pose proof (Z0_set_state Running).
  unfold run_next_statement. swalk.
Qed.

(* THE WORK BOUND, in the hook counter's own terms.  [room s] = tokens left on
   the line the cursor is on, [loc_idx (loc s)] = tokens before the cursor
   (they can only cost a read when INPUT rewinds over them). *)
Local Open Scope nat_scope.

(* 12 = KA + 1 and 4 = SB + 2 ([Sf_run_next_statement]) *)
Lemma turn_cost fuel s : functions s = [] ->
  reads (snd (run_next_statement fuel s)) <= reads s + 12 * room s + loc_idx (loc s) + 4.
Proof. intros Hfn. pose proof (Sf_run_next_statement fuel s Hfn) as H. unfold Spost, zr, zm, zi, KA, SB in H. lia. Qed.

Theorem work_bound_turn fuel s : wf s -> functions s = [] ->
  reads (snd (run_next_statement fuel s)) <= reads s + 12 * room s + loc_idx (loc s) + 4.
Proof. intros _. apply turn_cost. Qed.

Lemma postprocess_reads {A} (x : res A * interp) : reads (snd (postprocess x)) = reads (snd x).
Proof. destruct x as [[a|e l|p| |] s]; reflexivity. Qed.

Theorem work_bound_continue fuel s : wf s -> functions s = [] -> state s = Running ->
  reads (snd (continue_evaluating fuel s)) <= reads s + 12 * room s + loc_idx (loc s) + 4.
Proof.
  intros _ Hfn Hst. unfold continue_evaluating. rewrite Hst, postprocess_reads. apply turn_cost, Hfn.
Qed.

Lemma imm_reset_fields ts s :
  functions (imm_reset ts s) = functions s /\ reads (imm_reset ts s) = reads s
  /\ room (imm_reset ts s) = length ts /\ loc_idx (loc (imm_reset ts s)) = 0.
Proof.
  unfold room, cur_toks, imm_reset. destruct s as [? ? ? ? b]; destruct b; cbn; rewrite Nat.sub_0_r; repeat split.
Qed.

(* a line of statements typed at the prompt: the line executed is the typed one *)
Theorem work_bound_immediate fuel line ts s : wf s -> functions s = [] -> state s = Idle ->
  command_of line = None -> parse_line_number line = None -> tokenize line 0 = TokOk ts ->
  reads (snd (start_evaluating fuel line s)) <= reads s + 12 * length ts + 4.
Proof.
  intros _ Hfn Hidle Hc Hp Ht. rewrite (start_turn fuel s line _ (tf_immediate s line ts Hidle Hc Hp Ht)), postprocess_reads.
  destruct (imm_reset_fields (map fst ts) s) as (F & R & Hr & Hi). rewrite Hfn in F.
  pose proof (turn_cost fuel _ F) as H. rewrite R, Hr, Hi, map_length, Nat.add_0_r in H. exact H.
Qed.

(* RUN: the function table is emptied by RUN itself; the line executed is the
   first stored line ([lim]: the longest token list in the interpreter) *)
Theorem work_bound_run fuel line s : wf s -> state s = Idle -> command_of line = Some CRun ->
  reads (snd (start_evaluating fuel line s)) <= reads s + 12 * lim s + 4.
Proof.
  intros _ Hidle Hc. rewrite (start_turn fuel s line _ (tf_run s line Hidle Hc)), postprocess_reads.
  pose proof (turn_cost fuel (clean s) eq_refl) as H. pose proof (room_lim (clean s)) as Hl.
  assert (Hi : loc_idx (loc (clean s)) = 0) by (unfold clean; cbn [loc]; destruct (store_first s); reflexivity).
  assert (Hlim : lim (clean s) <= lim s) by (unfold lim, clean; cbn [st_toks immediate length]; lia).
  rewrite Hi in H. change (reads (clean s)) with (reads s) in H. lia.
Qed.

(* CONT: the line executed is the one the breakpoint is on *)
Theorem work_bound_cont fuel line s n i ts : wf s -> functions s = [] -> state s = Idle ->
  command_of line = Some CCont -> breakpoint s = Some (n, i) -> toks_get n (st_toks s) = Some ts ->
  reads (snd (start_evaluating fuel line s)) <= reads s + 12 * (length ts - i) + i + 4.
Proof.
  intros _ Hfn Hidle Hc Hbp Hts. rewrite (start_turn fuel s line _ (tf_cont s line _ Hidle Hc Hbp)), postprocess_reads.
  set (s1 := resumed _ s).
  assert (Hroom : room s1 = length ts - i).
  { unfold room, cur_toks, s1. destruct s; cbn in *. rewrite Hts. reflexivity. }
  pose proof (turn_cost fuel s1 ltac:(destruct s; exact Hfn)) as H. rewrite Hroom in H.
  replace (reads s1) with (reads s) in H by (destruct s; reflexivity).
  replace (loc_idx (loc s1)) with i in H by (destruct s; reflexivity). exact H.
Qed.

(* What nothing above uses: what RUN's prefix leaves, the pointwise facts about the fixed [Jpost] for the steps
   that leave the state as it is, and the forms with [wf s] as a hypothesis, [Jc] of [Jf] and [Sb] of [Sf], of
   some of the walks' results. *)
Lemma run_from_first_facts s : exists s1,
  run_from_first_numbered_line s = (Ok tt, s1) /\ functions s1 = [] /\ reads s1 = reads s
  /\ loc_idx (loc s1) = 0 /\ st_toks s1 = st_toks s /\ immediate s1 = [].
Proof.
  eexists. split; [reflexivity|]. unfold store_first. destruct s as [? ks ? ? bp]. destruct bp, ks; repeat split.
Qed.

Local Open Scope Z_scope.
Lemma Jc_weaken {A} (m : M A) B1 B2 : (forall r, B1 r <= B2 r) -> Jc m B1 -> Jc m B2.
Proof. intros H Hm s Hwf Hfn. exact (Jpost_weaken _ _ _ _ H (Hm s Hwf Hfn)). Qed.
Lemma Jpost_ret {A} (B : res A -> Z) s (x : A) : 0 <= B (Ok x) -> Jpost B s (ret x s).
Proof. apply Jpost_stay. Qed.
Lemma Jpost_fail {A} (B : res A -> Z) s e : 0 <= B (Err e None) -> Jpost B s (@fail A e s).
Proof. apply Jpost_stay. Qed.
Lemma Jpost_fail_at {A} (B : res A -> Z) s e l : 0 <= B (Err e (Some l)) -> Jpost B s (@fail_at A e l s).
Proof. apply Jpost_stay. Qed.
Lemma Jpost_panic {A} (B : res A -> Z) s p : 0 <= B (Panic p) -> Jpost B s (@panic A p s).
Proof. apply Jpost_stay. Qed.
Lemma Jpost_out_of_fuel {A} (B : res A -> Z) s : 0 <= B OutOfFuel -> Jpost B s (@out_of_fuel A s).
Proof. apply Jpost_stay. Qed.
Lemma Jpost_oracle_miss {A} (B : res A -> Z) s : 0 <= B OracleMiss -> Jpost B s (@oracle_miss A s).
Proof. apply Jpost_stay. Qed.
Lemma Jpost_lift_res {A} (B : res A -> Z) s (r : res A) : 0 <= B r -> Jpost B s (lift_res r s).
Proof. apply Jpost_stay. Qed.
Lemma Jc_peek : Jc peek_next_token (fun _ => 1).
Proof. apply Jc_of_Jf, Jf_peek. Qed.
Lemma Jc_next_token : Jc next_token (fun r => match r with Ok (Some _) => 1 - KA | _ => 1 end).
Proof. apply Jc_of_Jf, Jf_next_token. Qed.
Lemma Jc_discard : Jc discard_remaining_tokens (fun _ => 0).
Proof. apply Jc_of_Jf, Jf_discard. Qed.
Lemma Jc_has_next : Jc has_next_token (fun _ => 1).
Proof. apply Jc_of_Jf, Jf_has_next. Qed.
Lemma Jc_next_unwrapped : Jc next_unwrapped_token (ob (1 - KA) 1).
Proof. apply Jc_of_Jf, Jf_next_unwrapped. Qed.

Definition Sb {A} (m : M A) (b : Z) : Prop := forall s, wf s -> functions s = [] -> Spost b s (m s).

Lemma Sb_of_Jc {A} (m : M A) B b : (forall r, B r <= b) -> Jc m B -> Sb m b.
Proof. intros HB H s Hwf Hfn. eapply Spost_of_J; [exact HB | apply H; assumption]. Qed.

Lemma Jf_else : Jf (b <- is_else_of_then_clause ;; if b then discard_remaining_tokens else fail EUnexpectedToken) (fun _ => 0).
Proof. jwalk. Qed.
Lemma Jc_else : Jc (b <- is_else_of_then_clause ;; if b then discard_remaining_tokens else fail EUnexpectedToken) (fun _ => 0).
Proof. apply Jc_of_Jf, Jf_else. Qed.
