(* C03: the reference interpreter (Ref/RefSem.v) has the documented behaviours the property
   lists (theorems about the SPECIFICATION: the yardstick measures what the manual says), and
   on the expression fragment of C02 its evaluator computes the fold [den] that the token
   walker is proved to compute: there model = reference is a theorem, not a test. *)
From Coq Require Import List ZArith Lia.
From Abasic Require Import Model.Bytes Model.Num Gen.Tables Model.State Model.Eval Ref.RefSem Proofs.ExprSem.
Import ListNotations.
Local Open Scope nat_scope.

Theorem ref_undefined_variable st name :
  lookup_frames name (r_frames st) = None -> lookup name (r_vars st) = None ->
  read_var st name = if str_name name then VStr [] else VNum f64_zero.
Proof. intros H1 H2. unfold read_var, default_of. rewrite H1, H2. reflexivity. Qed.

Lemma new_array_dims name mi a : new_array name mi = inl a -> ra_dims a = map (fun m => (m + 1)%N) mi.
Proof.
  unfold new_array. destruct mi as [|m mi]; [discriminate|].
  destruct (_ <? _)%N; [discriminate|]. intros H. inversion H. reflexivity.
Qed.

(* in any number of dimensions (none: [new_array] refuses) *)
Lemma ref_implicit_array_any name n st st' :
  lookup name (r_arrays st) = None -> ensure_array name n st = inl st' ->
  exists a, lookup name (r_arrays st') = Some a /\ ra_dims a = repeat (DEFAULT_ARRAY_SIZE + 1)%N n.
Proof.
  intros Hn. unfold ensure_array. rewrite Hn.
  destruct (new_array name (repeat DEFAULT_ARRAY_SIZE n)) as [a|er] eqn:Ea; [|discriminate].
  intros H. inversion H; subst. cbn [r_arrays]. exists a. split; [apply lookup_update_same|].
  rewrite (new_array_dims _ _ _ Ea). clear. induction n as [|n IH]; [reflexivity|]. cbn [repeat map]. rewrite IH. reflexivity.
Qed.

Theorem ref_implicit_array name n st st' :
  lookup name (r_arrays st) = None -> 1 <= n <= 3 -> ensure_array name n st = inl st' ->
  exists a, lookup name (r_arrays st') = Some a /\ ra_dims a = repeat 11%N n.
Proof. intros Hn _. exact (ref_implicit_array_any name n st st' Hn). Qed.

Theorem ref_for_runs_once fuel p v a b after li st from to st1 st2 :
  eval fuel st a = EOk (VNum from) st1 -> eval fuel st1 b = EOk (VNum to) st2 -> str_name v = false ->
  let kept := match drop_loop v (r_loops st2) with Some (_, k) => k | None => r_loops st2 end in
  length kept <> depth_cap ->
  exec fuel p (SFor v a b None) after li st
  = Next after (set_vars' (update v (VNum from) (r_vars st2)) (set_loops' (kept ++ [mkrl v to f64_one after]) st2)).
Proof.
  intros Ha Hb Hv kept Hlen. cbn [exec]. unfold RefSem.ev. rewrite Ha, Hb. fold kept.
  destruct (Nat.eqb_spec (length kept) depth_cap) as [E|_]; [congruence|].
  unfold store_scalar, kind_ok. rewrite Hv. reflexivity.
Qed.

(* ... whatever the relation between the start value and the limit *)
Corollary ref_for_ignores_limit_at_entry fuel p v a b after li st from to1 to2 st1 st2 :
  eval fuel st a = EOk (VNum from) st1 -> str_name v = false ->
  eval fuel st1 b = EOk (VNum to1) st2 \/ eval fuel st1 b = EOk (VNum to2) st2 ->
  length (match drop_loop v (r_loops st2) with Some (_, k) => k | None => r_loops st2 end) <> depth_cap ->
  exists st', exec fuel p (SFor v a b None) after li st = Next after st'.
Proof.
  intros Ha Hv [Hb|Hb] Hlen; eexists; eapply ref_for_runs_once; eauto.
Qed.

Lemma drop_loop_spec v : forall outer lp inner,
  rl_var lp = v -> (forall x, In x inner -> rl_var x <> v) ->
  drop_loop v (outer ++ lp :: inner) = Some (lp, outer).
Proof.
  intros outer lp inner Hv Hin.
  assert (Hnone : drop_loop v inner = None).
  { induction inner as [|x inner IH]; [reflexivity|]. cbn [drop_loop].
    rewrite IH by (intros y Hy; apply Hin; right; exact Hy).
    destruct (bytes_eqb (rl_var x) v) eqn:E; [|reflexivity].
    apply bytes_eqb_eq in E. exfalso. apply (Hin x); [left; reflexivity|exact E]. }
  induction outer as [|o outer IH]; cbn [app drop_loop].
  - rewrite Hnone, Hv, (proj2 (bytes_eqb_eq v v) eq_refl). reflexivity.
  - rewrite IH. reflexivity.
Qed.

Theorem ref_next_forgets_inner fuel p v after li st outer lp inner cur :
  r_loops st = outer ++ lp :: inner -> rl_var lp = v -> (forall x, In x inner -> rl_var x <> v) ->
  lookup v (r_vars st) = Some (VNum cur) -> str_name v = false ->
  exists st' pc', exec fuel p (SNext v) after li st = Next pc' st'
    /\ (r_loops st' = outer ++ [lp] \/ r_loops st' = outer)          (* the inner loops are gone either way *)
    /\ (pc' = rl_body lp \/ pc' = after).
Proof.
  intros Hl Hv Hin Hcur Hs. cbn [exec]. rewrite Hcur, Hl, (drop_loop_spec v outer lp inner Hv Hin).
  unfold store_scalar, kind_ok. rewrite Hs. cbn [negb].
  destruct (if f64_leb f64_zero (rl_step lp) then _ else _); eexists; eexists; (split; [reflexivity|]); cbn; auto.
Qed.

Theorem ref_data_in_line_order p1 p2 : data_list (p1 ++ p2) = data_list p1 ++ data_list p2.
Proof. unfold data_list. apply flat_map_app. Qed.

Theorem ref_data_of_line n stmts :
  data_list [(n, stmts)] = map (fun d => (d, n)) (flat_map data_of_stmt stmts).
Proof. unfold data_list. cbn [flat_map fst snd]. apply app_nil_r. Qed.

Definition tr_cmp (c : cmp) : eq_op :=
  match c with CEq => OEqualTo | CLt => OLessThan | CLe => OLessThanOrEqualTo
             | CGt => OGreaterThan | CGe => OGreaterThanOrEqualTo | CNe => ONotEqualTo end.

Definition tr_bin (op : rbin) : binop :=
  match op with
  | ROr => BOr | RAnd => BAnd | RCmp c => BCmp (tr_cmp c)
  | RAdd => BAddSub OAdd | RSub => BAddSub OSubtract | RMul => BMulDiv OMultiply | RDiv => BMulDiv ODivide
  end.

(* "the fragment of C02" in every later statement is the domain of [tr]: the reference trees without
   array cells, RND and function calls.  ([rexpr] has no `^`, and no node for redundant parentheses,
   so the image has neither [BPow] nor [EParen].) *)
Fixpoint tr (e : rexpr) : option expr :=
  match e with
  | XNum x => Some (ENum x) | XStr s => Some (EStr s) | XVar v => Some (EVar v)
  | XNeg a => option_map (EUn UNegative) (tr a)
  | XPos a => option_map (EUn UPositive) (tr a)
  | XNot a => option_map (EUn UNot) (tr a)
  | XBin op a b => match tr a, tr b with Some a', Some b' => Some (EBin (tr_bin op) a' b') | _, _ => None end
  | XAbs a => option_map EAbs (tr a)
  | XInt a => option_map EInt (tr a)
  | XCell _ _ | XRnd _ | XFn _ _ => None
  end.

(* the last case is a filler: on the image of [tr] the fold is a value or one of the two errors
   ([StmtSim.den_plain]) *)
Definition conv (st : rstate) (r : res value) : eres value :=
  match r with
  | Ok v => EOk v st
  | Err ETypeMismatch _ => EErr RTypeMismatch None
  | Err EDivisionByZero _ => EErr RDivisionByZero None
  | _ => EFuel
  end.

Definition same_reads (st : rstate) (s : interp) : Prop := forall name, read_var st name = lookup_var s name.

(* the height of the tree: the fuel [eval] needs on the fragment ([ref_expr_is_den]) *)
Fixpoint xsize (e : rexpr) : nat :=
  match e with
  | XNeg a | XPos a | XNot a | XAbs a | XInt a => S (xsize a)
  | XBin _ a b => S (Nat.max (xsize a) (xsize b))
  | _ => 1
  end.

Lemma truth_to_bool v : truth v = to_bool v.
Proof. destruct v as [[|b s]|x]; reflexivity. Qed.
Lemma of_bool_from_bool b : of_bool b = from_bool b.
Proof. reflexivity. Qed.

Lemma cmp_strs_eq c a b : cmp_strs c a b = cmp_str (tr_cmp c) a b.
Proof. unfold cmp_strs, cmp_str. destruct c, (bytes_compare a b); reflexivity. Qed.

Lemma apply_bin_agrees op v w s st :
  match apply_bin op v w with inl r => EOk r st | inr er => EErr er None end
  = conv st (fst (apply_op (tr_bin op) v w s)).
Proof.
  destruct op as [| |c| | | |]; cbn [tr_bin apply_op apply_bin].
  - unfold eval_or, ret. cbn [fst conv]. rewrite !truth_to_bool. reflexivity.
  - unfold eval_and, ret. cbn [fst conv]. rewrite !truth_to_bool. reflexivity.
  - destruct v as [a|a], w as [b|b]; cbn; try reflexivity.
    + rewrite cmp_strs_eq. reflexivity.
    + destruct c; reflexivity.
  - destruct v, w; reflexivity.
  - destruct v, w; reflexivity.
  - destruct v, w; reflexivity.
  - destruct v as [a|a], w as [b|b]; cbn; try reflexivity. destruct (f64_eqb b f64_zero); reflexivity.
Qed.

(* [conv st] commutes with the way both folds pass an operand's outcome on *)
Lemma conv_bind st R (fr : value -> rstate -> eres value) (fd : value -> res value) :
  (forall v, fr v st = conv st (fd v)) ->
  match conv st R with EOk v st1 => fr v st1 | EErr er l => EErr er l | EFuel => EFuel end = conv st (rbind R fd).
Proof.
  intros H. destruct R as [v|er l|pp| |]; cbn [conv rbind]; [apply H | destruct er; reflexivity | reflexivity ..].
Qed.

Theorem ref_expr_is_den : forall e e' st s fuel,
  tr e = Some e' -> same_reads st s -> xsize e <= fuel ->
  eval fuel st e = conv st (den s e').
Proof.
  induction e as [x|b|v|a idx|a IH|a IH|a IH|op a IHa b IHb|a IH|a IH|a IH|f args];
    intros e' st s fuel Htr Hrel Hf; cbn [tr] in Htr; try discriminate;
    destruct fuel as [|fuel]; try (cbn [xsize] in Hf; lia); cbn [eval eval_step xsize] in *.
  1-3: inversion Htr; subst; cbn [den conv]; rewrite ?Hrel; reflexivity.
  (* a unary node: the operand by induction, then the operator on a value *)
  1-3, 5-6:
    (destruct (tr a) as [a'|]; [|discriminate]; inversion Htr; subst;
     rewrite (IH a' st s fuel eq_refl Hrel) by lia;
     first [apply conv_bind; intros [x|x]; reflexivity | cbn [den]; destruct (den s a'); reflexivity]).
  destruct (tr a) as [a'|]; [|discriminate]. destruct (tr b) as [b'|]; [|discriminate]. inversion Htr; subst.
  rewrite (IHa a' st s fuel eq_refl Hrel) by lia. apply conv_bind. intros v.
  rewrite (IHb b' st s fuel eq_refl Hrel) by lia. apply conv_bind. intros w. apply apply_bin_agrees.
Qed.
