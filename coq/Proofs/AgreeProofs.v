(* C06, the facts both directions of the agreement rest on (soundness and
   completeness themselves are in CheckSound.v, CheckAgree.v, ProgSoundElse.v (on
   ProgSound.v), LineAgree.v and LineComplete.v; Properties/C06.v says what is proved): both tools parse expressions with the same
   precedence tiers and associativity and dispatch statements on the same
   keywords (decided on the tables regenerated from expression.rs /
   expression_analyzer.rs and statement.rs / statement_analyzer.rs); the
   checker accepts a numeric jump target exactly when the interpreter's
   goto_line_number succeeds on a state with the same store; the checker's
   kind discipline is the interpreter's (C16). *)
From Coq Require Import List NArith ZArith Bool.
From Coq Require String.
From Abasic Require Import Model.Bytes Model.Num Model.Token Gen.Tables Model.State Model.Eval Model.Analyzer Proofs.Safety.
Import ListNotations.
Local Open Scope nat_scope.

Theorem same_expression_grammar : analyzer_expr_tiers = expr_tiers.
Proof. reflexivity. Qed.

Definition stmt_keywords (l : list (String.string * String.string)) : list String.string := map fst l.

Theorem same_statement_keywords :
  stmt_keywords analyzer_stmt_dispatch
  = filter (fun k => negb (String.eqb k "Else")) (stmt_keywords stmt_dispatch).
Proof. reflexivity. Qed.

Lemma goto_outcome n s :
  fst (goto_line_number n s) = if store_has n s then Ok tt else Err EUndefinedStatement None.
Proof. rewrite Caps.goto_eq. destruct (store_has n s); reflexivity. Qed.

Lemma gosub_outcome n s :
  length (stack s) <> stack_limit ->
  fst (gosub_line_number n s) = if store_has n s then Ok tt else Err EUndefinedStatement None.
Proof. intros Hlen. rewrite (Caps.gosub_below_cap n s Hlen). destruct (store_has n s); reflexivity. Qed.

Lemma an_jump_outcome x toks st :
  fst (cur_tokens (fst st)) = Ok toks ->
  nth_error toks (loc_idx (loc (fst st))) = Some (TNumber x) ->
  line_exists (fst st) (loc (fst st)) ->
  fst (an_goto_or_gosub st)
  = if store_has (Z.to_N (f64_to_u64_sat x)) (fst st) then Ok tt else Err EUndefinedStatement None.
Proof.
  intros Htoks Hnth Hl. unfold an_goto_or_gosub, abind, lift.
  rewrite (next_token_eq (fst st) Hl).
  assert (Hc : cur_toks (fst st) = toks).
  { rewrite (cur_tokens_eq (fst st) Hl) in Htoks. cbn in Htoks. congruence. }
  rewrite Hc, Hnth. cbn [fst snd get].
  match goal with |- context [store_has ?n ?s'] => change (store_has n s') with (store_has n (fst st)) end.
  destruct (store_has _ (fst st)); reflexivity.
Qed.

Theorem jump_targets_agree x toks st s :
  fst (cur_tokens (fst st)) = Ok toks ->
  nth_error toks (loc_idx (loc (fst st))) = Some (TNumber x) ->
  line_exists (fst st) (loc (fst st)) ->
  st_toks s = st_toks (fst st) ->
  let n := Z.to_N (f64_to_u64_sat x) in
  (fst (an_goto_or_gosub st) = Ok tt <-> fst (goto_line_number n s) = Ok tt)
  /\ (fst (an_goto_or_gosub st) = Err EUndefinedStatement None
      <-> fst (goto_line_number n s) = Err EUndefinedStatement None).
Proof.
  intros Htoks Hnth Hl Hst n.
  rewrite (an_jump_outcome x toks st Htoks Hnth Hl), goto_outcome. fold n.
  assert (E : store_has n s = store_has n (fst st)) by (unfold store_has; rewrite Hst; reflexivity).
  rewrite E. destruct (store_has n (fst st)); split; split; intros H; try discriminate; reflexivity.
Qed.

Definition kind_of_value (v : value) : vtype := match v with VStr _ => TyString | VNum _ => TyNumber end.

Theorem store_kind_is_name_kind name v :
  type_matches name v = true <-> kind_of_value v = type_of_name name.
Proof.
  unfold type_matches, type_of_name, kind_of_value.
  destruct (ends_with_dollar name), v; split; intros H; try reflexivity; try discriminate.
Qed.

Theorem checker_assignment_rule lv t st :
  fst (an_assign lv t st) = Ok tt <-> t = type_of_name (alv_sym lv).
Proof.
  unfold an_assign, abind, log_access, check, aret, afail. cbn [fst snd].
  destruct (type_of_name (alv_sym lv)), t; cbn; split; intros H; try reflexivity; try discriminate.
Qed.

Theorem interpreter_assignment_rule name v s :
  fst (variables_set name v s) = Ok tt <-> kind_of_value v = type_of_name name.
Proof.
  rewrite <- store_kind_is_name_kind, Caps.variables_set_eq.
  destruct (type_matches name v); split; intros H; try reflexivity; try discriminate.
Qed.

Theorem comparison_results_are_numbers op a b s v s' :
  eval_eq op a b s = (Ok v, s') -> kind_of_value v = TyNumber.
Proof.
  unfold eval_eq. destruct a, b; cbn; intros H; inversion H; reflexivity.
Qed.

Theorem logical_results_are_numbers a b s :
  kind_of_value (match fst (eval_and a b s) with Ok v => v | _ => VNum f64_zero end) = TyNumber
  /\ kind_of_value (match fst (eval_or a b s) with Ok v => v | _ => VNum f64_zero end) = TyNumber.
Proof. split; reflexivity. Qed.
