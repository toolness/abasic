(* C03: RUN is the first call of the run that Proofs/ProgSim.v simulates. *)
From Coq Require Import List NArith.
From Abasic Require Import Model.Bytes Model.Token Model.State Model.Interp Ref.RefSem Proofs.Monad Proofs.ProgSim.
From Abasic Require Proofs.StoreProofs Proofs.ResetProofs.
Import ListNotations.
Local Open Scope nat_scope.

Definition run_start (s : interp) : interp :=
  set_state Running
    (snd (run_from_first_numbered_line
            (set_arrays [] (set_variables [] (set_input None (StoreProofs.imm_reset [] s)))))).

Lemma run_start_clean s : run_start s = set_state Running (ResetProofs.clean s).
Proof. destruct s as [? K ? ? b]; destruct b, K; reflexivity. Qed.

Lemma run_next_statement_running fuel s : run_next_statement fuel (set_state Running s) = run_next_statement fuel s.
Proof. unfold run_next_statement. rewrite !bind_modify. destruct s; reflexivity. Qed.

Theorem run_is_first_turn fuel s :
  state s = Idle -> start_evaluating fuel (bs "RUN") s = continue_evaluating fuel (run_start s).
Proof.
  intros Hidle. unfold start_evaluating. rewrite (ResetProofs.evaluate_impl_RUN fuel s Hidle), run_start_clean.
  unfold continue_evaluating. cbn [state set_state]. rewrite run_next_statement_running. reflexivity.
Qed.

Lemma run_start_fields s :
  st_toks (run_start s) = st_toks s /\ st_keys (run_start s) = st_keys s /\ immediate (run_start s) = []
  /\ state (run_start s) = Running /\ variables (run_start s) = [] /\ stack (run_start s) = []
  /\ outputs (run_start s) = outputs s /\ enable_tracing (run_start s) = enable_tracing s
  /\ enable_warnings (run_start s) = enable_warnings s
  /\ loc (run_start s) = match hd_error (st_keys s) with Some n => mkloc (Some n) 0 | None => imm0 end
  /\ loops (run_start s) = [] /\ data_it (run_start s) = None.
Proof. rewrite run_start_clean. repeat split. Qed.

(* [Inv]'s last clause for a store that holds the program's lines, latest first *)
Lemma only_lines (T : list (N * list token)) (q : rprogram) :
  map fst T = rev (map fst q) -> forall n, toks_get n T <> None -> In n (map fst q).
Proof.
  intros E n H. apply in_rev. rewrite <- E. clear E.
  induction T as [|[k l] T IH]; cbn [toks_get map fst In] in *; [congruence|].
  destruct (N.eqb_spec k n); [left; assumption | right; apply IH; exact H].
Qed.

(* [Inv]'s clause on the lines, line by line *)
Lemma lines_rendered F (p : rprogram) (T : list (N * list token)) :
  Forall (fun l => exists toks, toks_get (fst l) T = Some toks /\ LRen F (snd l) toks) p ->
  forall li n stmts, nth_error p li = Some (n, stmts) -> exists toks, toks_get n T = Some toks /\ LRen F stmts toks.
Proof. intros H li n stmts E. rewrite Forall_forall in H. exact (H _ (nth_error_In _ _ E)). Qed.

Lemma sim_start F p s seed n stmts o :
  Inv F p s -> state s = Running -> variables s = [] -> stack s = [] -> loops s = [] -> data_it s = None ->
  loc s = mkloc (Some n) 0 -> nth_error p 0 = Some (n, stmts) -> outputs s = o ->
  Sim F p o (0, 0) (r_init seed) s.
Proof.
  intros HI Hrun Hv Hs Hl Hd Hloc Hp0 <-.
  apply (Sim_line_start F p (outputs s) 0 n stmts); [|exact Hp0 | exact Hloc].
  split; [exact HI | exact Hrun | cbn; rewrite app_nil_r; reflexivity | split].
  - split; intros name; [rewrite Hs | rewrite Hv]; reflexivity.
  - split; [reflexivity|]. rewrite Hs. constructor.
  - unfold loops_rel. rewrite Hl. constructor.
  - intros name x H. rewrite Hv in H. discriminate.
  - unfold data_rel. rewrite Hd. reflexivity.
Qed.

Theorem sim_from_run F p s seed n stmts :
  Inv F p s -> state s = Idle -> nth_error p 0 = Some (n, stmts) ->
  Sim F p (outputs s) (0, 0) (r_init seed) (run_start s).
Proof.
  intros HI Hidle Hp0.
  destruct (run_start_fields s) as (R1 & R2 & R3 & R4 & R5 & R6 & R7 & R8 & R9 & R10 & R11 & R12).
  assert (Hhd : hd_error (st_keys s) = Some n).
  { rewrite (i_keys F p s HI). destruct p as [|[n0 st0] p']; [discriminate|]. cbn in Hp0. inversion Hp0; subst. reflexivity. }
  rewrite Hhd in R10.
  apply (sim_start F p (run_start s) seed n stmts); trivial.
  apply (Inv_ext F p s); [congruence|congruence| |congruence|congruence|exact HI].
  rewrite R3. symmetry. apply (i_imm F p s HI).
Qed.

(* a run of the reference that ends, against a related model state; for a closed program the
   second premise is decided by evaluation *)
Lemma run_ends F p o0 pc st s k outs :
  Sim F p o0 pc st s ->
  match rrun F p k pc st with Done st' => r_out st' = outs | _ => False end ->
  exists st', rrun F p k pc st = Done st' /\ r_out st' = outs
    /\ reach (fun s' => state s' = Idle /\ outputs s' = o0 ++ map OPrint outs) s.
Proof.
  intros HS Hk. pose proof (fragment_simulation F p o0 k _ _ s HS) as H.
  destruct (rrun F p k pc st) as [| st' | |]; try contradiction.
  exists st'. split; [reflexivity|]. split; [exact Hk|].
  eapply reach_bind; [exact H|]. intros s' [A B]. apply reach_now. split; [exact A|]. rewrite B, Hk. reflexivity.
Qed.

(* RUN on a stored program of the fragment: the RUN call is the first call of a
   run that simulates the reference interpreter from its initial state *)
Theorem run_simulates F p s seed n stmts :
  Inv F p s -> state s = Idle -> nth_error p 0 = Some (n, stmts) ->
  (forall fuel, start_evaluating fuel (bs "RUN") s = continue_evaluating fuel (run_start s))
  /\ forall k, after_step F p (outputs s) (rrun F p k (0, 0) (r_init seed)) (run_start s).
Proof.
  intros HI Hidle Hp0. split; [intros fuel; apply run_is_first_turn, Hidle|].
  intros k. apply fragment_simulation. eapply sim_from_run; eassumption.
Qed.
