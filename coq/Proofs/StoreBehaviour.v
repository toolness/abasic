(* Proofs/StoreBehaviour.v — behaviour depends on the stored program only as a
   map from line numbers to tokens.  Each theorem exhibits two states related by
   [StoreExt.sim] ([sim_store]: a state and the same state holding another token
   table that looks up alike) and reads the rest off [StoreExt.history_sim]:

   - RUN from two idle interpreters whose programs are equal AS MAPS and have
     the same key list ([same_program]; for stores that satisfy [store_ok] the
     second follows from the first, [StoreProofs.store_ok_keys]), with the same
     generator state, flags and oracle, produces the same rows forever after
     (C10 for equal maps instead of equal stores, and by C10: the second
     interpreter answers RUN as the first would if it held the second's table);
   - order of entry is irrelevant (C04): two sequences of numbered-line
     entries typed into a fresh interpreter that leave the same map leave
     interpreters no later session can tell apart;
   - a reloaded listing behaves identically (C14): RUN, and everything
     after it, in the original interpreter and in a fresh one into which the
     LIST output was typed — same flag setting, same seed — produce the same
     rows: printed output, errors and their lines, input requests, the DATA
     items READ sees. *)
From Coq Require Import List NArith ZArith Bool.
From Abasic Require Import Model.Bytes Model.Token Model.State Model.Interp Proofs.StoreProofs Proofs.ResetProofs
     Proofs.ListProofs Proofs.StoreExt Proofs.LoadProofs.
Import ListNotations.

Definition same_program (s t : interp) : Prop :=
  (forall k, abs s k = abs t k) /\ st_keys s = st_keys t.

(* [t] answers RUN as [s] holding [t]'s token table does (C10: RUN reads the persistent part only), and
   that state is [sim] to [s] *)
Theorem run_depends_on_map fuel s t ops :
  state s = Idle -> state t = Idle -> same_program s t ->
  rng s = rng t -> enable_warnings s = enable_warnings t -> enable_tracing s = enable_tracing t ->
  pow_oracle s = pow_oracle t -> outputs s = outputs t ->
  Forall2 orow_same (run_ops fuel s (HLine (bs "RUN") :: ops)) (run_ops fuel t (HLine (bs "RUN") :: ops))
  /\ sim (run_state fuel s (HLine (bs "RUN") :: ops)) (run_state fuel t (HLine (bs "RUN") :: ops)).
Proof.
  intros Hi1 Hi2 [Ha Hk] Hg Hw Ht Ho Hout.
  assert (E : step fuel (set_store (st_toks t) (st_keys s) s) (HLine (bs "RUN")) = step fuel t (HLine (bs "RUN")))
    by (apply run_clean_slate; repeat split; assumption).
  cbn [run_ops run_state]. rewrite <- E. apply (history_sim fuel (_ :: ops)), sim_store, Ha.
Qed.

(* ... and so do the same flag setting, the same seed and then RUN, whatever generator state and flags
   the two had before *)
Theorem seeded_run_depends_on_map fuel s t w b seed ops :
  state s = Idle -> state t = Idle -> same_program s t -> pow_oracle s = pow_oracle t -> outputs s = outputs t ->
  let session := HFlags w b :: HRand seed :: HLine (bs "RUN") :: ops in
  Forall2 orow_same (run_ops fuel s session) (run_ops fuel t session).
Proof.
  intros Hi1 Hi2 Hp Ho Hout session. unfold session. cbn [run_ops].
  (* the flag setting: no row, the flags are set *)
  assert (F : forall x, step fuel x (HFlags w b) = (None, set_flags w b x)) by reflexivity.
  rewrite !F. constructor; [exact I|].
  (* the seed: one row, the generator is set, the output queue drained *)
  assert (R : forall x, step fuel x (HRand seed) =
              (Some (fst (make_row (Ok tt) None (set_rng (rng_new seed) (set_reads 0 x)))),
               set_outputs [] (set_rng (rng_new seed) (set_reads 0 x)))) by reflexivity.
  (* the two states get names: compared by name, their setters are not unfolded when the proof is checked *)
  set (a := set_flags w b s). set (a' := set_flags w b t). rewrite !R. constructor.
  - apply ok_row_same; [exact (eq_trans Hi1 (eq_sym Hi2)) | exact Hout | reflexivity].
  - apply run_depends_on_map; first [assumption | reflexivity].
Qed.

Definition is_edit (op : hostop) : Prop := exists l n v, op = HLine l /\ edit_of l = Some (n, v).

(* edits typed into a state that holds a program and nothing that refers into it ([LoadProofs.settled])
   change the store only *)
Lemma edits_store fuel : forall ops s, settled s -> Forall is_edit ops ->
  exists T K, run_state fuel s ops = set_store T K s.
Proof.
  induction ops as [|op r IH]; intros s Hs Hall; cbn [run_state].
  - exists (st_toks s), (st_keys s). destruct s; reflexivity.
  - inversion Hall as [|? ? (l & n & v & -> & He) Hr]; subst.
    rewrite (step_line_settled fuel s l n v Hs He).
    destruct (IH _ (proj2 (set_numbered_line_settled n v s Hs)) Hr) as (T & K & ->).
    exists T, K. destruct v; reflexivity.
Qed.

Lemma settled_fresh o : settled (fresh o).
Proof. repeat split. Qed.

(* order of entry is irrelevant: same map, same behaviour ever after *)
Theorem entry_order_irrelevant fuel o ops1 ops2 :
  Forall is_edit ops1 -> Forall is_edit ops2 ->
  let s1 := run_state fuel (fresh o) ops1 in
  let s2 := run_state fuel (fresh o) ops2 in
  (forall k, abs s1 k = abs s2 k) ->
  forall ops, Forall2 orow_same (run_ops fuel s1 ops) (run_ops fuel s2 ops)
              /\ same_program (run_state fuel s1 ops) (run_state fuel s2 ops).
Proof.
  intros H1 H2 s1 s2 Habs ops.
  assert (Hok1 : store_ok s1) by (apply store_ok_reachable, store_ok_init).
  assert (Hok2 : store_ok s2) by (apply store_ok_reachable, store_ok_init).
  pose proof (store_ok_keys s1 s2 Hok1 Hok2 Habs) as Hk.
  destruct (edits_store fuel ops1 _ (settled_fresh o) H1) as (T1 & K1 & E1).
  destruct (edits_store fuel ops2 _ (settled_fresh o) H2) as (T2 & K2 & E2).
  fold s1 in E1. fold s2 in E2.
  assert (Hsim : sim s1 s2).
  { rewrite E1, E2 in *. cbn in Hk. subst K2. exact (sim_store (set_store T1 K1 (fresh o)) T2 Habs). }
  destruct (history_sim fuel ops s1 s2 Hsim) as [A B]. split; [exact A|].
  split; [exact (sim_st_toks _ _ B) | exact (sim_st_keys _ _ B)].
Qed.

Lemma listing_edits s : (forall n ts, abs s n = Some ts -> line_roundtrips n ts) -> store_ok s ->
  Forall is_edit (map HLine (listing s)).
Proof.
  intros Hrt Hok. unfold listing. rewrite map_map. apply Forall_map.
  eapply Forall_impl; [|apply listing_roundtrips; assumption].
  intros n H. exists (listing_line n (get_toks s n)), n, (get_toks s n). split; [reflexivity|exact H].
Qed.

Theorem reload_behaves_alike fuel s w b seed ops :
  state s = Idle -> outputs s = [] -> store_ok s ->
  (forall n ts, abs s n = Some ts -> line_roundtrips n ts) ->
  let s' := run_state fuel (fresh (pow_oracle s)) (map HLine (listing s)) in
  let session := HFlags w b :: HRand seed :: HLine (bs "RUN") :: ops in
  Forall2 orow_same (run_ops fuel s session) (run_ops fuel s' session).
Proof.
  intros Hidle Hout Hok Hrt s'.
  destruct (reload_store fuel (pow_oracle s) s Hok Hrt) as (Habs & Hkeys & _). fold s' in Habs, Hkeys.
  destruct (edits_store fuel _ _ (settled_fresh (pow_oracle s)) (listing_edits s Hrt Hok)) as (T & K & E). fold s' in E.
  apply seeded_run_depends_on_map; [exact Hidle | | split; [intros k; symmetry; apply Habs | symmetry; exact Hkeys] | |];
    rewrite E; first [reflexivity | exact Hout].
Qed.
