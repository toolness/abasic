(* C05: the static analysis never panics.  The Rust analyzer can panic at
   tokens_for_line(..).unwrap() under every cursor operation, at
   err.location.unwrap() and at the explicit panic! when a diagnostic's location
   cannot be mapped to the source, and at the unwrap() of the symbol warnings'
   locations.  The model keeps these four (res = Panic); the index
   file_line_ranges[..] inside map_location_to_source is [None] in the model,
   which the two sites that map a location turn into Panic.  None is reachable.

   The invariant: the stored program T is fixed; the cursor is always a
   location [okl] (on a stored line, at most one past its last token); every
   error that carries a location carries an [okl] one, an error without one is
   never DATA TYPE MISMATCH (the only kind whose location is looked up in the
   DATA cursor); every logged symbol access is at an [okl] location.  It is one
   clause of the contract [aspec] that every function of the analyzer is shown
   to meet in one walk; the other clauses are what termination needs (the
   cursor stays on its line and only moves forward, who consumes a token, who
   does not starve).  The budgets are spent here as well: a statement is asked
   for more budget than its line has tokens left ([walk_line_step]), a line is
   given more statements than it has tokens ([walk_budget]), the file walk more
   lines than there are keys ([ahead_le]); so the walk ends "Ok, or starved on
   fuel that does not fit the stored lines" ([analysis_facts]), and
   AnalyzerTermination.v only adds the bound.  Pass 1 maps every [okl] location
   to a source range ([PM]; [PP] is what pass 1 keeps for this), so every
   diagnostic maps to a source position, and with AnalyzerProofs.v into its
   line ([diagnostics_well_formed]). *)
From Coq Require Import List NArith ZArith Bool Lia.
From Abasic Require Import Model.Bytes Model.Token Model.Lexer Model.State Model.Analyzer
     Proofs.Monad Proofs.StoreProofs Proofs.Safety Proofs.AnalyzerProofs.
Import ListNotations.
Local Open Scope nat_scope.

Create HintDb spdb discriminated.

Section Ctx.
  Variable T : list (N * list token).

  Definition okl (l : location) : Prop :=
    exists n ts, loc_line l = Some n /\ toks_get n T = Some ts /\ loc_idx l <= length ts.

  Definition inC (s : interp) : Prop := st_toks s = T /\ okl (loc s).

  (* the error kinds the analysis can report: not DATA TYPE MISMATCH (located
     through the DATA cursor), not a tokenizer error (located through the
     line's error range) *)
  Definition eok (e : ierror) : Prop :=
    match e with EDataTypeMismatch | ESyntaxTok _ => False | _ => True end.

  Definition post {A} (Q : A -> Prop) (r : res A) : Prop :=
    match r with
    | Ok a => Q a
    | Err e (Some l) => okl l /\ eok e
    | Err e None => eok e
    | Panic _ | OracleMiss => False
    | OutOfFuel => True
    end.

  Lemma post_weaken {A} (Q Q' : A -> Prop) r : (forall a, Q a -> Q' a) -> post Q r -> post Q' r.
  Proof. intros H. destruct r as [a|e [l|]|p| |]; cbn [post]; auto. Qed.

  Lemma okl_prev l : okl l -> okl (prev_location l).
  Proof.
    intros (n & ts & H1 & H2 & H3). exists n, ts. unfold prev_location. cbn [loc_line loc_idx].
    repeat split; try assumption. lia.
  Qed.

  (* [inC] with the line named: the contract counts the tokens left on it *)
  Definition cursor_on (n : N) (ts : list token) (s : interp) : Prop :=
    st_toks s = T /\ loc_line (loc s) = Some n /\ toks_get n T = Some ts /\ loc_idx (loc s) <= length ts.

  Definition togo (ts : list token) (s : interp) : nat := length ts - loc_idx (loc s).

  Lemma cursor_on_inC n ts s : cursor_on n ts s -> inC s.
  Proof. intros (H1 & H2 & H3 & H4). split; [exact H1 | exists n, ts; auto]. Qed.

  Lemma inC_cursor_on s : inC s -> exists n ts, cursor_on n ts s.
  Proof. intros [H1 (n & ts & H2 & H3 & H4)]. exists n, ts. repeat split; assumption. Qed.

  Lemma cursor_on_cur n ts s : cursor_on n ts s -> line_exists s (loc s) /\ cur_toks s = ts.
  Proof.
    intros (H1 & H2 & H3 & H4). unfold line_exists, line_ok, cur_toks. rewrite H2, H1, H3. split; [discriminate | reflexivity].
  Qed.

  Definition moved_on n ts (s s' : interp) : Prop :=
    cursor_on n ts s' /\ loc_idx (loc s) <= loc_idx (loc s') /\ st_keys s' = st_keys s.

  Lemma moved_on_refl n ts s : cursor_on n ts s -> moved_on n ts s s.
  Proof. intros H. split; [exact H | split; [apply le_n | reflexivity]]. Qed.

  Lemma moved_on_trans n ts a b c : moved_on n ts a b -> moved_on n ts b c -> moved_on n ts a c.
  Proof. intros (_ & A2 & A3) (B1 & B2 & B3). split; [exact B1 | split; [lia | congruence]]. Qed.

  Lemma moved_on_togo n ts s s' : moved_on n ts s s' -> togo ts s' <= togo ts s.
  Proof. intros (_ & H & _). unfold togo. lia. Qed.

  Lemma cursor_on_adv n ts s : cursor_on n ts s -> loc_idx (loc s) < length ts -> cursor_on n ts (adv s).
  Proof. intros (H1 & H2 & H3 & H4) Hlt. repeat split; try assumption. Qed.

  Definition okA (a : access) : Prop := okl (snd (fst a)).

  (* The contract of a function of the analyzer, from a state whose cursor is on
     stored line [n] with tokens [ts]: the cursor stays on that line and does not
     move back, the keys stay; only good accesses are logged (an implication
     beside the other clauses and not a premise of all: they hold whatever was
     logged before); the outcome is one [post] accepts, with a value that
     satisfies [Q value p p'], where [p] and [p'] are the tokens left on the line
     before and after.  That is how a lemma says "consumes a token" ([p' < p]),
     "consumes one if it returns [Some _]", "consumes one if there is one", and
     how a loop learns that an iteration that goes on has consumed one.  [g] is
     a budget: from a state with fewer than [g] tokens left, [m] does not
     starve.  At [g = 0] that clause is empty and the rest holds for every fuel:
     the same lemma is the safety statement and, at a positive budget, the
     termination statement. *)
  Definition aspec {A} (g : nat) (Q : A -> nat -> nat -> Prop) (m : MA A) : Prop :=
    forall n ts st, cursor_on n ts (fst st) ->
      moved_on n ts (fst st) (fst (snd (m st)))
      /\ (Forall okA (snd st) -> Forall okA (snd (snd (m st))))
      /\ post (fun a => Q a (togo ts (fst st)) (togo ts (fst (snd (m st))))) (fst (m st))
      /\ (togo ts (fst st) < g -> fst (m st) <> OutOfFuel).

  Definition q_any {A} (a : A) (p p' : nat) : Prop := True.
  Definition q_eats {A} (a : A) (p p' : nat) : Prop := p' < p.
  (* an optional token: taken or left *)
  Definition q_took {A} (o : option A) (p p' : nat) : Prop := match o with Some _ => p = S p' | None => p' = p end.
  Definition q_tookb (b : bool) (p p' : nat) : Prop := if b then p = S p' else p' = p.
  Definition q_goes_on {S R} (r : S + R) (p p' : nat) : Prop := match r with inl _ => p' < p | inr _ => True end.
  (* a statement consumes a token if there is one *)
  Definition q_stmt (u : unit) (p p' : nat) : Prop := p' <= p - 1.

  (* the cursor does not move back, so [p' <= p] comes free *)
  Lemma aspec_weaken {A} g g' (Q Q' : A -> nat -> nat -> Prop) m :
    (forall a p p', p' <= p -> Q a p p' -> Q' a p p') -> g' <= g -> aspec g Q m -> aspec g' Q' m.
  Proof.
    intros HQ Hg Hm n ts st Hon. destruct (Hm n ts st Hon) as (M & A1 & P & F).
    split; [exact M | split; [exact A1 | split; [|intros H; apply F; lia]]].
    eapply post_weaken; [|exact P]. intros a. apply HQ, (moved_on_togo _ _ _ _ M).
  Qed.

  Lemma aspec_ret {A} g (Q : A -> nat -> nat -> Prop) a : (forall p, Q a p p) -> aspec g Q (aret a).
  Proof.
    intros H n ts st Hon. split; [apply moved_on_refl, Hon | split; [exact (fun K => K) | split; [apply H | discriminate]]].
  Qed.

  Lemma aspec_fail {A} g (Q : A -> nat -> nat -> Prop) e : eok e -> aspec g Q (afail e).
  Proof.
    intros H n ts st Hon. split; [apply moved_on_refl, Hon | split; [exact (fun K => K) | split; [exact H | discriminate]]].
  Qed.

  Lemma aspec_fuel {A} (Q : A -> nat -> nat -> Prop) : aspec 0 Q (fun s : astate => (@OutOfFuel A, s)).
  Proof.
    intros n ts st Hon. split; [apply moved_on_refl, Hon | split; [exact (fun K => K) | split; [exact I | lia]]].
  Qed.

  Lemma aspec_log g (Q : unit -> nat -> nat -> Prop) sym l w : okl l -> (forall p, Q tt p p) -> aspec g Q (log_access sym l w).
  Proof.
    intros Hl H n ts st Hon. unfold log_access. cbn [fst snd].
    split; [apply moved_on_refl, Hon | split; [intros Hacc|split; [apply H | discriminate]]].
    apply Forall_app. split; [exact Hacc | constructor; [exact Hl | constructor]].
  Qed.

  (* The continuation is asked for a postcondition over its own counts [q], [q']
     that it owes only when its start count [q] is the first step's end count
     [p1]; so [Q'] relates the end of the whole to its start [p] through what
     [Q] said of [p] and [p1], and no postcondition mentions a state. *)
  Lemma aspec_bind {A B} g (Q : A -> nat -> nat -> Prop) (Q' : B -> nat -> nat -> Prop) (m : MA A) (f : A -> MA B) :
    aspec g Q m ->
    (forall a p p1, p1 <= p -> Q a p p1 -> aspec g (fun b q q' => q = p1 -> Q' b p q') (f a)) ->
    aspec g Q' (abind m f).
  Proof.
    intros Hm Hf n ts st Hon. unfold abind. destruct (Hm n ts st Hon) as (M & A1 & P & F).
    destruct (m st) as [[a|e l|p| |] st1]; cbn [fst snd] in *;
      try (split; [exact M | split; [exact A1 | split; [exact P | intros H; specialize (F H); congruence]]]).
    pose proof (moved_on_togo _ _ _ _ M) as Hle.
    destruct (Hf a _ _ Hle P n ts st1 (proj1 M)) as (M2 & A2 & P2 & F2).
    split; [exact (moved_on_trans _ _ _ _ _ M M2) | split; [exact (fun K => A2 (A1 K)) | split; [|intros H; apply F2; lia]]].
    eapply post_weaken; [|exact P2]. intros b H. exact (H eq_refl).
  Qed.

  Lemma aspec_repeat {S R} g k (body : S -> MA (S + R)) :
    g <= k -> (forall acc, aspec g q_goes_on (body acc)) -> forall acc, aspec g q_any (arepeat k body acc).
  Proof.
    intros Hk Hb acc n ts st Hon.
    enough (K : moved_on n ts (fst st) (fst (snd (arepeat k body acc st)))
                /\ (Forall okA (snd st) -> Forall okA (snd (snd (arepeat k body acc st))))
                /\ post (fun _ => True) (fst (arepeat k body acc st))
                /\ (togo ts (fst st) < g -> togo ts (fst st) < k -> fst (arepeat k body acc st) <> OutOfFuel)).
    { destruct K as (K1 & K2 & K3 & K4). split; [exact K1 | split; [exact K2 | split; [exact K3 | intros H; apply K4; lia]]]. }
    clear Hk. revert acc st Hon. induction k as [|k IH]; intros acc st Hon; cbn [arepeat].
    - split; [apply moved_on_refl, Hon | split; [exact (fun K => K) | split; [exact I | lia]]].
    - unfold abind. destruct (Hb acc n ts st Hon) as (M & A1 & P & F).
      destruct (body acc st) as [[[acc'|r]|e l|p| |] st1]; cbn [fst snd] in *;
        try (split; [exact M | split; [exact A1 | split; [exact P | intros H _; specialize (F H); congruence]]]).
      + destruct (IH acc' st1 (proj1 M)) as (M2 & A2 & P2 & F2).
        split; [exact (moved_on_trans _ _ _ _ _ M M2) | split; [exact (fun K => A2 (A1 K)) | split; [exact P2 | intros H1 H2; apply F2; cbn in P; lia]]].
      + split; [exact M | split; [exact A1 | split; [exact I | discriminate]]].
  Qed.

  (* a cursor operation reads ([bump]), and perhaps steps over the token under the cursor ([adv]) *)
  Lemma aspec_lift {A} g (Q : A -> nat -> nat -> Prop) (m : M A) :
    (forall n ts s, cursor_on n ts s ->
       (exists r, m s = (r, bump s) /\ post (fun a => Q a (togo ts s) (togo ts s)) r /\ r <> OutOfFuel)
       \/ (exists a, loc_idx (loc s) < length ts /\ m s = (Ok a, adv s) /\ Q a (togo ts s) (togo ts s - 1))) ->
    aspec g Q (lift m).
  Proof.
    intros H n ts st Hon. unfold lift.
    destruct (H n ts (fst st) Hon) as [(r & -> & P & F) | (a & Hlt & -> & P)]; cbn [fst snd].
    - split; [apply (moved_on_refl n ts (bump (fst st))), Hon | split; [exact (fun K => K) | split; [exact P | intros _; exact F]]].
    - split; [split; [apply cursor_on_adv; assumption | split; [cbn; lia | reflexivity]] | split; [exact (fun K => K) | split; [|discriminate]]].
      cbn [post]. replace (togo ts (adv (fst st))) with (togo ts (fst st) - 1) by (unfold togo; cbn; lia). exact P.
  Qed.

  Lemma aspec_get {A} g (f : interp -> A) : aspec g q_any (lift (get f)).
  Proof.
    intros n ts st Hon. split; [apply moved_on_refl, Hon | split; [exact (fun K => K) | split; [exact I | discriminate]]].
  Qed.

  Lemma aspec_get_loc g : aspec g (fun l _ _ => okl l) (lift (get loc)).
  Proof.
    intros n ts st Hon. split; [apply moved_on_refl, Hon | split; [exact (fun K => K) | split; [|discriminate]]].
    destruct (cursor_on_inC _ _ _ Hon) as [_ H]. exact H.
  Qed.

  (* what the cursor sees: a token iff some are left *)
  Lemma token_seen n ts s : cursor_on n ts s ->
    match nth_error ts (loc_idx (loc s)) with
    | Some _ => loc_idx (loc s) < length ts /\ togo ts s = S (togo ts s - 1)
    | None => togo ts s = 0
    end.
  Proof.
    intros (_ & _ & _ & Hb). unfold togo. destruct (nth_error ts (loc_idx (loc s))) eqn:E.
    - assert (loc_idx (loc s) < length ts) by (apply nth_error_Some; congruence). lia.
    - apply nth_error_None in E. lia.
  Qed.

  (* a cursor operation through its equation [E] of Safety.v: two goals, a token
     [t0] under the cursor or none, each with [Hs], what [token_seen] says then *)
  Ltac prim E :=
    apply aspec_lift; intros n ts s Hon; destruct (cursor_on_cur n ts s Hon) as [Hex Hcur];
    rewrite (E s Hex), Hcur; pose proof (token_seen n ts s Hon) as Hs;
    destruct (nth_error ts (loc_idx (loc s))) as [t0|].

  Definition q_peeked (t : option token) (p p' : nat) : Prop := match t with Some _ => p <> 0 | None => p = 0 end.

  Lemma sp_peek g : aspec g q_peeked (lift peek_next_token).
  Proof. prim peek_eq; left; eexists; (split; [reflexivity | split; [cbn; lia | discriminate]]). Qed.

  Lemma sp_peek_is g t : aspec g q_any (lift (peek_is t)).
  Proof. prim (peek_is_eq t); left; eexists; (split; [reflexivity | split; [exact I | discriminate]]). Qed.

  Definition q_nexted (t : option token) (p p' : nat) : Prop :=
    p' = p - 1 /\ q_peeked t p p'.

  Lemma sp_next_token g : aspec g q_nexted (lift next_token).
  Proof.
    prim next_token_eq; [right; eexists; split; [apply Hs | split; [reflexivity | split; [reflexivity | cbn; lia]]]
                        | left; eexists; (split; [reflexivity | split; [cbv beta iota delta [post q_nexted q_peeked]; lia | discriminate]])].
  Qed.

  Lemma sp_accept g t : aspec g q_tookb (lift (accept_next_token t)).
  Proof.
    prim (accept_eq t); [destruct (token_eqb t0 t); [right; eexists; split; [apply Hs | split; [reflexivity | apply Hs]]|]|];
      left; eexists; (split; [reflexivity | split; [reflexivity | discriminate]]).
  Qed.

  Lemma sp_try g {B} (f : token -> option B) : aspec g q_took (lift (try_next_token f)).
  Proof.
    prim (try_eq f); [destruct (f t0); [right; eexists; split; [apply Hs | split; [reflexivity | apply Hs]]|]|];
      left; eexists; (split; [reflexivity | split; [reflexivity | discriminate]]).
  Qed.

  (* [prim] by hand: the operation is [next_token] under a bind and has no equation of its own *)
  Lemma sp_next_unwrapped g : aspec g q_eats (lift next_unwrapped_token).
  Proof.
    apply aspec_lift; intros n ts s Hon. destruct (cursor_on_cur n ts s Hon) as [Hex Hcur].
    unfold next_unwrapped_token. rewrite bind_run, (next_token_eq s Hex), Hcur. pose proof (token_seen n ts s Hon) as Hs.
    destruct (nth_error ts (loc_idx (loc s))) as [t0|].
    - right; eexists; split; [apply Hs | split; [reflexivity | unfold q_eats; lia]].
    - left; eexists; split; [reflexivity | split; [|discriminate]]. cbn. split; [|exact I].
      destruct (cursor_on_inC _ _ _ Hon) as [_ H]. exact H.
  Qed.

  Lemma sp_expect g t : aspec g q_eats (lift (expect_next_token t)).
  Proof.
    intros n ts st Hon. destruct (sp_next_unwrapped g n ts st Hon) as (M & A1 & P & F).
    unfold lift, expect_next_token, bind in *. destruct (next_unwrapped_token (fst st)) as [[t'|e l|p| |] s1]; cbn [fst snd] in *;
      try (split; [exact M | split; [exact A1 | split; [exact P | intros H; specialize (F H); congruence]]]).
    destruct (token_eqb t' t); cbn [fst snd ret fail]; (split; [exact M | split; [exact A1 | split; [first [exact P | exact I] | discriminate]]]).
  Qed.

  Lemma sp_define_function g name args : aspec g q_any (lift (define_function name args)).
  Proof.
    intros n ts st Hon. unfold lift, define_function, bind, get. cbn [fst snd].
    destruct Hon as (H1 & H2 & H3 & H4). rewrite H2. cbn [fst snd modify].
    split; [split; [repeat split; assumption | split; [apply le_n | reflexivity]] | split; [exact (fun K => K) | split; [exact I | discriminate]]].
  Qed.

  Lemma sp_reset_data g : aspec g q_any (lift reset_data_cursor).
  Proof.
    intros n ts st Hon.
    split; [split; [exact Hon | split; [apply le_n | reflexivity]] | split; [exact (fun K => K) | split; [exact I | discriminate]]].
  Qed.

  Hint Resolve sp_peek sp_peek_is sp_next_token sp_accept sp_try sp_next_unwrapped sp_expect
    sp_define_function sp_reset_data aspec_get_loc aspec_get : spdb.

  (* closes the side conditions of the rules: a postcondition of the vocabulary
     above at given token counts, from those of the steps before it; after
     unfolding they are linear arithmetic over the counts, or [True], or a
     hypothesis ([okl l]) *)
  Ltac sp_arith :=
    intros; cbv beta iota delta [q_any q_eats q_took q_tookb q_goes_on q_stmt q_peeked q_nexted] in *; subst;
    first [ exact I | assumption | lia | tauto ].

  Ltac sp_call :=
    lazymatch goal with
    | |- aspec _ ?Q _ =>
        tryif is_evar Q then solve [eauto 2 with spdb nocore]
        else (eapply aspec_weaken; [| apply le_n | solve [eauto 2 with spdb nocore]]; sp_arith)
    end.

  Ltac sp_any Q := tryif is_evar Q then (lazymatch type of Q with ?A -> _ => unify Q (@q_any A) end) else idtac.

  (* One step of the walk over the body of a function, chosen by the head of the
     computation.  A bind opens its first part with the postcondition [Q] still
     to be found (an evar), and introduces for the rest the value, the two
     counts, [p1 <= p] and what [Q] said of them, nameless.  A call is looked up
     in [spdb] ([eauto 2]: its lemma and one premise of it, a hypothesis such as
     [okl l] or the section's [Hrec]); the lemma fixes an open [Q], otherwise its
     own postcondition has to give the one asked for ([aspec_weaken], closed by
     [sp_arith]).  Where [Q] is open and the head is no call (a match, a logged
     access, a loop), [sp_any] settles for [q_any]: a match at the head of a
     bind forgets the counts.  What the cases expect among the hypotheses:
     [log_access _ l _] the fact [okl l], left there by the step that produced
     [l] ([aspec_get_loc], [sp_prev_loc]; [oklv] unfolded); [arepeat k ..] the
     inequality [g <= k], so a function with a loop is walked in a section that
     has [g <= fuel]; [afail e] nothing: every error the analyzer raises itself
     is [eok] by computation.  A match on an optional token with one special
     constructor gives two goals ([Monad.case_scrutinee]), any other match one
     goal per constructor. *)
  Ltac sp_step :=
    lazymatch goal with
    | |- aspec _ _ (aret (if ?c then _ else _)) => destruct c
    | |- aspec _ _ (aret _) => apply aspec_ret; sp_arith
    | |- aspec _ _ (afail _) => apply aspec_fail; exact I
    | |- aspec _ ?Q (log_access _ _ _) => sp_any Q; apply aspec_log; [assumption | sp_arith]
    | |- aspec _ _ (abind _ _) => eapply aspec_bind; [| intros ? ? ? ? ?]
    | |- aspec _ ?Q (match _ with _ => _ end) =>
        sp_any Q; lazymatch goal with |- ?P (match ?x with _ => _ end) => case_scrutinee P x end
    | |- aspec _ ?Q (arepeat _ _ _) =>
        sp_any Q; eapply aspec_weaken; [| apply le_n | apply aspec_repeat; [eassumption | intro]]; [sp_arith |]
    | |- _ => sp_call
    end.
  Ltac sp_walk := repeat sp_step.

  Lemma sp_check g t e : aspec g q_any (check t e).
  Proof. unfold check; sp_walk. Qed.
  Lemma sp_check_number g t : aspec g q_any (check_number t).
  Proof. apply sp_check. Qed.
  Lemma sp_enter_nesting g n : aspec g q_any (enter_nesting n).
  Proof. unfold enter_nesting; sp_walk. Qed.
  Lemma sp_prev_loc g : aspec g (fun l _ _ => okl l) prev_loc.
  Proof.
    unfold prev_loc, aget_loc. eapply aspec_bind; [apply aspec_get_loc|].
    intros l p p1 _ Hl. apply aspec_ret. intros _ _. apply okl_prev, Hl.
  Qed.
  Hint Resolve sp_check sp_check_number sp_prev_loc : spdb.

  Section AExpr.
    Variable fuel g : nat.
    Variable rec : MA vtype.
    Hypothesis Hrec : aspec g q_eats rec.
    Hypothesis Hg : g <= fuel.

    Lemma sp_array_index : aspec g q_any (an_array_index fuel rec).
    Proof. unfold an_array_index; sp_walk. Qed.
    Lemma sp_unary_arg : aspec g q_any (an_unary_number_function_arg rec).
    Proof. unfold an_unary_number_function_arg; sp_walk. Qed.
    Lemma sp_check_arguments args : forall i n, aspec g q_any (an_check_arguments rec args i n).
    Proof. induction args as [|a args IH]; intros i n; cbn [an_check_arguments]; sp_walk. Qed.
    Hint Resolve sp_array_index sp_unary_arg sp_check_arguments : spdb.
    Lemma sp_user_function_call name l : okl l -> aspec g q_any (an_user_function_call rec name l).
    Proof. intros Hl. unfold an_user_function_call; sp_walk. Qed.
    Hint Resolve sp_user_function_call : spdb.
    Lemma sp_function_call name l : okl l -> aspec g q_any (an_function_call rec name l).
    Proof. intros Hl. unfold an_function_call; sp_walk. Qed.
    Hint Resolve sp_function_call : spdb.
    Lemma sp_term : aspec g q_eats (an_term fuel rec).
    Proof. unfold an_term; sp_walk. Qed.
    Hint Resolve sp_term : spdb.
    Lemma sp_paren : aspec g q_eats (an_paren fuel rec).
    Proof. unfold an_paren; sp_walk. Qed.
    Hint Resolve sp_paren : spdb.
    Lemma sp_unary : aspec g q_eats (an_unary fuel rec).
    Proof. unfold an_unary; sp_walk. Qed.
    Lemma sp_tier {O} (get_op : MA (option O)) operand comb :
      aspec g q_took get_op -> aspec g q_eats operand -> (forall a b, aspec g q_any (comb a b)) ->
      aspec g q_eats (an_tier fuel get_op operand comb).
    Proof. intros H1 H2 H3. unfold an_tier; sp_walk. Qed.
    Lemma sp_both_numbers v w : aspec g q_any (both_numbers v w).
    Proof. unfold both_numbers; sp_walk. Qed.
    Lemma sp_accept_as t : aspec g q_took (an_accept_as t).
    Proof. unfold an_accept_as; sp_walk. Qed.
    Hint Resolve sp_both_numbers sp_accept_as : spdb.

    Lemma sp_exponent : aspec g q_eats (an_exponent fuel rec).
    Proof. apply sp_tier; [| apply sp_unary |]; intros; sp_walk. Qed.
    Lemma sp_muldiv : aspec g q_eats (an_muldiv fuel rec).
    Proof. apply sp_tier; [| apply sp_exponent |]; intros; sp_walk. Qed.
    Lemma sp_addsub : aspec g q_eats (an_addsub fuel rec).
    Proof. apply sp_tier; [| apply sp_muldiv |]; intros; sp_walk. Qed.
    Lemma sp_equality : aspec g q_eats (an_equality fuel rec).
    Proof. apply sp_tier; [| apply sp_addsub |]; intros; sp_walk. Qed.
    Lemma sp_and : aspec g q_eats (an_and fuel rec).
    Proof. apply sp_tier; [| apply sp_equality |]; intros; sp_walk. Qed.
    Lemma sp_or : aspec g q_eats (an_or fuel rec).
    Proof. apply sp_tier; [| apply sp_and |]; intros; sp_walk. Qed.
  End AExpr.

  (* one unit of fuel per nesting level, a loop's worth on top; with no budget
     ([g] = 0) the rest of the contract holds for any fuel *)
  Lemma sp_analyze_expression : forall fuel n g, n <= max_nesting -> g <= fuel - (max_nesting - n) ->
    aspec g q_eats (analyze_expression fuel n).
  Proof.
    induction fuel as [|f IH]; intros n g Hn Hg; cbn [analyze_expression].
    - replace g with 0 by lia. apply aspec_fuel.
    - destruct (Nat.eqb_spec n max_nesting) as [->|Hne]; [apply aspec_fail; exact I|].
      apply sp_or; [apply IH; lia | lia].
  Qed.

  Definition oklv (lv : alvalue) : Prop := okl (alv_loc lv).

  Section AStmt.
    Variable fuel nest g : nat.
    Variable rec : MA unit.
    Hypothesis Hrec : aspec g q_stmt rec.
    Hypothesis Hg : g <= fuel.
    Hypothesis Hexpr : aspec g q_eats (aexpr fuel nest).
    Hint Resolve Hexpr : spdb.

    Lemma sp_st_array_index : aspec g q_any (an_array_index fuel (aexpr fuel nest)).
    Proof. apply sp_array_index; assumption. Qed.
    Hint Resolve sp_st_array_index : spdb.
    Lemma sp_optional_index : aspec g q_any (an_optional_array_index fuel nest).
    Proof. unfold an_optional_array_index; sp_walk. Qed.
    Lemma sp_goto_or_gosub : aspec g q_any an_goto_or_gosub.
    Proof. unfold an_goto_or_gosub; sp_walk. Qed.
    Hint Resolve sp_optional_index sp_goto_or_gosub : spdb.
    Lemma sp_statement_or_goto : aspec g q_any (an_statement_or_goto rec).
    Proof. unfold an_statement_or_goto; sp_walk. Qed.
    Hint Resolve sp_statement_or_goto : spdb.
    Lemma sp_if : aspec g q_any (an_if fuel nest rec).
    Proof. unfold an_if; sp_walk. Qed.
    Lemma sp_assign lv t : oklv lv -> aspec g q_any (an_assign lv t).
    Proof. intros H. unfold an_assign. unfold oklv in H. sp_walk. Qed.
    Hint Resolve sp_assign : spdb.
    Lemma sp_assignment sym : aspec g q_any (an_assignment fuel nest sym).
    Proof. unfold an_assignment; sp_walk. Qed.
    Hint Resolve sp_assignment : spdb.
    Lemma sp_let : aspec g q_any (an_let fuel nest).
    Proof. unfold an_let; sp_walk. Qed.
    Lemma sp_parse_lvalue : aspec g (fun lv _ _ => oklv lv) (an_parse_lvalue fuel nest).
    Proof. unfold an_parse_lvalue; sp_walk. Qed.
    Hint Resolve sp_parse_lvalue : spdb.
    Lemma sp_read : aspec g q_any (an_read fuel nest).
    Proof. unfold an_read; sp_walk. Qed.
    Lemma sp_input : aspec g q_any (an_input fuel nest).
    Proof. unfold an_input; sp_walk. Qed.
    Lemma sp_dim : aspec g q_any (an_dim fuel nest).
    Proof. unfold an_dim; sp_walk. Qed.
    Lemma sp_print : aspec g q_any (an_print fuel nest).
    Proof. unfold an_print; sp_walk. Qed.
    Lemma sp_for : aspec g q_any (an_for fuel nest).
    Proof. unfold an_for; sp_walk. Qed.
    Lemma sp_next : aspec g q_any an_next.
    Proof. unfold an_next; sp_walk. Qed.
    Lemma sp_def : aspec g q_any (an_def fuel nest).
    Proof. unfold an_def; sp_walk. Qed.
    Hint Resolve sp_if sp_let sp_read sp_input sp_dim sp_print sp_for sp_next sp_def : spdb.

    Lemma sp_statement_body : aspec g q_stmt (an_statement_body fuel nest rec).
    Proof. unfold an_statement_body; sp_walk. Qed.
  End AStmt.

  Lemma sp_analyze_statement : forall fuel n g, n <= max_nesting -> g <= fuel - (max_nesting - n) ->
    aspec g q_stmt (analyze_statement fuel n).
  Proof.
    induction fuel as [|f IH]; intros n g Hn Hg; cbn [analyze_statement].
    - replace g with 0 by lia. apply aspec_fuel.
    - destruct (Nat.eqb_spec n max_nesting) as [->|Hne]; [apply aspec_fail; exact I|].
      apply sp_statement_body; [apply IH; lia | lia | apply sp_analyze_expression; lia].
  Qed.

  (* Single clauses of the contract stated for themselves; no proof of the file
     goes through them, and new functions are given an [sp_] lemma, since only
     [aspec] has a rule for [abind].  [msafe Q m] is the safety clause as a
     judgement on a cursor operation [m] itself, from any state in [inC]: the
     state stays in [inC], the keys stay, the outcome is one [post] accepts;
     every cursor operation has it ([msafe_aspec], at budget 0).  [peek_C],
     [has_next_C], [next_line_safe]: what the cursor reads on a stored line and
     where the file walk goes next, in the terms of [inC]. *)
  Definition tt_ {A} (a : A) : Prop := True.

  Definition msafe {A} (Q : A -> Prop) (m : M A) : Prop :=
    forall s, inC s -> inC (snd (m s)) /\ st_keys (snd (m s)) = st_keys s /\ post Q (fst (m s)).

  Lemma msafe_weaken {A} (Q Q' : A -> Prop) (m : M A) :
    (forall a, Q a -> Q' a) -> msafe Q m -> msafe Q' m.
  Proof.
    intros H Hm s Hs. destruct (Hm s Hs) as (H1 & H2 & H3). split; [exact H1|split; [exact H2|]].
    eapply post_weaken; eassumption.
  Qed.

  Lemma inC_reads s r : inC s -> inC (set_reads r s).
  Proof. intros H. exact H. Qed.

  Lemma peek_C s n ts :
    st_toks s = T -> loc_line (loc s) = Some n -> toks_get n T = Some ts ->
    peek_next_token s = (Ok (nth_error ts (loc_idx (loc s))), set_reads (S (reads s)) s).
  Proof.
    intros HT Hl Hg. unfold peek_next_token, cur_tokens, bind, modify, get, ret, tokens_for_line.
    cbn. rewrite Hl, HT, Hg. reflexivity.
  Qed.

  Lemma msafe_aspec {A} g (Q : A -> nat -> nat -> Prop) (Q' : A -> Prop) (m : M A) :
    (forall a p p', Q a p p' -> Q' a) -> aspec g Q (lift m) -> msafe Q' m.
  Proof.
    intros HQ Hm s Hs. destruct (inC_cursor_on s Hs) as (n & ts & Hon).
    destruct (Hm n ts (s, []) Hon) as ((M1 & _ & M3) & _ & P & _). unfold lift in *. cbn [fst] in *.
    destruct (m s) as [r s']. cbn [fst snd] in *. split; [exact (cursor_on_inC n ts s' M1) | split; [exact M3|]].
    eapply post_weaken; [|exact P]. intros a. apply HQ.
  Qed.

  Lemma msafe_peek : msafe tt_ peek_next_token.
  Proof. exact (msafe_aspec 0 _ _ _ (fun _ _ _ _ => I) (sp_peek 0)). Qed.
  Lemma msafe_next_token : msafe tt_ next_token.
  Proof. exact (msafe_aspec 0 _ _ _ (fun _ _ _ _ => I) (sp_next_token 0)). Qed.
  Lemma msafe_next_unwrapped : msafe tt_ next_unwrapped_token.
  Proof. exact (msafe_aspec 0 _ _ _ (fun _ _ _ _ => I) (sp_next_unwrapped 0)). Qed.
  Lemma msafe_expect t : msafe tt_ (expect_next_token t).
  Proof. exact (msafe_aspec 0 _ _ _ (fun _ _ _ _ => I) (sp_expect 0 t)). Qed.
  Lemma msafe_accept t : msafe tt_ (accept_next_token t).
  Proof. exact (msafe_aspec 0 _ _ _ (fun _ _ _ _ => I) (sp_accept 0 t)). Qed.
  Lemma msafe_peek_is t : msafe tt_ (peek_is t).
  Proof. exact (msafe_aspec 0 _ _ _ (fun _ _ _ _ => I) (sp_peek_is 0 t)). Qed.
  Lemma msafe_try {B} (g : token -> option B) : msafe tt_ (try_next_token g).
  Proof. exact (msafe_aspec 0 _ _ _ (fun _ _ _ _ => I) (sp_try 0 g)). Qed.
  Lemma msafe_get {A} (f : interp -> A) : msafe tt_ (get f).
  Proof. exact (msafe_aspec 0 _ _ _ (fun _ _ _ _ => I) (aspec_get 0 f)). Qed.
  Lemma msafe_get_loc : msafe okl (get loc).
  Proof. exact (msafe_aspec 0 _ _ _ (fun _ _ _ H => H) (aspec_get_loc 0)). Qed.
  Lemma msafe_define_function name args : msafe tt_ (define_function name args).
  Proof. exact (msafe_aspec 0 _ _ _ (fun _ _ _ _ => I) (sp_define_function 0 name args)). Qed.
  Lemma msafe_reset_data : msafe tt_ reset_data_cursor.
  Proof. exact (msafe_aspec 0 _ _ _ (fun _ _ _ _ => I) (sp_reset_data 0)). Qed.

  Lemma has_next_C s : inC s -> exists b, has_next_token s = (Ok b, set_reads (S (reads s)) s).
  Proof.
    intros [HT (n & ts & Hl & Hg & Hb)]. unfold has_next_token, bind. rewrite (peek_C s n ts HT Hl Hg).
    eexists. reflexivity.
  Qed.

  Lemma next_line_safe s :
    (forall k, In k (st_keys s) -> toks_get k T <> None) ->
    exists b s', next_line s = (Ok b, s') /\ st_toks s' = st_toks s /\ st_keys s' = st_keys s
      /\ immediate s' = immediate s
      /\ (b = true -> okl (loc s'))
      /\ (b = false -> loc s' = loc s).
  Proof.
    intros HK. rewrite next_line_cases. unfold store_after.
    destruct (loc_line (loc s)) as [n|]; [|exists false, s; repeat split; discriminate].
    destruct (keys_after n (st_keys s)) as [n'|] eqn:E; [|exists false, s; repeat split; discriminate].
    exists true. eexists. split; [reflexivity|]. repeat split; try discriminate.
    intros _. pose proof (HK n' (keys_after_In _ _ _ E)) as Hn.
    destruct (toks_get n' T) as [ts|] eqn:Eg; [|congruence].
    exists n', ts. cbn. repeat split; try assumption. lia.
  Qed.
End Ctx.

(* The map covers the program: every stored line is bound to a file line whose
   record has one range per token.  A stored line has a token because a location
   one past the last token is mapped to the last token's range
   (source_map.rs:53-58). *)
Definition PM (T : list (N * list token)) (m : source_map) : Prop :=
  forall n ts, toks_get n T = Some ts ->
    ts <> [] /\ exists fl lr trs, sm_lookup n (sm_lines m) = Some fl /\ nth_error (sm_ranges m) fl = Some lr
      /\ lr_token_ranges lr = Some trs /\ length trs = length ts.

Lemma PM_maps T m l : PM T m -> okl T l -> map_location_to_source m l <> None.
Proof.
  intros HP (n & ts & Hl & Hg & Hb). destruct (HP n ts Hg) as (Hne & fl & lr & trs & H1 & H2 & H3 & H4).
  unfold map_location_to_source. rewrite Hl, H1, H2, H3.
  assert (Hlen : length trs <> 0) by (rewrite H4; destruct ts; [congruence | discriminate]).
  destruct (Nat.eqb (loc_idx l) (length trs) && negb (Nat.eqb (length trs) 0)) eqn:E.
  - destruct (nth_error trs (Nat.pred (length trs))) eqn:En; [discriminate|].
    apply nth_error_None in En. lia.
  - destruct (nth_error trs (loc_idx l)) eqn:En; [discriminate|].
    apply nth_error_None in En.
    apply andb_false_iff in E. destruct E as [E|E].
    + apply Nat.eqb_neq in E. lia.
    + apply negb_false_iff, Nat.eqb_eq in E. lia.
Qed.

Section Walk.
  Variable T : list (N * list token).
  Variable m : source_map.

  (* on a stored line, or (empty program) on the empty immediate line *)
  Definition WI (st : astate) : Prop :=
    st_toks (fst st) = T /\ Forall (okA T) (snd st)
    /\ (okl T (loc (fst st)) \/ (loc_line (loc (fst st)) = None /\ immediate (fst st) = [])).

  Lemma cursor_on_WI n ts st : cursor_on T n ts (fst st) -> Forall (okA T) (snd st) -> WI st.
  Proof. intros H Ha. destruct (cursor_on_inC T n ts _ H) as [H1 H2]. split; [exact H1 | split; [exact Ha | left; exact H2]]. Qed.

  Lemma has_next_imm s : loc_line (loc s) = None -> immediate s = [] ->
    has_next_token s = (Ok false, set_reads (S (reads s)) s).
  Proof.
    intros Hl Hi. assert (Hex : line_exists s (loc s)) by (unfold line_exists; rewrite Hl; exact I).
    unfold has_next_token. rewrite bind_run, (peek_eq s Hex). unfold cur_toks. rewrite Hl, Hi.
    destruct (loc_idx (loc s)); reflexivity.
  Qed.

  Lemma populate_ok {A} (Q : A -> Prop) e l s : inC T s -> post T Q (Err e l) ->
    exists l0, populate_error_location e l s = Some l0 /\ okl T l0 /\ eok e.
  Proof.
    intros [_ Hs] Hp. unfold populate_error_location. destruct l as [l|]; cbn [post] in Hp.
    - exists l. split; [reflexivity | exact Hp].
    - exists (prev_location (loc s)). split; [|split; [apply okl_prev, Hs | exact Hp]].
      destruct e; try reflexivity. contradiction.
  Qed.

  (* a diagnostic of the walk: it maps to a source position, and is not a
     tokenizer error *)
  Definition gmsg (msg : message) : Prop :=
    map_to_source m msg <> None /\ match msg with MError _ (ESyntaxTok _) _ => False | _ => True end.
  (* one unit of fuel per nesting level, and a loop's worth on top, for every stored line *)
  Definition fuel_fits (fuel : nat) : Prop := forall n ts, toks_get n T = Some ts -> length ts + max_nesting < fuel.
  (* The outcome of a line's walk: a report that maps, or none; it starves only
     if [F] fails, and panics only if the map does not cover the program.  That
     case is carried in the outcome and [PM T m] is no hypothesis of the section:
     what the walk keeps ([walk_line_spec], first three clauses) holds over any
     map, and ProgSound.v uses it over a map of which it knows nothing. *)
  Definition calm (F : Prop) (r : res (option message)) : Prop :=
    match r with
    | Ok (Some msg) => gmsg msg | Ok None => True | OutOfFuel => ~ F | Panic _ => ~ PM T m | _ => False
    end.

  Lemma calm_weaken (F F' : Prop) r : (F' -> F) -> calm F r -> calm F' r.
  Proof. intros H. destruct r as [[msg|]|e l|p| |]; cbn [calm]; tauto. Qed.

  (* One statement of a line's walk: nothing is left on the line (or the line is
     the empty immediate one); or a statement is checked from a token of stored
     line [n] and leaves the walk in [st1] on that line: either a token has gone
     and the walk goes on from there, or the line's walk ends there, starved only
     on fuel that does not fit the line. *)
  Lemma walk_line_step fuel k st : WI st ->
    walk_line fuel (S k) m st = (Ok None, (bump (fst st), snd st))
    \/ exists n ts st1, cursor_on T n ts (fst st) /\ cursor_on T n ts (fst st1) /\ WI st1
         /\ st_keys (fst st1) = st_keys (fst st)
         /\ (togo ts (fst st1) < togo ts (fst st) /\ walk_line fuel (S k) m st = walk_line fuel k m st1
             \/ exists r, walk_line fuel (S k) m st = (r, st1) /\ calm (length ts + max_nesting < fuel) r).
  Proof.
    intros (HT & Hacc & [Hok|[Hl Hi]]); cbn [walk_line].
    2:{ left. rewrite (has_next_imm (fst st) Hl Hi). reflexivity. }
    destruct (inC_cursor_on T (fst st) (conj HT Hok)) as (n & ts & Hon). destruct (cursor_on_cur T n ts _ Hon) as [Hex Hcur].
    unfold has_next_token. rewrite bind_run, (peek_eq _ Hex), Hcur. pose proof (token_seen T n ts _ Hon) as Hs.
    destruct (nth_error ts (loc_idx (loc (fst st)))) as [t0|]; cbn [ret]; [right | left; reflexivity].
    (* the largest budget a statement has at nesting 0; it exceeds the tokens left as soon as the fuel fits the line *)
    destruct (sp_analyze_statement T fuel 0 (Nat.min (S (length ts)) (fuel - max_nesting)) (Nat.le_0_l _) ltac:(lia)
                n ts (bump (fst st), snd st) Hon) as ((M1 & M2 & M3) & A1 & P & F). specialize (A1 Hacc).
    destruct (analyze_statement fuel 0 _) as [r st1]. cbn [fst snd] in *. exists n, ts, st1.
    split; [exact Hon|]. split; [exact M1|]. split; [exact (cursor_on_WI n ts st1 M1 A1)|]. split; [exact M3|].
    destruct r as [u|e l|p| |]; try solve [destruct P].
    - left. split; [|reflexivity]. cbn [post] in P. unfold q_stmt in P. change (togo ts (bump (fst st))) with (togo ts (fst st)) in P.
      lia.
    - right. destruct (populate_ok _ e l (fst st1) (cursor_on_inC T n ts _ M1) P) as (l0 & -> & Hl0 & He).
      destruct (map_location_to_source m l0) as [[fl r]|] eqn:Em; eexists; (split; [reflexivity|]).
      + unfold calm, gmsg. destruct e; cbn [eok] in He; try contradiction;
          (split; [cbn [map_to_source]; rewrite Em; discriminate | exact I]).
      + exact (fun HP => PM_maps T m l0 HP Hl0 Em).
    - right. eexists. split; [reflexivity|]. intros Hf. apply F; [unfold togo; lia | reflexivity].
  Qed.

  (* a line's walk: with more statement budget than tokens left and fuel that
     fits it does not starve *)
  Lemma walk_line_spec fuel : forall stmts st, WI st ->
    WI (snd (walk_line fuel stmts m st))
    /\ st_keys (fst (snd (walk_line fuel stmts m st))) = st_keys (fst st)
    /\ loc_line (loc (fst (snd (walk_line fuel stmts m st)))) = loc_line (loc (fst st))
    /\ calm (fuel_fits fuel /\ 0 < stmts /\ forall n ts, cursor_on T n ts (fst st) -> togo ts (fst st) < stmts)
            (fst (walk_line fuel stmts m st)).
  Proof.
    induction stmts as [|k IH]; intros st HW.
    - split; [exact HW | split; [reflexivity | split; [reflexivity | intros (_ & H & _); lia]]].
    - destruct (walk_line_step fuel k st HW) as [-> | (n & ts & st1 & Hon & Hon1 & HW1 & Hk & [[Hlt ->] | (r & -> & Hc)])].
      { split; [exact HW | split; [reflexivity | split; [reflexivity | exact I]]]. }
      all: assert (Hline : loc_line (loc (fst st1)) = loc_line (loc (fst st)))
        by (destruct Hon as (_ & -> & _), Hon1 as (_ & -> & _); reflexivity).
      + destruct (IH st1 HW1) as (B1 & B2 & B3 & B4).
        split; [exact B1 | split; [congruence | split; [congruence|]]].
        revert B4. apply calm_weaken. intros (F1 & _ & F3). split; [exact F1|]. specialize (F3 n ts Hon). split; [lia|].
        intros n' ts' Hon'. destruct Hon1 as (_ & E1 & E2 & _), Hon' as (_ & E3 & E4 & _).
        assert (ts' = ts) by congruence. subst ts'. lia.
      + split; [exact HW1 | split; [exact Hk | split; [exact Hline|]]].
        revert Hc. apply calm_weaken. intros (F1 & _ & _). destruct Hon as (_ & _ & Hg & _). exact (F1 n ts Hg).
  Qed.

  (* the walk goes on from the first token of the next stored line, or stops *)
  Lemma next_line_WI st : (forall k, In k (st_keys (fst st)) -> toks_get k T <> None) -> WI st ->
    next_line (fst st) = (Ok false, fst st)
    \/ exists ln n', loc_line (loc (fst st)) = Some ln /\ keys_after ln (st_keys (fst st)) = Some n'
         /\ next_line (fst st) = (Ok true, set_loc (mkloc (Some n') 0) (fst st))
         /\ WI (set_loc (mkloc (Some n') 0) (fst st), snd st).
  Proof.
    intros HK (HT & Hacc & _). rewrite next_line_cases. unfold store_after.
    destruct (loc_line (loc (fst st))) as [ln|]; [|left; reflexivity].
    destruct (keys_after ln (st_keys (fst st))) as [n'|] eqn:E; [right | left; reflexivity].
    exists ln, n'. repeat split; try assumption. left.
    pose proof (HK n' (keys_after_In _ _ _ E)) as Hn.
    destruct (toks_get n' T) as [ts|] eqn:Eg; [|congruence].
    exists n', ts. cbn. repeat split; try assumption. lia.
  Qed.

  (* The measure of the file walk: the keys behind line [ln].  [keys_after]
     moves to a key [n'] behind [ln]: [n'] is counted behind [ln] and not behind
     itself, and whatever is behind [n'] is behind [ln]; the keys need not be
     sorted for that. *)
  Definition later (ln : N) (keys : list N) : nat := length (filter (fun k => (ln <? k)%N) keys).

  Lemma keys_after_later ln keys n' : keys_after ln keys = Some n' -> later n' keys < later ln keys.
  Proof.
    intros H.
    assert (Hlt : (ln < n')%N).
    { clear -H. induction keys as [|k keys IH]; cbn [keys_after] in H; [discriminate|].
      destruct (N.ltb_spec ln k); [inversion H; subst; assumption | exact (IH H)]. }
    pose proof (keys_after_In _ _ _ H) as Hin. unfold later. clear H.
    induction keys as [|k keys IH]; [destruct Hin|]. cbn [filter].
    destruct Hin as [->|Hin].
    - destruct (N.ltb_spec n' n'); [lia|]. destruct (N.ltb_spec ln n'); [|lia]. cbn [length].
      apply Nat.lt_succ_r. clear IH. induction keys as [|k keys IH]; [apply le_n|]. cbn [filter].
      destruct (N.ltb_spec n' k); destruct (N.ltb_spec ln k); cbn [length]; try lia.
    - specialize (IH Hin). destruct (N.ltb_spec n' k); destruct (N.ltb_spec ln k); cbn [length]; try lia.
  Qed.

  Definition ahead (s : interp) : nat :=
    match loc_line (loc s) with Some ln => later ln (st_keys s) | None => 0 end.

  (* the statement budget [walk_lines] gives a line exceeds the tokens left on it *)
  Lemma walk_budget (st : astate) n ts : cursor_on T n ts (fst st) ->
    togo ts (fst st) < S (length (match fst (cur_tokens (fst st)) with Ok ts => ts | _ => [] end)).
  Proof.
    intros Hon. destruct (cursor_on_cur T n ts _ Hon) as [Hex Hcur]. rewrite (cur_tokens_eq _ Hex), Hcur. unfold togo. cbn [fst]. lia.
  Qed.

  (* The file walk: good accesses, good diagnostics; no panic if the map covers
     the program; with fuel that fits and more line budget than lines ahead no
     starving.  Stated over [(s, acc)] and not over [st] with [fst st]: at the
     start state [(s0, [])] of [analyze] the kernel would compare [fst (s0, [])]
     with [s0] by unfolding [s0], and [Qed] does not return. *)
  Lemma walk_lines_spec fuel (G : message -> Prop) : (forall msg, gmsg msg -> G msg) ->
    forall n msgs s acc,
    (forall k, In k (st_keys s) -> toks_get k T <> None) -> WI (s, acc) -> Forall G msgs ->
    Forall (okA T) (snd (snd (walk_lines fuel n m msgs (s, acc))))
    /\ Forall G (snd (fst (walk_lines fuel n m msgs (s, acc))))
    /\ match fst (fst (walk_lines fuel n m msgs (s, acc))) with
       | Ok _ => True
       | OutOfFuel => ~ (fuel_fits fuel /\ ahead s < n)
       | Panic _ => ~ PM T m
       | _ => False
       end.
  Proof.
    intros HG. induction n as [|n IH]; intros msgs s acc HK HW HM; set (st := (s, acc)) in *;
      change s with (fst st) in HK |- *; clearbody st; clear s acc; cbn [walk_lines].
    - split; [apply HW | split; [exact HM | intros [_ H]; lia]].
    - destruct (walk_line_spec fuel (S (length (match fst (cur_tokens (fst st)) with Ok ts => ts | _ => [] end))) st HW)
        as (B2 & B3 & B5 & B1).
      destruct (walk_line fuel _ m st) as [[om|e l|p| |] st'] eqn:Ew; cbn [fst snd] in *; unfold calm in B1;
        [ | destruct B1 | split; [apply B2 | split; [exact HM | exact B1]] | | destruct B1 ].
      + assert (HM' : Forall G (match om with Some msg => msgs ++ [msg] | None => msgs end)).
        { destruct om as [msg|]; [|exact HM]. apply Forall_app. split; [exact HM|].
          constructor; [apply HG; exact B1 | constructor]. }
        rewrite <- B3 in HK.
        destruct (next_line_WI st' HK B2) as [-> | (ln & n' & El & Ek & -> & HW1)].
        * split; [apply B2 | split; [exact HM' | exact I]].
        * destruct (IH _ (set_loc (mkloc (Some n') 0) (fst st')) (snd st') HK HW1 HM') as (I1 & I2 & I3). split; [exact I1 | split; [exact I2|]].
          destruct (fst (fst (walk_lines fuel n m _ _))); try exact I3.
          intros [F1 F2]. apply I3. split; [exact F1|].
          unfold ahead in *. cbn [fst loc set_loc loc_line st_keys].
          pose proof (keys_after_later ln _ n' Ek). rewrite <- B5, El, <- B3 in F2. lia.
      + split; [apply B2 | split; [exact HM|]]. intros [F1 _]. apply B1. split; [exact F1 | split; [lia|]].
        intros k ts Hon. apply (walk_budget st k ts Hon).
  Qed.
End Walk.

Lemma ahead_le s : ahead s <= length (st_keys s).
Proof.
  unfold ahead, later. destruct (loc_line (loc s)) as [ln|]; [|lia].
  induction (st_keys s) as [|x l IH]; cbn [filter length]; [lia|]. destruct (ln <? x)%N; cbn [length]; lia.
Qed.

Lemma accesses_of_In sym w acc l : In l (accesses_of sym w acc) -> exists a, In a acc /\ snd (fst a) = l.
Proof.
  unfold accesses_of. intros H. apply in_map_iff in H. destruct H as (a & Ha & Hin).
  apply filter_In in Hin. exists a. split; [apply Hin | exact Ha].
Qed.

Lemma symbol_warnings_In acc w : In w (symbol_warnings acc) -> exists a, In a acc /\ snd (fst a) = snd (fst w).
Proof.
  unfold symbol_warnings. intros H. apply in_flat_map in H. destruct H as (sym & _ & H).
  destruct (accesses_of sym false acc) as [|r0 rs] eqn:Er; destruct (accesses_of sym true acc) as [|w0 ws] eqn:Ew;
    try contradiction; apply in_map_iff in H; destruct H as (l & <- & Hl); cbn [fst snd].
  - apply (accesses_of_In sym true acc). rewrite Ew. exact Hl.
  - apply (accesses_of_In sym false acc). rewrite Er. exact Hl.
Qed.

Lemma symbol_messages_good T m ws : PM T m ->
  Forall (fun w => okl T (snd (fst w))) ws ->
  exists sm, symbol_messages m ws = Some sm /\ Forall (gmsg m) sm.
Proof.
  intros HP. induction ws as [|w ws IH]; intros H; cbn [symbol_messages].
  - exists []. split; [reflexivity | constructor].
  - inversion H as [|? ? Hw Hws]; subst. destruct (IH Hws) as (sm & -> & Hsm).
    destruct w as [[sym l] u]. cbn [symbol_message fst snd] in *.
    pose proof (PM_maps T m l HP Hw) as Hm.
    destruct (map_location_to_source m l) as [[fl r]|] eqn:Em; [|congruence].
    eexists. split; [reflexivity|]. constructor; [|exact Hsm].
    split; [cbn [map_to_source]; rewrite Em; discriminate | exact I].
Qed.

Lemma PM_more_ranges T lines ranges lr :
  PM T (mkmap lines ranges) -> PM T (mkmap lines (ranges ++ [lr])).
Proof.
  intros HP n ts Hg. destruct (HP n ts Hg) as (Hne & fl & lr0 & trs & H1 & H2 & H3 & H4).
  split; [exact Hne|]. exists fl, lr0, trs. cbn [sm_lines sm_ranges] in *. repeat split; try assumption.
  rewrite nth_error_app1; [exact H2|]. apply nth_error_Some. congruence.
Qed.

(* storing a line binds its number to the file line being added *)
Lemma PM_stored prog binds ranges n e (ts : list ranged) len :
  PM (st_toks prog) (mkmap binds ranges) -> ts <> [] ->
  PM (st_toks (snd (set_numbered_line n (map fst ts) prog)))
     (mkmap ((n, length ranges) :: binds) (ranges ++ [mkranges e (Some (map snd ts)) None len])).
Proof.
  intros Hm Hts. destruct (set_numbered_line_store n (map fst ts) prog) as [-> _].
  intros k tk Hk. change (toks_get k (st_toks (store_set n (map fst ts) prog)))
    with (abs (store_set n (map fst ts) prog) k) in Hk.
  rewrite abs_store_set in Hk. unfold aupd in Hk. cbn [sm_lines sm_ranges sm_lookup].
  destruct (n =? k)%N.
  - assert (Hmap : map fst ts <> []) by (destruct ts; [congruence|discriminate]).
    destruct (map fst ts) as [|t0 r0] eqn:Em; [congruence|]. rewrite <- Em in *. injection Hk as <-.
    split; [exact Hmap|].
    exists (length ranges), (mkranges e (Some (map snd ts)) None len), (map snd ts).
    repeat split.
    + rewrite nth_error_app2 by apply le_n. rewrite Nat.sub_diag. reflexivity.
    + rewrite !map_length. reflexivity.
  - exact (PM_more_ranges _ _ _ _ Hm k tk Hk).
Qed.

(* a message of pass 1: a warning or a tokenizer error, without a location, about a file line below [k] *)
Definition p1msg (k : nat) (msg : message) : Prop :=
  match msg with
  | MWarning fl None _ => fl < k
  | MError fl (ESyntaxTok _) _ => fl < k
  | _ => False
  end.

Lemma p1msg_mono k k' msg : k <= k' -> p1msg k msg -> p1msg k' msg.
Proof. intros H. destruct msg as [fl [l|] t|fl e l]; cbn [p1msg]; try tauto; [lia|]. destruct e; try tauto. lia. Qed.

Lemma p1msg_maps m msg : p1msg (length (sm_ranges m)) msg -> map_to_source m msg <> None.
Proof.
  destruct msg as [fl [l|] t|fl e l]; cbn [p1msg map_to_source]; try tauto.
  - intros H. destruct (nth_error (sm_ranges m) fl) eqn:E; [discriminate|]. apply nth_error_None in E. lia.
  - destruct e; try tauto. intros H.
    destruct (nth_error (sm_ranges m) fl) as [lr|] eqn:E; [|apply nth_error_None in E; lia].
    destruct (lr_error_range lr); discriminate.
Qed.

(* what pass 1 keeps, for every text, after [i] file lines: a program in [wf], a
   map that covers it, and only messages that map ([p1msg_maps]) *)
Record PP (i : nat) (p : pass1) : Prop := {
  pp_wf : wf (p_prog p);
  pp_map : PM (st_toks (p_prog p)) (p_map p);
  pp_len : length (sm_ranges (p_map p)) = i;
  pp_msgs : Forall (p1msg i) (p_msgs p) }.

Lemma PP_init : PP 0 (mkpass1 init_interp [] (mkmap [] []) []).
Proof. split; [apply wf_init| |reflexivity|constructor]. intros n ts H. discriminate. Qed.

Lemma sm_expand m : m = mkmap (sm_lines m) (sm_ranges m).
Proof. destruct m; reflexivity. Qed.

Lemma Forall_p1_S i msgs : Forall (p1msg i) msgs -> Forall (p1msg (S i)) msgs.
Proof. apply Forall_impl. intros a. apply p1msg_mono. lia. Qed.

Lemma PP_line i line p : PP i p -> PP (S i) (pass1_line i line p).
Proof.
  intros [Hwf Hm Hlen Hmsgs]. rewrite (sm_expand (p_map p)) in Hm.
  destruct (pass1_line_case i line p) as (prog & msgs & binds & lr & lt & C & ->).
  assert (Hl1 : length (sm_ranges (p_map p) ++ [lr]) = S i) by (rewrite app_length, Hlen; cbn; lia).
  assert (K : Forall (p1msg (S i)) (p_msgs p ++ msgs)).
  { apply Forall_app. split; [apply Forall_p1_S, Hmsgs|].
    generalize (pass1_case_msgs _ _ _ _ _ _ _ _ C). apply Forall_impl.
    intros [fl [l|] w|fl [] [l|]]; cbn; try tauto; intros H; [|destruct H as [H _]]; rewrite H; lia. }
  split; cbn [p_prog p_map p_msgs sm_ranges]; [ | | exact Hl1 | exact K];
    destruct C as [El | Hne Ep | n e Hne Ep Et | n e ts Hne Ep Et Hts | n e ts err Hne Ep Et];
    try exact Hwf; try (apply PM_more_ranges; exact Hm).
  - apply wf_set_numbered_line, Hwf.
  - apply PM_stored; assumption.
Qed.

Lemma PP_lines lines : forall i p, PP i p -> PP (i + length lines) (pass1_lines i lines p).
Proof.
  induction lines as [|l r IH]; intros i p H; cbn [pass1_lines length].
  - rewrite Nat.add_0_r. exact H.
  - rewrite Nat.add_succ_r. apply (IH (S i)), PP_line, H.
Qed.

(* [AnalyzerProofs.pass1_of] again; [line_bound] and the checker's theorems are stated over this one *)
Definition pass1_of' (text : bytes) : pass1 :=
  pass1_lines 0 (split_lines text) (mkpass1 init_interp [] (mkmap [] []) []).

Lemma PP_pass1 text : PP (length (split_lines text)) (pass1_of' text).
Proof. exact (PP_lines (split_lines text) 0 _ PP_init). Qed.

Lemma rffl_fields s :
  let s' := snd (run_from_first_numbered_line s) in
  st_toks s' = st_toks s /\ st_keys s' = st_keys s /\ immediate s' = []
  /\ loc s' = match store_first s with Some n => mkloc (Some n) 0 | None => imm0 end
  /\ functions s' = [].
Proof.
  unfold run_from_first_numbered_line, reset_runtime_state, reset_data_cursor, program_end.
  rewrite set_imm_is_modify. unfold modify, bind, imm_reset. cbn [snd fst].
  match goal with |- context [store_first ?x] => change (store_first x) with (store_first s) end.
  destruct (store_first s); destruct s; cbn; repeat split.
Qed.

Lemma walk_start prog : wf prog ->
  let s := snd (run_from_first_numbered_line prog) in
  (forall k, In k (st_keys s) -> toks_get k (st_toks prog) <> None) /\ WI (st_toks prog) (s, []).
Proof.
  intros Hwf s. destruct (rffl_fields prog) as (F1 & F2 & F3 & F4 & _).
  destruct (wf_store _ Hwf) as (_ & Hkeys & _). subst s. split.
  - intros k Hk. rewrite F2 in Hk. apply Hkeys, Hk.
  - split; [exact F1|]. split; [constructor|]. cbn [fst]. rewrite F4.
    unfold store_first. destruct (st_keys prog) as [|k ks] eqn:Ek; cbn [hd_error].
    + right. split; [reflexivity | exact F3].
    + left. assert (Hin : toks_get k (st_toks prog) <> None) by (apply Hkeys; left; reflexivity).
      destruct (toks_get k (st_toks prog)) as [ts|] eqn:Eg; [|congruence].
      exists k, ts. cbn. repeat split; try assumption. lia.
Qed.

(* everything the walk establishes, for a predicate [G] on diagnostics that
   the diagnostics of pass 1 and those of the walk satisfy: the analysis answers
   Ok, or starves on fuel that does not fit the stored lines *)
Lemma analysis_facts fuel text (G : message -> Prop) :
  (forall msg, gmsg (p_map (pass1_of' text)) msg -> G msg) ->
  Forall G (p_msgs (pass1_of' text)) ->
  match an_result (analyze fuel text) with
  | Ok _ => True
  | OutOfFuel => ~ fuel_fits (st_toks (p_prog (pass1_of' text))) fuel
  | _ => False
  end /\ Forall G (an_messages (analyze fuel text)).
Proof.
  intros HG HG1.
  unfold analyze. fold (pass1_of' text).
  destruct (PP_pass1 text) as [Hwf HPM _ _]. destruct (walk_start _ Hwf) as [HK HW].
  set (P := pass1_of' text) in *. set (T := st_toks (p_prog P)) in *.
  set (s0 := snd (run_from_first_numbered_line (p_prog P))) in *.
  destruct (walk_lines_spec T (p_map P) fuel G HG (S (length (st_keys s0))) (p_msgs P) s0 [] HK HW HG1)
    as (Q2 & Q3 & Q1).
  destruct (walk_lines fuel (S (length (st_keys s0))) (p_map P) (p_msgs P) (s0, [])) as [[r msgs] st].
  cbn [fst snd] in Q1, Q2, Q3.
  destruct r as [u|e l|pp| |]; cbn [an_result an_messages]; try contradiction.
  - assert (Hs : Forall (fun w => okl T (snd (fst w))) (symbol_warnings (snd st))).
    { apply Forall_forall. intros w Hw. destruct (symbol_warnings_In _ _ Hw) as (a & Ha & <-).
      exact (proj1 (Forall_forall _ _) Q2 a Ha). }
    pose proof (symbol_messages_good T (p_map P) (symbol_warnings (snd st)) HPM Hs) as (sm & -> & Hsm).
    cbn [an_result an_messages]. split; [exact I|].
    apply Forall_app. split; [exact Q3|].
    eapply Forall_impl; [|exact Hsm]. exact HG.
  - split; [|exact Q3]. intros F. exact (Q1 (conj F (proj2 (Nat.lt_succ_r _ _) (ahead_le s0)))).
Qed.

Theorem analysis_never_panics fuel text : forall p, an_result (analyze fuel text) <> Panic p.
Proof.
  destruct (analysis_facts fuel text (fun _ => True)) as [H _]; [intros; exact I | apply Forall_forall; intros; exact I |].
  intros p E. rewrite E in H. exact H.
Qed.

Lemma pass1_msgs_map text :
  Forall (fun msg => map_to_source (p_map (pass1_of' text)) msg <> None) (p_msgs (pass1_of' text)).
Proof.
  destruct (PP_pass1 text) as [_ _ Hlen Hmsgs].
  eapply Forall_impl; [|exact Hmsgs]. intros msg H. apply p1msg_maps. rewrite Hlen. exact H.
Qed.

Theorem analysis_messages_map fuel text :
  Forall (fun msg => map_to_source (an_map (analyze fuel text)) msg <> None) (an_messages (analyze fuel text)).
Proof.
  pose proof (proj1 (analyze_fields fuel text)) as Hmap. change (pass1_of text) with (pass1_of' text) in Hmap.
  rewrite Hmap.
  apply (analysis_facts fuel text (fun msg => map_to_source (p_map (pass1_of' text)) msg <> None)).
  - intros msg [H _]. exact H.
  - apply pass1_msgs_map.
Qed.

Theorem diagnostics_well_formed fuel text :
  Forall (fun l => valid_utf8 l = true) (split_lines text) ->
  Forall (fun msg => exists fl r line,
            map_to_source (an_map (analyze fuel text)) msg = Some (fl, r)
            /\ nth_error (split_lines text) fl = Some line /\ range_ok line r)
         (an_messages (analyze fuel text)).
Proof.
  intros Hv.
  pose proof (proj1 (analyze_fields fuel text)) as Hmap. change (pass1_of text) with (pass1_of' text) in Hmap.
  assert (H : Forall (fun msg => map_to_source (p_map (pass1_of' text)) msg <> None
                                 /\ msg_ok (sm_ranges (p_map (pass1_of' text))) msg)
                     (an_messages (analyze fuel text))).
  { apply (analysis_facts fuel text).
    - intros msg [H1 H2]. split; [exact H1|]. destruct msg as [fl l t|fl e l]; [exact I|].
      destruct e; try exact I. contradiction.
    - exact (Forall_and (pass1_msgs_map text) (q_msgs _ (pass1_inv text))). }
  eapply Forall_impl; [|exact H]. intros msg [H1 H2]. rewrite Hmap.
  destruct (map_to_source (p_map (pass1_of' text)) msg) as [[fl r]|] eqn:E; [|congruence].
  pose proof (mapped_in_bounds fuel text msg fl r Hv) as Hb. rewrite Hmap in Hb.
  destruct (Hb H2 E) as (line & Hl & Hr). exists fl, r, line. split; [reflexivity | split; assumption].
Qed.

(* The safety clause again, for the analyzer's own functions: [asafe Q m], from
   any state in [inC] that has logged only good accesses, as [msafe] is for a
   cursor operation ([asafe_aspec], from the contract at any budget).  Like
   [msafe] it is stated for itself and has no rule for [abind].  Above the
   nesting cap nothing stops the recursion of [analyze_expression] and
   [analyze_statement] but the fuel, so no positive budget is met there
   ([sp_analyze_expression] asks [n <= max_nesting]); the rest of the contract
   is met at every nesting level ([sp_analyze_expression_0],
   [sp_analyze_statement_0]: budget 0), which gives [asafe] of both at every
   level here and their strict progress in AnalyzerTermination.v. *)
Section Asafe.
  Variable T : list (N * list token).

  Definition asafe {A} (Q : A -> Prop) (m : MA A) : Prop :=
    forall st, inC T (fst st) -> Forall (okA T) (snd st) ->
      inC T (fst (snd (m st))) /\ st_keys (fst (snd (m st))) = st_keys (fst st)
      /\ Forall (okA T) (snd (snd (m st))) /\ post T Q (fst (m st)).

  Lemma asafe_aspec {A} g (Q : A -> nat -> nat -> Prop) (Q' : A -> Prop) (m : MA A) :
    (forall a p p', Q a p p' -> Q' a) -> aspec T g Q m -> asafe Q' m.
  Proof.
    intros HQ Hm st H Hacc. destruct (inC_cursor_on T _ H) as (n & ts & Hon).
    destruct (Hm n ts st Hon) as ((M1 & _ & M3) & A1 & P & _).
    split; [exact (cursor_on_inC T n ts _ M1) | split; [exact M3 | split; [exact (A1 Hacc)|]]].
    eapply post_weaken; [|exact P]. intros a. apply HQ.
  Qed.

  Lemma sp_analyze_expression_0 : forall fuel n, aspec T 0 q_eats (analyze_expression fuel n).
  Proof.
    induction fuel as [|f IH]; intros n; cbn [analyze_expression]; [apply aspec_fuel|].
    destruct (Nat.eqb n max_nesting); [apply aspec_fail; exact I|]. apply sp_or; [apply IH | apply Nat.le_0_l].
  Qed.

  Lemma sp_analyze_statement_0 : forall fuel n, aspec T 0 q_stmt (analyze_statement fuel n).
  Proof.
    induction fuel as [|f IH]; intros n; cbn [analyze_statement]; [apply aspec_fuel|].
    destruct (Nat.eqb n max_nesting); [apply aspec_fail; exact I|].
    apply sp_statement_body; [apply IH | apply Nat.le_0_l | apply sp_analyze_expression_0].
  Qed.

  Lemma as_analyze_expression fuel : forall n, asafe tt_ (analyze_expression fuel n).
  Proof. intros n. exact (asafe_aspec 0 _ _ _ (fun _ _ _ _ => I) (sp_analyze_expression_0 fuel n)). Qed.

  Lemma as_analyze_statement fuel : forall n, asafe tt_ (analyze_statement fuel n).
  Proof. intros n. exact (asafe_aspec 0 _ _ _ (fun _ _ _ _ => I) (sp_analyze_statement_0 fuel n)). Qed.
End Asafe.
