(* The random number generator (random.rs): the integer arithmetic of the LCG,
   [rng_rnd] and [randomize] on the state, determinism; and the float produced:
   for every reduced state [s < MODULUS = 2^33], [latest_random s] is exactly
   the double [s * 2^-33] (no rounding), hence finite and in [[0, 1)].  The float
   facts are proved on the standard library's [SpecFloat] definitions and, up to
   the last part (over the reals), without axioms; facts about the generated constants are decided by computation, so
   they are re-checked whenever [Gen/Tables.v] is regenerated. *)

From Coq Require Import ZArith NArith List Bool Lia Floats.SpecFloat.
From Abasic Require Import Model.Num Gen.Tables Model.State Model.Interp.
Import ListNotations.

Section Integers.
Local Open Scope N_scope.

Lemma MODULUS_pos : MODULUS <> 0.
Proof. unfold MODULUS; discriminate. Qed.

Lemma MODULUS_is_2_33 : MODULUS = 2 ^ 33.
Proof. vm_compute; reflexivity. Qed.

Lemma MULTIPLIER_value : MULTIPLIER = 1664525.
Proof. vm_compute; reflexivity. Qed.

Lemma INCREMENT_value : INCREMENT = 1013904223.
Proof. vm_compute; reflexivity. Qed.

Theorem rng_new_range : forall seed, rng_new seed < MODULUS.
Proof. intros seed; unfold rng_new; apply N.mod_lt, MODULUS_pos. Qed.

Theorem lcg_range : forall s, lcg s < MODULUS.
Proof. intros s; unfold lcg; apply N.mod_lt, MODULUS_pos. Qed.

(* The Rust [u64] arithmetic cannot overflow once the state is reduced. *)
Theorem lcg_no_u64_overflow :
  forall s, s < MODULUS -> MULTIPLIER * s + INCREMENT < 2 ^ 64.
Proof.
  intros s H.
  assert (E : 2 ^ 64 = 18446744073709551616) by (vm_compute; reflexivity).
  rewrite E; clear E.
  unfold MODULUS in H; unfold MULTIPLIER, INCREMENT; lia.
Qed.

(* Seeding with [seed mod MODULUS] gives the documented sequence of [seed]. *)
Theorem lcg_mod_invariant : forall s, lcg (s mod MODULUS) = lcg s.
Proof.
  intros s; unfold lcg.
  rewrite (N.add_mod (MULTIPLIER * (s mod MODULUS))) by apply MODULUS_pos.
  rewrite (N.mul_mod_idemp_r MULTIPLIER s MODULUS) by apply MODULUS_pos.
  rewrite <- N.add_mod by apply MODULUS_pos.
  reflexivity.
Qed.

Theorem lcg_documented :
  forall s, lcg s = (1664525 * s + 1013904223) mod 2 ^ 33.
Proof.
  intros s; unfold lcg.
  rewrite MODULUS_is_2_33, MULTIPLIER_value, INCREMENT_value; reflexivity.
Qed.

Theorem rng_rnd_spec :
  forall x st,
  rng_rnd x st =
  if f64_ltb x f64_zero then (Err EUnimplemented None, st)
  else if f64_eqb x f64_zero then (Ok (latest_random (rng st)), st)
  else (Ok (latest_random (lcg (rng st))), set_rng (lcg (rng st)) st).
Proof.
  intros x st. unfold rng_rnd.
  destruct (f64_ltb x f64_zero), (f64_eqb x f64_zero); reflexivity.
Qed.

Lemma rng_set_rng : forall v st, rng (set_rng v st) = v.
Proof. reflexivity. Qed.

Definition rng_ok (st : interp) : Prop := rng st < MODULUS.

Theorem randomize_spec :
  forall seed st, randomize seed st = (Ok tt, set_rng (rng_new seed) st).
Proof. reflexivity. Qed.

Theorem randomize_establishes_rng_ok :
  forall seed st, rng_ok (snd (randomize seed st)).
Proof. intros seed st; rewrite randomize_spec; apply rng_new_range. Qed.

Theorem rng_rnd_preserves_rng_ok :
  forall x st, rng_ok st -> rng_ok (snd (rng_rnd x st)).
Proof.
  intros x st H; rewrite rng_rnd_spec.
  destruct (f64_ltb x f64_zero); [exact H|].
  destruct (f64_eqb x f64_zero); [exact H|].
  unfold rng_ok; cbn [snd]; rewrite rng_set_rng; apply lcg_range.
Qed.

Theorem rng_invariant :
  (forall seed st, rng_ok (snd (randomize seed st))) /\
  (forall x st, rng_ok st -> rng_ok (snd (rng_rnd x st))).
Proof.
  split; [apply randomize_establishes_rng_ok | apply rng_rnd_preserves_rng_ok].
Qed.

(* [rnd_run args st] calls [rng_rnd] on the successive [args], threading the
   interpreter state; [rnd_pure s args] is the same computed from the generator
   state alone. *)
Fixpoint rnd_run (args : list f64) (st : interp) : list (res f64) :=
  match args with
  | [] => []
  | x :: r => let '(v, st') := rng_rnd x st in v :: rnd_run r st'
  end.

Fixpoint rnd_pure (s : N) (args : list f64) : list (res f64) :=
  match args with
  | [] => []
  | x :: r =>
      if f64_ltb x f64_zero then Err EUnimplemented None :: rnd_pure s r
      else if f64_eqb x f64_zero then Ok (latest_random s) :: rnd_pure s r
      else Ok (latest_random (lcg s)) :: rnd_pure (lcg s) r
  end.

(** What a program observes after [randomize seed] in state [st0]. *)
Definition rnd_seq_from (st0 : interp) (seed : N) (args : list f64) : list (res f64) :=
  rnd_run args (snd (randomize seed st0)).

(** The same, as a function of the seed and the arguments only. *)
Definition rnd_seq (seed : N) (args : list f64) : list (res f64) :=
  rnd_pure (rng_new seed) args.

Theorem rnd_run_pure : forall args st, rnd_run args st = rnd_pure (rng st) args.
Proof.
  induction args as [|x r IH]; intros st; [reflexivity|].
  cbn [rnd_run rnd_pure]; rewrite rng_rnd_spec.
  destruct (f64_ltb x f64_zero); [rewrite IH; reflexivity|].
  destruct (f64_eqb x f64_zero); [rewrite IH; reflexivity|].
  rewrite IH, rng_set_rng; reflexivity.
Qed.

Theorem rnd_seq_from_pure :
  forall st0 seed args, rnd_seq_from st0 seed args = rnd_seq seed args.
Proof.
  intros; unfold rnd_seq_from, rnd_seq.
  rewrite rnd_run_pure, randomize_spec; cbn [snd]; rewrite rng_set_rng; reflexivity.
Qed.

Theorem rnd_seq_mod : forall seed args, rnd_seq (seed mod MODULUS) args = rnd_seq seed args.
Proof.
  intros; unfold rnd_seq, rng_new.
  rewrite N.mod_mod by apply MODULUS_pos; reflexivity.
Qed.

(** The observed sequence depends only on [seed mod MODULUS] and [args]:
    neither on the rest of the interpreter state nor on the unreduced seed. *)
Theorem rnd_seq_deterministic :
  forall st0 st1 seed0 seed1 args,
  seed0 mod MODULUS = seed1 mod MODULUS ->
  rnd_seq_from st0 seed0 args = rnd_seq_from st1 seed1 args.
Proof.
  intros st0 st1 seed0 seed1 args H.
  rewrite !rnd_seq_from_pure; unfold rnd_seq, rng_new; rewrite H; reflexivity.
Qed.

Fixpoint lcg_iter (n : nat) (s : N) : N :=
  match n with O => s | S k => lcg (lcg_iter k s) end.

Lemma lcg_iter_mod :
  forall n s, (0 < n)%nat -> lcg_iter n (s mod MODULUS) = lcg_iter n s.
Proof.
  induction n as [|n IH]; intros s Hn; [inversion Hn|].
  destruct n as [|n]; cbn [lcg_iter].
  - apply lcg_mod_invariant.
  - cbn [lcg_iter] in IH; rewrite IH by (apply Nat.lt_0_succ); reflexivity.
Qed.

(** Non-vacuity: the documented first states from seed 0. *)
Example lcg_seed0_1 : lcg_iter 1 (rng_new 0) = 1013904223.
Proof. vm_compute; reflexivity. Qed.
Example lcg_seed0_2 : lcg_iter 2 (rng_new 0) = 5491403058.
Proof. vm_compute; reflexivity. Qed.
Example lcg_seed0_3 : lcg_iter 3 (rng_new 0) = 3519870697.
Proof. vm_compute; reflexivity. Qed.

End Integers.

Section Doubles.
Local Open Scope Z_scope.

(* binary64: the smallest exponent is emin = 3 - emax - prec = -1074, the
   largest emax - prec = 971. *)
Lemma fexp_normal : forall e, -1074 <= e - 53 -> fexp prec emax e = e - 53.
Proof. intros e H; unfold fexp, emin, prec, emax; lia. Qed.

Lemma digits2_pos_size : forall p, digits2_pos p = Pos.size p.
Proof. induction p as [p IH|p IH|]; cbn [digits2_pos Pos.size]; congruence. Qed.

Lemma digits2_pos_log2 : forall p, Z.pos (digits2_pos p) = Z.log2 (Z.pos p) + 1.
Proof.
  intros p; rewrite digits2_pos_size.
  destruct p as [p|p|]; cbn [Z.log2 Pos.size]; lia.
Qed.

Lemma digits2_pos_le : forall p d, 0 <= d -> Z.pos p < 2 ^ d -> Z.pos (digits2_pos p) <= d.
Proof.
  intros p d Hd H; rewrite digits2_pos_log2.
  apply Z.log2_lt_pow2 in H; lia.
Qed.

Lemma digits2_pos_shift : forall k p,
  Z.pos (digits2_pos (shift_pos k p)) = Z.pos (digits2_pos p) + Z.pos k.
Proof.
  intros k p; unfold shift_pos.
  induction k as [|k IH] using Pos.peano_ind.
  - cbn [Pos.iter digits2_pos]; lia.
  - rewrite Pos.iter_succ; cbn [digits2_pos]; lia.
Qed.

(* a 53-bit mantissa at a normal exponent is not shifted *)
Lemma shr_fexp_normal : forall m e,
  Z.pos (digits2_pos m) = 53 -> -1074 <= e ->
  shr_fexp prec emax (Z.pos m) e loc_Exact = ({| shr_m := Z.pos m; shr_r := false; shr_s := false |}, e).
Proof.
  intros m e Hd He. unfold shr_fexp; cbn [Zdigits2]; rewrite Hd, fexp_normal by lia.
  replace (53 + e - 53 - e) with 0 by lia; reflexivity.
Qed.

(** Rounding is the identity when the shift to 53 bits loses nothing: [m] at
    exponent [e] is the 53-bit [m'] at the normal exponent [e']. *)
Lemma binary_round_aux_exact : forall sx m e m' e',
  shr_fexp prec emax (Z.pos m) e loc_Exact =
    ({| shr_m := Z.pos m'; shr_r := false; shr_s := false |}, e') ->
  Z.pos (digits2_pos m') = 53 -> -1074 <= e' <= 971 ->
  binary_round_aux prec emax sx (Z.pos m) e loc_Exact = S754_finite sx m' e'.
Proof.
  intros sx m e m' e' Hs Hd He.
  unfold binary_round_aux; rewrite Hs.
  cbn [shr_m loc_of_shr_record round_nearest_even]; rewrite shr_fexp_normal by lia; cbn [shr_m].
  assert (Hle : Zle_bool e' (emax - prec) = true)
    by (apply Z.leb_le; unfold emax, prec; lia).
  rewrite Hle; reflexivity.
Qed.

Lemma binary_round_aux_exact_normal : forall sx m e,
  Z.pos (digits2_pos m) = 53 -> -1074 <= e <= 971 ->
  binary_round_aux prec emax sx (Z.pos m) e loc_Exact = S754_finite sx m e.
Proof. intros sx m e Hd He. apply binary_round_aux_exact; [apply shr_fexp_normal; lia|exact Hd|exact He]. Qed.

Definition norm53 (p : positive) : positive :=
  match (Z.pos (digits2_pos p) - 53)%Z with
  | Zneg k => shift_pos k p
  | _ => p
  end.

Lemma norm53_digits : forall p,
  Z.pos (digits2_pos p) <= 53 -> Z.pos (digits2_pos (norm53 p)) = 53.
Proof.
  intros p H; unfold norm53.
  destruct (Z.pos (digits2_pos p) - 53) as [|k|k] eqn:E; try lia.
  rewrite digits2_pos_shift; lia.
Qed.

Lemma norm53_value : forall p,
  Z.pos (digits2_pos p) <= 53 ->
  Z.pos (norm53 p) = Z.pos p * 2 ^ (53 - Z.pos (digits2_pos p)).
Proof.
  intros p H; unfold norm53.
  destruct (Z.pos (digits2_pos p) - 53) as [|k|k] eqn:E; try lia.
  - replace (53 - Z.pos (digits2_pos p)) with 0 by lia; lia.
  - rewrite shift_pos_correct, Z.pow_pos_fold.
    replace (53 - Z.pos (digits2_pos p)) with (Z.pos k) by lia; lia.
Qed.

(** [binary_normalize] of a short mantissa when no underflow/overflow occurs:
    the mantissa is shifted up to 53 bits, nothing is rounded. *)
Lemma binary_round_small : forall sx p e,
  Z.pos (digits2_pos p) <= 53 ->
  -1074 <= Z.pos (digits2_pos p) + e - 53 <= 971 ->
  binary_round prec emax sx p e =
  S754_finite sx (norm53 p) (Z.pos (digits2_pos p) + e - 53).
Proof.
  intros sx p e Hd He.
  unfold binary_round; rewrite fexp_normal by lia.
  unfold shl_align, norm53.
  replace (Z.pos (digits2_pos p) + e - 53 - e) with (Z.pos (digits2_pos p) - 53) by lia.
  destruct (Z.pos (digits2_pos p) - 53) as [|k|k] eqn:E; try lia.
  - rewrite binary_round_aux_exact_normal by lia. f_equal; lia.
  - rewrite binary_round_aux_exact_normal;
      [reflexivity | rewrite digits2_pos_shift; lia | lia].
Qed.

Lemma div_eucl_div_mod : forall a b, Z.div_eucl a b = (a / b, a mod b).
Proof. intros a b; unfold Z.div, Z.modulo; destruct (Z.div_eucl a b); reflexivity. Qed.

(** Dividing a normal number by a power of two (mantissa [2^52]) shifts the
    exponent and keeps the mantissa, as long as the result is normal. *)
Lemma SFdiv_pow2 : forall sx mx ex ey,
  Z.pos (digits2_pos mx) = 53 ->
  -1074 <= ex - ey - 53 -> ex - ey - 52 <= 971 ->
  SFdiv prec emax (S754_finite sx mx ex) (S754_finite false 4503599627370496 ey) =
  S754_finite sx mx (ex - ey - 52).
Proof.
  intros sx mx ex ey Hd Hlo Hhi.
  unfold SFdiv, SFdiv_core_binary.
  cbn [Zdigits2]; rewrite Hd.
  assert (Hd2 : Z.pos (digits2_pos 4503599627370496) = 53) by (vm_compute; reflexivity).
  rewrite Hd2.
  replace (53 + ex - (53 + ey)) with (ex - ey) by lia.
  rewrite fexp_normal by lia.
  rewrite Z.min_l by lia.
  replace (ex - ey - (ex - ey - 53)) with 53 by lia.
  rewrite div_eucl_div_mod.
  assert (Hm : Z.shiftl (Z.pos mx) 53 = Z.pos mx~0 * 4503599627370496).
  { rewrite Z.shiftl_mul_pow2 by lia.
    change (2 ^ 53) with (2 * 4503599627370496); lia. }
  rewrite Hm, Z_div_mult by lia. rewrite Z_mod_mult.
  assert (Hl : new_location 4503599627370496 0 = loc_Exact) by (vm_compute; reflexivity).
  rewrite Hl.
  (* round the 54-bit quotient [2*mx] at exponent [ex-ey-53]: one exact shift *)
  assert (Hs : shr_fexp prec emax (Z.pos mx~0) (ex - ey - 53) loc_Exact =
               ({| shr_m := Z.pos mx; shr_r := false; shr_s := false |}, ex - ey - 52)).
  { unfold shr_fexp; cbn [Zdigits2 digits2_pos].
    replace (Z.pos (Pos.succ (digits2_pos mx))) with 54 by lia.
    rewrite fexp_normal by lia.
    replace (54 + (ex - ey - 53) - 53 - (ex - ey - 53)) with 1 by lia.
    cbn [shr shr_record_of_loc iter_pos shr_1 orb]; f_equal; lia. }
  rewrite (binary_round_aux_exact _ _ _ mx (ex - ey - 52) Hs Hd) by lia.
  rewrite xorb_false_r; reflexivity.
Qed.

(** [MODULUS as f64] is [2^52 * 2^-19 = 2^33] (decided by computation). *)
Lemma f64_of_MODULUS :
  f64_of_Z (Z.of_N MODULUS) = S754_finite false 4503599627370496 (-19).
Proof. vm_compute; reflexivity. Qed.

Lemma MODULUS_Z : Z.of_N MODULUS = 2 ^ 33.
Proof. vm_compute; reflexivity. Qed.

(* -86 = -33 - 53: the quotient by 2^33, at a 53-bit mantissa. *)
Lemma latest_random_pos : forall p,
  Z.pos p < 2 ^ 33 ->
  latest_random (N.pos p) =
  S754_finite false (norm53 p) (Z.pos (digits2_pos p) - 86).
Proof.
  intros p Hp.
  assert (Hd : Z.pos (digits2_pos p) <= 33) by (apply digits2_pos_le; lia).
  unfold latest_random, f64_div.
  rewrite f64_of_MODULUS.
  unfold f64_of_Z; cbn [Z.of_N binary_normalize].
  rewrite binary_round_small by lia.
  rewrite SFdiv_pow2 by (try apply norm53_digits; lia).
  f_equal; lia.
Qed.

(* Dividing by [2^33] never rounds: [latest_random s] is the double obtained
   by normalising the exact dyadic [s * 2^-33]. *)
Theorem latest_random_exact : forall s,
  (s < MODULUS)%N ->
  latest_random s = binary_normalize prec emax (Z.of_N s) (-33) false.
Proof.
  intros s Hs.
  assert (Hz : Z.of_N s < 2 ^ 33) by (rewrite <- MODULUS_Z; lia).
  destruct s as [|p].
  - vm_compute; reflexivity.
  - cbn [Z.of_N] in Hz.
    assert (Hd : Z.pos (digits2_pos p) <= 33) by (apply digits2_pos_le; lia).
    rewrite latest_random_pos by assumption.
    cbn [Z.of_N binary_normalize].
    rewrite binary_round_small by lia.
    f_equal; lia.
Qed.

(** The same fact without reference to any rounding function: the result is
    [+0] for [s = 0], and otherwise a positive finite double [m * 2^e] with a
    full 53-bit mantissa, [-86 < e <= -53], and [m * 2^e = s * 2^-33] exactly
    (stated over the integers by clearing denominators: [e] is negative).
    This is the form to apply: validity, the range and the real value below are
    read off it, while [latest_random_exact] (C18_exact) only names the double. *)
Theorem latest_random_value : forall s,
  (s < MODULUS)%N ->
  (s = 0%N /\ latest_random s = S754_zero false) \/
  (exists m e,
     latest_random s = S754_finite false m e /\
     Z.pos (digits2_pos m) = 53 /\
     -86 < e <= -53 /\
     Z.pos m * 2 ^ 33 = Z.of_N s * 2 ^ (- e)).
Proof.
  intros s Hs.
  assert (Hz : Z.of_N s < 2 ^ 33) by (rewrite <- MODULUS_Z; lia).
  destruct s as [|p].
  - left; split; [reflexivity | vm_compute; reflexivity].
  - right; cbn [Z.of_N] in Hz |- *.
    assert (Hd : Z.pos (digits2_pos p) <= 33) by (apply digits2_pos_le; lia).
    exists (norm53 p), (Z.pos (digits2_pos p) - 86).
    split; [apply latest_random_pos; assumption|].
    split; [apply norm53_digits; lia|].
    split; [lia|].
    rewrite norm53_value by lia.
    rewrite <- Z.mul_assoc, <- Z.pow_add_r by lia.
    f_equal; f_equal; lia.
Qed.

Theorem latest_random_valid : forall s,
  (s < MODULUS)%N -> valid_binary prec emax (latest_random s) = true.
Proof.
  intros s Hs.
  destruct (latest_random_value s Hs) as [[_ E]|(m & e & E & Hd & He & _)];
    rewrite E; [reflexivity|].
  unfold valid_binary, bounded, canonical_mantissa.
  rewrite Hd, fexp_normal by lia.
  apply andb_true_intro; split.
  - apply Zeq_is_eq_bool; lia.
  - apply Z.leb_le; unfold emax, prec; lia.
Qed.

Theorem latest_random_range : forall s,
  (s < MODULUS)%N ->
  f64_leb f64_zero (latest_random s) = true /\
  f64_ltb (latest_random s) f64_one = true.
Proof.
  intros s Hs.
  destruct (latest_random_value s Hs) as [[_ E]|(m & e & E & _ & He & _)];
    rewrite E; [split; reflexivity|].
  split; [reflexivity|].
  unfold f64_ltb, SFltb, f64_one, SFcompare.
  assert (Hc : (e ?= -52) = Lt) by (apply Z.compare_lt_iff; lia).
  rewrite Hc; reflexivity.
Qed.

Corollary latest_random_finite : forall s,
  (s < MODULUS)%N ->
  match latest_random s with
  | S754_zero false | S754_finite false _ _ => True
  | _ => False
  end.
Proof.
  intros s Hs.
  destruct (latest_random_value s Hs) as [[_ E]|(m & e & E & _)]; rewrite E; exact I.
Qed.

Theorem rng_rnd_range : forall x st v st',
  rng_ok st -> rng_rnd x st = (Ok v, st') ->
  f64_leb f64_zero v = true /\ f64_ltb v f64_one = true.
Proof.
  intros x st v st' Hok H; rewrite rng_rnd_spec in H.
  destruct (f64_ltb x f64_zero); [discriminate|].
  destruct (f64_eqb x f64_zero); inversion H; subst.
  - apply latest_random_range, Hok.
  - apply latest_random_range, lcg_range.
Qed.

Theorem rnd_seq_range : forall seed args,
  Forall (fun r => match r with
                   | Ok v => f64_leb f64_zero v = true /\ f64_ltb v f64_one = true
                   | Err e l => e = EUnimplemented /\ l = None
                   | _ => False
                   end) (rnd_seq seed args).
Proof.
  intros seed args; unfold rnd_seq.
  assert (H : (rng_new seed < MODULUS)%N) by apply rng_new_range.
  revert H; generalize (rng_new seed); induction args as [|x r IH]; intros s Hs;
    cbn [rnd_pure]; [constructor|].
  destruct (f64_ltb x f64_zero); [constructor; [split; reflexivity | apply IH, Hs]|].
  destruct (f64_eqb x f64_zero); constructor.
  - apply latest_random_range, Hs.
  - apply IH, Hs.
  - apply latest_random_range, lcg_range.
  - apply IH, lcg_range.
Qed.

(** Non-vacuity checks (seed 0, [RND(1)] three times, then [RND(0)], [RND(-1)]). *)
Example rnd_seq_seed0 :
  rnd_seq 0 [f64_one; f64_one; f64_one; f64_zero; f64_neg f64_one] =
  [ Ok (f64_div (f64_of_Z 1013904223) (f64_of_Z 8589934592));
    Ok (f64_div (f64_of_Z 5491403058) (f64_of_Z 8589934592));
    Ok (f64_div (f64_of_Z 3519870697) (f64_of_Z 8589934592));
    Ok (f64_div (f64_of_Z 3519870697) (f64_of_Z 8589934592));
    Err EUnimplemented None ].
Proof. vm_compute; reflexivity. Qed.

Example latest_random_max :
  latest_random 8589934591 = S754_finite false 9007199253692416 (-53).
Proof. vm_compute; reflexivity. Qed.

(** The bound [s < MODULUS] matters: at [s = MODULUS] the result is [1.0]. *)
Example latest_random_at_modulus : latest_random MODULUS = f64_one.
Proof. vm_compute; reflexivity. Qed.

End Doubles.

Print Assumptions rng_new_range.
Print Assumptions lcg_range.
Print Assumptions lcg_no_u64_overflow.
Print Assumptions lcg_mod_invariant.
Print Assumptions lcg_documented.
Print Assumptions rng_rnd_spec.
Print Assumptions rng_invariant.
Print Assumptions rnd_seq_deterministic.
Print Assumptions rnd_seq_from_pure.
Print Assumptions rnd_seq_mod.
Print Assumptions latest_random_exact.
Print Assumptions latest_random_value.
Print Assumptions latest_random_valid.
Print Assumptions latest_random_range.
Print Assumptions rng_rnd_range.
Print Assumptions rnd_seq_range.

(* The same exactness statement over the reals (Flocq's [SF2R]), a corollary of
   [latest_random_value].  Only this part depends on Flocq and on the standard
   library's axiomatised reals; everything above is closed under the global
   context. *)

From Coq Require Import Reals.
From Flocq Require Import Core.Zaux Core.Raux Core.Defs IEEE754.BinarySingleNaN.

Theorem latest_random_real : forall s,
  (s < MODULUS)%N ->
  SF2R radix2 (latest_random s) = (IZR (Z.of_N s) / IZR (2 ^ 33))%R.
Proof.
  intros s Hs.
  destruct (latest_random_value s Hs) as [[E0 E]|(m & e & E & _ & He & Hv)]; rewrite E.
  - subst s; cbn [SF2R Z.of_N]; unfold Rdiv; rewrite Rmult_0_l; reflexivity.
  - cbn [SF2R SpecFloat.cond_Zopp cond_Zopp]; unfold F2R; cbn [Fnum Fexp].
    replace e with (- (- e))%Z at 1 by lia.
    rewrite bpow_opp, <- IZR_Zpower by lia.
    apply (f_equal IZR) in Hv; rewrite !mult_IZR in Hv.
    assert (H1 : IZR (2 ^ 33) <> 0%R) by (apply IZR_neq; discriminate).
    assert (H2 : IZR (radix2 ^ (- e)) <> 0%R).
    { apply IZR_neq; change (radix_val radix2) with 2%Z.
      apply Z.pow_nonzero; lia. }
    change (radix_val radix2) with 2%Z in *.
    field_simplify_eq; [|split; assumption].
    rewrite Hv; ring.
Qed.

Print Assumptions latest_random_real.
