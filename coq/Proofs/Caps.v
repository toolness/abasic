(* Proofs/Caps.v — C16: resource caps and name/type discipline as an inductive
   invariant of the interpreter state.

   [caps_inv] says: at most STACK_LIMIT frames and STACK_LIMIT open FOR loops,
   no two loops for the same variable, every array has at least one dimension,
   every dimension at least 1, exactly product-of-dimensions cells and at most
   MAX_DIM_TOTAL_ELEMENTS of them, and
   every stored binding (variable, array cell, function parameter) has the type
   its name announces ('$' = string).  It holds initially, is preserved by
   every primitive, by both evaluators whatever their outcome (Ok, Err, Panic,
   OutOfFuel, OracleMiss), by every host operation, and therefore in every
   reachable state.  The cap errors are characterised exactly at the primitive
   level, and [start_loop] is shown not to accumulate loops.

   The file also holds, for the other files to rewrite with, the run of each
   control primitive of State.v as one equation ([remove_loop_eq] ...
   [continue_bp_eq]); the cap errors are read off them. *)
From Coq Require Import List NArith ZArith Bool Lia.
From Abasic Require Import Model.Bytes Model.Num Model.Token Gen.Tables Model.State Model.Eval Model.Interp Proofs.Monad
     Proofs.StoreProofs.
Import ListNotations.
Local Open Scope nat_scope.

Definition typed_alist (l : list (bytes * value)) : Prop :=
  forall k v, In (k, v) l -> type_matches k v = true.

Definition cell_typed (str : bool) (v : value) : Prop :=
  match v with VStr _ => str = true | VNum _ => str = false end.

Definition arr_ok (name : bytes) (a : arr) : Prop :=
  (ar_dims a <> [] /\ Forall (fun d => (1 <= d)%N) (ar_dims a))
  /\ N.of_nat (length (ar_cells a)) = fold_right N.mul 1%N (ar_dims a)
  /\ (N.of_nat (length (ar_cells a)) <= MAX_DIM_TOTAL_ELEMENTS)%N
  /\ ar_str a = ends_with_dollar name
  /\ Forall (cell_typed (ar_str a)) (ar_cells a).

Definition arrays_ok (l : list (bytes * arr)) : Prop :=
  forall name a, In (name, a) l -> arr_ok name a.

Definition caps_inv (s : interp) : Prop :=
  length (stack s) <= stack_limit
  /\ length (loops s) <= stack_limit
  /\ NoDup (map lp_sym (loops s))
  /\ typed_alist (variables s)
  /\ Forall (fun fr => typed_alist (fr_vars fr)) (stack s)
  /\ arrays_ok (arrays s).

Lemma alist_get_set {V} k v (x : V) l :
  alist_get k (alist_set v x l) = if bytes_eqb k v then Some x else alist_get k l.
Proof.
  induction l as [|[k' x'] l IH]; cbn [alist_set alist_get].
  - destruct (bytes_eqb k v); reflexivity.
  - destruct (bytes_eqb v k') eqn:Evk; cbn [alist_get].
    + apply bytes_eqb_eq in Evk; subst k'. destruct (bytes_eqb k v); reflexivity.
    + destruct (bytes_eqb k k') eqn:Ekk.
      * apply bytes_eqb_eq in Ekk; subst k'.
        destruct (bytes_eqb k v) eqn:Ekv; [|reflexivity].
        apply bytes_eqb_eq in Ekv; subst v. rewrite bytes_eqb_refl in Evk. discriminate.
      * exact IH.
Qed.

Lemma alist_set_In {V} k0 (v0 : V) l k v :
  In (k, v) (alist_set k0 v0 l) -> (k, v) = (k0, v0) \/ In (k, v) l.
Proof.
  induction l as [|[k' v'] l IH]; cbn [alist_set].
  - intros [H|[]]; left; symmetry; exact H.
  - destruct (bytes_eqb k0 k'); cbn [In].
    + intros [H|H]; [left; symmetry; exact H | right; right; exact H].
    + intros [H|H]; [right; left; exact H|].
      destruct (IH H) as [H'|H']; [left|right; right]; assumption.
Qed.

Lemma alist_get_In {V} k (l : list (bytes * V)) v : alist_get k l = Some v -> In (k, v) l.
Proof.
  induction l as [|[k' v'] l IH]; cbn [alist_get]; [discriminate|].
  destruct (bytes_eqb k k') eqn:E.
  - intros H; inversion H; subst. apply bytes_eqb_eq in E; subst. left; reflexivity.
  - intros H; right; apply IH; exact H.
Qed.

Lemma typed_alist_nil : typed_alist [].
Proof. intros k v []. Qed.

Lemma typed_alist_set k v l :
  typed_alist l -> type_matches k v = true -> typed_alist (alist_set k v l).
Proof.
  intros Hl Hkv k' v' Hin. apply alist_set_In in Hin. destruct Hin as [E|Hin].
  - inversion E; subst; exact Hkv.
  - apply Hl; exact Hin.
Qed.

Lemma arrays_ok_nil : arrays_ok [].
Proof. intros k v []. Qed.

Lemma arrays_ok_set name a l : arrays_ok l -> arr_ok name a -> arrays_ok (alist_set name a l).
Proof.
  intros Hl Ha n x Hin. apply alist_set_In in Hin. destruct Hin as [E|Hin].
  - inversion E; subst; exact Ha.
  - apply Hl; exact Hin.
Qed.

Lemma list_update_length {A} (l : list A) i v : length (list_update l i v) = length l.
Proof.
  revert i; induction l as [|x l IH]; intros [|i]; cbn [list_update length]; try reflexivity.
  rewrite IH; reflexivity.
Qed.

Lemma list_update_Forall {A} (P : A -> Prop) l i v :
  Forall P l -> P v -> Forall P (list_update l i v).
Proof.
  intros Hl Hv. revert i; induction Hl as [|x l Hx Hl IH]; intros [|i]; cbn [list_update];
    constructor; auto.
Qed.

Lemma firstn_incl {A} n (l : list A) x : In x (firstn n l) -> In x l.
Proof.
  revert n; induction l as [|y l IH]; intros [|n]; cbn [firstn In]; try tauto.
  intros [H|H]; [left; exact H | right; eapply IH; exact H].
Qed.

Lemma firstn_NoDup {A} n (l : list A) : NoDup l -> NoDup (firstn n l).
Proof.
  intros H; revert n; induction H as [|x l Hx Hl IH]; intros [|n]; cbn [firstn]; try constructor.
  - intros Hin; apply Hx; eapply firstn_incl; exact Hin.
  - apply IH.
Qed.

Lemma firstn_S_nth {A} (l : list A) i x :
  nth_error l i = Some x -> firstn (S i) l = firstn i l ++ [x].
Proof.
  revert i; induction l as [|y l IH]; intros [|i]; cbn [nth_error]; try discriminate.
  - intros H; inversion H; subst; reflexivity.
  - intros H. change (firstn (S (S i)) (y :: l)) with (y :: firstn (S i) l).
    rewrite (IH _ H). reflexivity.
Qed.

Lemma NoDup_snoc {A} (l : list A) x : NoDup l -> ~ In x l -> NoDup (l ++ [x]).
Proof.
  induction 1 as [|y l Hy Hl IH]; intros Hx; cbn [app].
  - constructor; [intros []|constructor].
  - constructor.
    + intros Hin. apply in_app_or in Hin. destruct Hin as [Hin|[E|[]]]; [exact (Hy Hin)|].
      apply Hx; left; symmetry; exact E.
    + apply IH. intros Hin; apply Hx; right; exact Hin.
Qed.

Lemma rev_cons_inv {A} (l : list A) x r : rev l = x :: r -> l = rev r ++ [x].
Proof. intros H. rewrite <- (rev_involutive l), H. reflexivity. Qed.

Lemma Forall_rev_cons {A} (P : A -> Prop) l x r : rev l = x :: r -> Forall P l -> P x /\ Forall P (rev r).
Proof.
  intros E H. rewrite (rev_cons_inv _ _ _ E) in H. apply Forall_app in H as [H1 H2]. inversion H2; auto.
Qed.

Lemma find_loop_rev_Some sym ls i : find_loop_rev sym ls = Some i ->
  exists x, nth_error ls i = Some x /\ lp_sym x = sym.
Proof.
  revert i; induction ls as [|y r IH]; intros i; cbn [find_loop_rev]; [discriminate|].
  destruct (find_loop_rev sym r) as [j|].
  - intros H; inversion H; subst. cbn [nth_error]. apply IH; reflexivity.
  - destruct (bytes_eqb (lp_sym y) sym) eqn:E; [|discriminate].
    intros H; inversion H; subst. exists y; split; [reflexivity|apply bytes_eqb_eq; exact E].
Qed.

Lemma find_loop_rev_None sym ls : find_loop_rev sym ls = None -> ~ In sym (map lp_sym ls).
Proof.
  induction ls as [|y r IH]; cbn [find_loop_rev map In]; [tauto|].
  destruct (find_loop_rev sym r) as [j|]; [discriminate|].
  destruct (bytes_eqb (lp_sym y) sym) eqn:E; [discriminate|].
  intros _ [H|H]; [|apply IH; auto]. apply bytes_eqb_eq in H. congruence.
Qed.

(* with distinct loop variables, nothing below position [i] has the symbol at [i] *)
Lemma NoDup_below_nth ls i x :
  NoDup (map lp_sym ls) -> nth_error ls i = Some x ->
  ~ In (lp_sym x) (map lp_sym (firstn i ls)).
Proof.
  revert i; induction ls as [|y r IH]; intros [|i] Hnd Hn; cbn [nth_error firstn map In] in *;
    try discriminate; try tauto.
  inversion Hnd as [|? ? Hy Hr]; subst. intros [H|H].
  - apply Hy. rewrite H. apply in_map. eapply nth_error_In; exact Hn.
  - exact (IH i Hr Hn H).
Qed.

(* what FOR and NEXT keep of the open loops: those below the innermost loop of [sym]; that loop and the loops
   opened inside it are forgotten ([drop_loop]: the state after that; program.rs remove_loop_with_name) *)
Definition loops_below (sym : bytes) (ls : list loop_info) : list loop_info :=
  match find_loop_rev sym ls with Some i => firstn i ls | None => ls end.

Lemma loops_below_length sym ls : length (loops_below sym ls) <= length ls.
Proof.
  unfold loops_below. destruct (find_loop_rev sym ls); [|lia].
  rewrite firstn_length. lia.
Qed.

Lemma loops_below_length_lt sym ls :
  In sym (map lp_sym ls) -> length (loops_below sym ls) < length ls.
Proof.
  unfold loops_below. intros Hin. destruct (find_loop_rev sym ls) as [i|] eqn:E.
  - destruct (find_loop_rev_Some _ _ _ E) as (x & Hx & _).
    assert (i < length ls) by (apply nth_error_Some; congruence).
    rewrite firstn_length. lia.
  - exfalso. exact (find_loop_rev_None _ _ E Hin).
Qed.

Lemma loops_below_NoDup sym ls : NoDup (map lp_sym ls) -> NoDup (map lp_sym (loops_below sym ls)).
Proof.
  unfold loops_below. intros H. destruct (find_loop_rev sym ls); [|exact H].
  rewrite <- firstn_map. apply firstn_NoDup; exact H.
Qed.

Lemma loops_below_fresh sym ls :
  NoDup (map lp_sym ls) -> ~ In sym (map lp_sym (loops_below sym ls)).
Proof.
  unfold loops_below. intros H. destruct (find_loop_rev sym ls) as [i|] eqn:E.
  - destruct (find_loop_rev_Some _ _ _ E) as (x & Hx & Hs). subst sym.
    apply NoDup_below_nth; assumption.
  - apply find_loop_rev_None; exact E.
Qed.

Definition drop_loop (sym : bytes) (s : interp) : interp :=
  match find_loop_rev sym (loops s) with
  | Some i => set_loops (firstn i (loops s)) s
  | None => s
  end.

Lemma drop_loop_loops sym s : loops (drop_loop sym s) = loops_below sym (loops s).
Proof. unfold drop_loop, loops_below. destruct (find_loop_rev sym (loops s)); reflexivity. Qed.

(* The run of each control primitive of State.v as one equation. *)

Lemma remove_loop_eq sym s :
  remove_loop_with_name sym s =
  (Ok (match find_loop_rev sym (loops s) with Some i => nth_error (loops s) i | None => None end),
   drop_loop sym s).
Proof.
  unfold remove_loop_with_name, drop_loop. rewrite bind_get.
  destruct (find_loop_rev sym (loops s)); reflexivity.
Qed.

(* the loop handed back was open, and is a loop of the variable asked for *)
Lemma removed_loop_spec sym ls li :
  match find_loop_rev sym ls with Some i => nth_error ls i | None => None end = Some li ->
  In li ls /\ lp_sym li = sym.
Proof.
  destruct (find_loop_rev sym ls) as [i|] eqn:E; [|discriminate]. intros Hn.
  destruct (find_loop_rev_Some _ _ _ E) as (x & Hx & Hs). split; [eapply nth_error_In; exact Hn | congruence].
Qed.

Lemma variables_set_eq name v s :
  variables_set name v s =
  if type_matches name v then (Ok tt, set_variables (alist_set name v (variables s)) s)
  else (Err ETypeMismatch None, s).
Proof. unfold variables_set. destruct (type_matches name v); reflexivity. Qed.

Lemma start_loop_eq sym a b c s :
  start_loop sym a b c s =
  let s1 := drop_loop sym s in
  if Nat.eqb (length (loops s1)) stack_limit then (Err EStackOverflow None, s1)
  else variables_set sym (VNum a) (set_loops (loops s1 ++ [mkloop (loc s1) sym b c]) s1).
Proof.
  unfold start_loop. unfold bind at 1. rewrite remove_loop_eq. cbv zeta.
  rewrite bind_get. destruct (Nat.eqb (length (loops (drop_loop sym s))) stack_limit); [reflexivity|].
  rewrite bind_get, bind_modify. reflexivity.
Qed.

(* the model's second test, that the loop handed back is one of [sym], never fails ([removed_loop_spec]) *)
Lemma end_loop_eq sym s :
  end_loop sym s =
  match (match alist_get sym (variables s) with Some v => v | None => default_value sym end) with
  | VStr _ => (Err ETypeMismatch None, s)
  | VNum x =>
      let s1 := drop_loop sym s in
      match (match find_loop_rev sym (loops s) with Some i => nth_error (loops s) i | None => None end) with
      | None => (Err ENextWithoutFor None, s1)
      | Some li =>
          let nv := f64_add x (lp_step li) in
          variables_set sym (VNum nv)
            (if (if f64_leb f64_zero (lp_step li) then f64_leb nv (lp_to li) else f64_leb (lp_to li) nv)
             then set_loops (loops s1 ++ [li]) (set_loc (lp_loc li) s1) else s1)
      end
  end.
Proof.
  unfold end_loop, variables_get. rewrite bind_assoc, bind_get, bind_ret.
  destruct (match alist_get sym (variables s) with Some v => v | None => default_value sym end) as [b|x]; [reflexivity|].
  rewrite bind_run, remove_loop_eq. cbv zeta.
  destruct (match find_loop_rev sym (loops s) with Some i => nth_error (loops s) i | None => None end) as [li|] eqn:El;
    [|reflexivity].
  rewrite (proj2 (removed_loop_spec _ _ _ El)), bytes_eqb_refl. cbn [negb].
  destruct (if f64_leb f64_zero (lp_step li) then _ else _); [rewrite bind_modify | rewrite bind_ret]; reflexivity.
Qed.

Lemma goto_eq n s :
  goto_line_number n s =
  if store_has n s then (Ok tt, set_loc (mkloc (Some n) 0) (set_breakpoint None s))
  else (Err EUndefinedStatement None, set_breakpoint None s).
Proof.
  unfold goto_line_number. rewrite bind_modify, bind_get.
  change (store_has n (set_breakpoint None s)) with (store_has n s).
  destruct (store_has n s); reflexivity.
Qed.

Lemma gosub_eq n s :
  gosub_line_number n s =
  if Nat.eqb (length (stack s)) stack_limit then (Err EStackOverflow None, s)
  else if store_has n s
       then (Ok tt, set_stack (stack s ++ [mkframe (loc s) []]) (set_loc (mkloc (Some n) 0) (set_breakpoint None s)))
       else (Err EUndefinedStatement None, set_breakpoint None s).
Proof.
  unfold gosub_line_number. rewrite bind_get. destruct (Nat.eqb (length (stack s)) stack_limit); [reflexivity|].
  rewrite bind_get. unfold bind. rewrite goto_eq. destruct (store_has n s); reflexivity.
Qed.

Lemma return_eq s :
  return_to_last_gosub s =
  match rev (stack s) with
  | [] => (Err EReturnWithoutGosub None, set_breakpoint None s)
  | fr :: rest => (Ok tt, set_loc (fr_ret fr) (set_stack (rev rest) (set_breakpoint None s)))
  end.
Proof.
  unfold return_to_last_gosub. rewrite bind_modify, bind_get.
  change (stack (set_breakpoint None s)) with (stack s). destruct (rev (stack s)); reflexivity.
Qed.

Lemma push_eq name b s :
  push_function_call name b s =
    if Nat.eqb (length (stack s)) stack_limit then (Err EStackOverflow None, s)
    else let s1 := set_stack (stack s ++ [mkframe (loc s) b]) s in
         match alist_get name (functions s) with
         | Some d => (Ok tt, set_loc (mkloc (Some (fn_line d)) (fn_idx d)) s1)
         | None => (Panic PFunctionMustExist, s1)
         end.
Proof.
  unfold push_function_call. rewrite bind_get.
  destruct (Nat.eqb (length (stack s)) stack_limit); [reflexivity|].
  rewrite bind_get, bind_modify, bind_get. cbn [functions set_stack].
  destruct (alist_get name (functions s)); reflexivity.
Qed.

Lemma pop_eq s :
  pop_function_call s =
  match rev (stack s) with
  | [] => (Panic PStackEmpty, s)
  | fr :: rest => (Ok tt, set_loc (fr_ret fr) (set_stack (rev rest) s))
  end.
Proof. unfold pop_function_call. rewrite bind_get. destruct (rev (stack s)); reflexivity. Qed.

Lemma define_function_eq name args s :
  define_function name args s =
  match loc_line (loc s) with
  | None => (Err EIllegalDirect None, s)
  | Some n => (Ok tt, set_functions (alist_set name (mkfn args n (loc_idx (loc s))) (functions s)) s)
  end.
Proof. unfold define_function. rewrite bind_get. destruct (loc_line (loc s)); reflexivity. Qed.

Lemma program_break_eq s :
  program_break_at_current_location s = (Ok tt, imm_reset [] (set_breakpoint (numbered_of (loc s)) s)).
Proof. reflexivity. Qed.

Lemma continue_bp_eq s :
  continue_from_breakpoint s =
  match breakpoint s with
  | None => (Err ECannotContinue None, imm_reset [] s)
  | Some p => (Ok tt, set_breakpoint None (set_loc (loc_of_numbered p) (imm_reset [] s)))
  end.
Proof. destruct s as [? ? ? ? b]; destruct b; reflexivity. Qed.

Theorem caps_init : caps_inv init_interp.
Proof.
  unfold caps_inv, init_interp; cbn [stack loops variables arrays length map].
  split; [apply Nat.le_0_l|]. split; [apply Nat.le_0_l|]. split; [constructor|].
  split; [apply typed_alist_nil|]. split; [constructor|apply arrays_ok_nil].
Qed.

Theorem caps_fresh oracle : caps_inv (fresh oracle).
Proof. exact caps_init. Qed.

Lemma caps_inv_ext s s' :
  stack s' = stack s -> loops s' = loops s -> variables s' = variables s -> arrays s' = arrays s ->
  caps_inv s -> caps_inv s'.
Proof. unfold caps_inv. intros -> -> -> ->. exact (fun H => H). Qed.

Ltac caps_fields :=
  cbn [stack loops variables arrays
       set_store set_immediate set_loc set_breakpoint set_stack set_loops set_data_it
       set_functions set_input set_outputs set_state set_rng set_variables set_arrays
       set_flags set_oracle set_reads].

Lemma caps_set_stack v s :
  caps_inv s -> length v <= stack_limit -> Forall (fun fr => typed_alist (fr_vars fr)) v ->
  caps_inv (set_stack v s).
Proof. intros (_ & Hlp & Hnd & Hvs & _ & Har) Hl Hf. unfold caps_inv; caps_fields. tauto. Qed.

Lemma caps_set_loops v s :
  caps_inv s -> length v <= stack_limit -> NoDup (map lp_sym v) -> caps_inv (set_loops v s).
Proof. intros (Hst & _ & _ & Hvs & Hfr & Har) Hl Hn. unfold caps_inv; caps_fields. tauto. Qed.

Lemma caps_set_variables v s : caps_inv s -> typed_alist v -> caps_inv (set_variables v s).
Proof. intros (Hst & Hlp & Hnd & _ & Hfr & Har) Hv. unfold caps_inv; caps_fields. tauto. Qed.

Lemma caps_set_arrays v s : caps_inv s -> arrays_ok v -> caps_inv (set_arrays v s).
Proof. intros (Hst & Hlp & Hnd & Hvs & Hfr & _) Hv. unfold caps_inv; caps_fields. tauto. Qed.

Lemma caps_store_set n ts s : caps_inv s -> caps_inv (store_set n ts s).
Proof.
  intros H. unfold store_set. destruct ts; (eapply caps_inv_ext; [..|exact H]; reflexivity).
Qed.

Ltac caps_nil :=
  match goal with
  | H : caps_inv ?s |- caps_inv _ =>
      let Hst := fresh in let Hlp := fresh in let Hnd := fresh in
      let Hvs := fresh in let Hfr := fresh in let Har := fresh in
      destruct H as (Hst & Hlp & Hnd & Hvs & Hfr & Har);
      unfold caps_inv; caps_fields;
      (split; [|split; [|split; [|split; [|split]]]]);
      first [ assumption | apply Nat.le_0_l | apply NoDup_nil | apply Forall_nil
            | apply typed_alist_nil | apply arrays_ok_nil ]
  end.

(* a field update keeps the invariant because it leaves the state as it is, touches none of the four fields
   the invariant reads, is [store_set], or empties a field *)
Ltac caps_modify :=
  apply (mrel_modify (inv_rel caps_inv)); unfold inv_rel; intros ?s ?Hinv; cbv beta zeta;
  repeat match goal with |- context [match ?x with _ => _ end] => destruct x end;
  solve [ eassumption
        | eapply caps_inv_ext; [reflexivity|reflexivity|reflexivity|reflexivity|eassumption]
        | apply caps_store_set; eassumption
        | caps_nil ].

Definition dims_product (l : list N) : N := fold_right N.mul 1%N l.

Lemma dims_product_pos l : Forall (fun d => (1 <= d)%N) l -> (1 <= dims_product l)%N.
Proof.
  induction 1 as [|d l Hd Hl IH]; cbn [dims_product fold_right]; [lia|].
  fold (dims_product l). nia.
Qed.

Lemma dims_product_ge d l : Forall (fun d => (1 <= d)%N) l -> In d l -> (d <= dims_product l)%N.
Proof.
  induction 1 as [|x l Hx Hl IH]; cbn [In dims_product fold_right]; [tauto|].
  fold (dims_product l). pose proof (dims_product_pos l Hl) as Hp.
  intros [->|Hin]; [nia|]. specialize (IH Hin). nia.
Qed.

Lemma linear_index_lt : forall indices dims acc stride i,
  length indices = length dims -> (acc < stride)%N ->
  linear_index indices dims acc stride = Some i -> (i < stride * dims_product dims)%N.
Proof.
  induction indices as [|x ir IH]; intros dims acc stride i Hlen Hacc H; destruct dims as [|d dr]; try discriminate Hlen;
    cbn [linear_index dims_product fold_right] in *.
  - injection H as <-. lia.
  - fold (dims_product dr). destruct (N.leb_spec d x) as [Hle|Hlt]; [discriminate|].
    apply IH in H; [|cbn [length] in Hlen; lia|nia]. rewrite N.mul_assoc. exact H.
Qed.

Lemma checked_product_spec l : Forall (fun d => (1 <= d)%N) l -> forall acc,
  match checked_product l acc with
  | Some t => t = (acc * dims_product l)%N
  | None => (USIZE_MAX < acc * dims_product l)%N
  end.
Proof.
  induction 1 as [|d l Hd Hl IH]; intros acc; cbn [checked_product dims_product fold_right].
  - lia.
  - fold (dims_product l). pose proof (dims_product_pos l Hl) as Hp.
    destruct (N.ltb_spec USIZE_MAX (acc * d)) as [Hlt|Hge].
    + nia.
    + specialize (IH (acc * d)%N). destruct (checked_product l (acc * d)); nia.
Qed.

Lemma dim_sizes_pos idx : Forall (fun d => (1 <= d)%N) (dim_sizes idx).
Proof. unfold dim_sizes. apply Forall_forall. intros d Hd. apply in_map_iff in Hd. destruct Hd as (m & <- & _). lia. Qed.

Lemma max_dim_le_usize : (MAX_DIM_TOTAL_ELEMENTS <= USIZE_MAX)%N.
Proof. apply N.leb_le. vm_compute. reflexivity. Qed.

(* The ARRAY TOO LARGE error is raised exactly when the true
   (unbounded) product of the dimension sizes exceeds the cap; otherwise the
   array is well-formed. *)
Theorem array_create_value_spec name idx : idx <> [] ->
  if (MAX_DIM_TOTAL_ELEMENTS <? dims_product (dim_sizes idx))%N
  then array_create_value name idx = Err EArrayTooLarge None
  else exists a, array_create_value name idx = Ok a /\ arr_ok name a /\ ar_dims a = dim_sizes idx.
Proof.
  intros Hne. pose proof (dim_sizes_pos idx) as Hpos. pose proof max_dim_le_usize as Hmax.
  unfold array_create_value. destruct idx as [|i0 idx']; [congruence|]. clear Hne.
  set (idx := i0 :: idx') in *.
  destruct (existsb (fun m => (USIZE_MAX <? m + 1)%N) idx) eqn:Eex.
  - apply existsb_exists in Eex. destruct Eex as (m & Hin & Hm). apply N.ltb_lt in Hm.
    assert (Hge : (m + 1 <= dims_product (dim_sizes idx))%N).
    { apply dims_product_ge; [exact Hpos|]. unfold dim_sizes. apply in_map_iff. exists m; auto. }
    destruct (N.ltb_spec MAX_DIM_TOTAL_ELEMENTS (dims_product (dim_sizes idx))); [reflexivity|lia].
  - pose proof (checked_product_spec _ Hpos 1%N) as Hcp.
    destruct (checked_product (dim_sizes idx) 1) as [t|].
    + rewrite N.mul_1_l in Hcp. subst t. unfold max_dim_total.
      destruct (N.ltb_spec MAX_DIM_TOTAL_ELEMENTS (dims_product (dim_sizes idx))) as [Hlt|Hle];
        [reflexivity|].
      eexists; split; [reflexivity|]. split; [|reflexivity].
      unfold arr_ok; cbn [ar_dims ar_cells ar_str]. rewrite repeat_length, N2Nat.id.
      split; [split; [subst idx; discriminate|exact Hpos]|]. split; [reflexivity|]. split; [exact Hle|].
      split; [reflexivity|]. apply Forall_forall. intros x Hx. apply repeat_spec in Hx. subst x.
      destruct (ends_with_dollar name); reflexivity.
    + rewrite N.mul_1_l in Hcp.
      destruct (N.ltb_spec MAX_DIM_TOTAL_ELEMENTS (dims_product (dim_sizes idx))); [reflexivity|lia].
Qed.

Lemma array_create_value_ok name idx a : array_create_value name idx = Ok a -> arr_ok name a.
Proof.
  intros E. destruct idx as [|i0 idx'] eqn:Ei; [discriminate E|]. rewrite <- Ei in *.
  assert (Hne : idx <> []) by (subst; discriminate).
  pose proof (array_create_value_spec name idx Hne) as H.
  destruct (MAX_DIM_TOTAL_ELEMENTS <? dims_product (dim_sizes idx))%N.
  - rewrite H in E; discriminate.
  - destruct H as (a' & Ha & Hok & _). congruence.
Qed.

(* what a run says of the value it returns, whatever the state: for the bindings of a user-function call, which
   are typed when [bind_arguments] returns them and only then may be pushed ([caps_user_function_call]) *)
Definition mpost {A} (Q : A -> Prop) (m : M A) : Prop :=
  forall s a s', m s = (Ok a, s') -> Q a.

Lemma mpost_ret {A} (Q : A -> Prop) a : Q a -> mpost Q (ret a).
Proof. intros H s x s' E. inversion E; subst; exact H. Qed.

Lemma mpost_bind {A B} (Q : B -> Prop) (m : M A) (f : A -> M B) :
  (forall a, mpost Q (f a)) -> mpost Q (bind m f).
Proof.
  intros H s b s' E. unfold bind in E.
  destruct (m s) as [[a| | | |] s1]; try discriminate. eapply H; exact E.
Qed.

Lemma mpost_fail_bind {A B} (Q : B -> Prop) e (f : A -> M B) : mpost Q (bind (fail e) f).
Proof. intros s b s' E. discriminate E. Qed.

Lemma mrel_bind_post {A B} R (PO : preorder R) (Q : A -> Prop) (m : M A) (f : A -> M B) :
  mrel R m -> mpost Q m -> (forall a, Q a -> mrel R (f a)) -> mrel R (bind m f).
Proof.
  intros Hm HQ Hf s. unfold bind. specialize (Hm s). specialize (HQ s).
  destruct (m s) as [[a| | | |] s']; cbn [snd] in *; try exact Hm.
  eapply (po_trans _ PO); [exact Hm | apply Hf; eapply HQ; reflexivity].
Qed.

(* the hints of [capsdb] are added inside the section and end with it: the walks of this file only *)
Create HintDb capsdb discriminated.

Section Preservation.
  Let PO := inv_rel_preorder caps_inv.

  Notation INV := (inv_rel caps_inv).

  Lemma caps_tokens_for_line l : mrel INV (tokens_for_line l).
  Proof. apply (mrel_same _ _ PO), same_tokens_for_line. Qed.

  Ltac leaf :=
    idtac; lazymatch goal with
    | |- mrel _ (modify _) => caps_modify
    | |- mrel _ advance => caps_modify
    | |- mrel _ return_to_idle_state => caps_modify
    | |- mrel _ (fun _ => _) => intros ?s0; exact (fun H => H)
  | |- _ => solve [auto 2 with capsdb nocore]
    end.
  Hint Resolve caps_tokens_for_line : capsdb.
  Ltac cwalk := mrel_walk PO leaf.
  Ltac uwalk := unfold_head; cwalk.

  Lemma caps_cur_tokens : mrel INV cur_tokens. Proof. uwalk. Qed.

  Hint Resolve caps_cur_tokens : capsdb.

  Lemma caps_peek : mrel INV peek_next_token. Proof. uwalk. Qed.

  Hint Resolve caps_peek : capsdb.

  Lemma caps_has_next : mrel INV has_next_token. Proof. uwalk. Qed.
  Lemma caps_next_token : mrel INV next_token. Proof. uwalk. Qed.
  Lemma caps_accept t : mrel INV (accept_next_token t). Proof. uwalk. Qed.
  Lemma caps_peek_is t : mrel INV (peek_is t). Proof. uwalk. Qed.
  Lemma caps_try {B} (g : token -> option B) : mrel INV (try_next_token g). Proof. uwalk. Qed.
  Lemma caps_discard : mrel INV discard_remaining_tokens. Proof. uwalk. Qed.

  Hint Resolve caps_has_next caps_next_token caps_accept caps_peek_is caps_try caps_discard : capsdb.

  Lemma caps_next_unwrapped : mrel INV next_unwrapped_token. Proof. uwalk. Qed.

  Hint Resolve caps_next_unwrapped : capsdb.

  Lemma caps_expect t : mrel INV (expect_next_token t).
  Proof. uwalk. Qed.

  Lemma caps_rewind_loop i t : mrel INV (rewind_loop i t).
  Proof. induction i as [|i IH]; cbn [rewind_loop]; cwalk. Qed.

  Lemma caps_rewind t : mrel INV (rewind_before_token t).
  Proof.
    unfold rewind_before_token.
    apply (mrel_bind _ PO); [apply (mrel_get _ PO)|intros l; apply caps_rewind_loop].
  Qed.

  Hint Resolve caps_expect caps_rewind : capsdb.

  Lemma caps_get_line_number : mrel INV get_line_number. Proof. uwalk. Qed.
  Lemma caps_set_imm ts : mrel INV (set_and_goto_immediate_line ts). Proof. caps_modify. Qed.

  Lemma caps_drop_loop sym s : caps_inv s -> caps_inv (drop_loop sym s).
  Proof.
    intros Hinv. pose proof Hinv as (_ & Hlp & Hnd & _).
    unfold drop_loop. destruct (find_loop_rev sym (loops s)) as [i|] eqn:E; [|exact Hinv].
    apply caps_set_loops; [exact Hinv| |].
    - rewrite firstn_length. lia.
    - rewrite <- firstn_map. apply firstn_NoDup; exact Hnd.
  Qed.

  Lemma caps_remove_loop sym : mrel INV (remove_loop_with_name sym).
  Proof. intros s Hinv. rewrite remove_loop_eq. apply caps_drop_loop; exact Hinv. Qed.

  Lemma caps_variables_set n v : mrel INV (variables_set n v).
  Proof.
    intros s Hinv. rewrite variables_set_eq. destruct (type_matches n v) eqn:E; [|exact Hinv].
    apply caps_set_variables; [exact Hinv|]. apply typed_alist_set; [apply Hinv|exact E].
  Qed.

  Lemma caps_variables_get n : mrel INV (variables_get n). Proof. uwalk. Qed.

  Lemma caps_start_loop sym a b c : mrel INV (start_loop sym a b c).
  Proof.
    intros s Hinv. rewrite start_loop_eq. cbv zeta.
    pose proof (caps_drop_loop sym s Hinv) as H1.
    destruct (Nat.eqb (length (loops (drop_loop sym s))) stack_limit) eqn:E; [exact H1|].
    apply caps_variables_set. apply Nat.eqb_neq in E.
    pose proof H1 as (_ & Hlp & _).
    apply caps_set_loops; [exact H1| |].
    - rewrite app_length; cbn [length]. lia.
    - rewrite map_app; cbn [map lp_sym]. rewrite drop_loop_loops.
      destruct Hinv as (_ & _ & Hnd & _).
      apply NoDup_snoc; [apply loops_below_NoDup; exact Hnd | apply loops_below_fresh; exact Hnd].
  Qed.

  Lemma caps_end_loop sym : mrel INV (end_loop sym).
  Proof.
    intros s Hinv. rewrite end_loop_eq. destruct (match alist_get sym _ with Some v => v | None => _ end); [exact Hinv|].
    cbv zeta. pose proof (caps_drop_loop sym s Hinv) as H1.
    destruct (find_loop_rev sym (loops s)) as [i|] eqn:E; [|exact H1].
    destruct (nth_error (loops s) i) as [li|] eqn:En; [|exact H1].
    apply caps_variables_set. destruct (if f64_leb _ _ then _ else _); [|exact H1].
    (* the loop goes on: the frame taken off is put back *)
    unfold drop_loop. rewrite E. caps_fields. rewrite <- (firstn_S_nth _ _ _ En).
    destruct Hinv as (Hst & Hlp & Hnd & Hvs & Hfr & Har). unfold caps_inv; caps_fields.
    split; [exact Hst|]. split; [rewrite firstn_length; lia|].
    split; [rewrite <- firstn_map; apply firstn_NoDup; exact Hnd|]. tauto.
  Qed.

  Lemma caps_reset_data : mrel INV reset_data_cursor. Proof. caps_modify. Qed.
  Lemma caps_program_end : mrel INV program_end. Proof. apply caps_set_imm. Qed.

  Hint Resolve caps_get_line_number caps_set_imm caps_remove_loop caps_variables_set
    caps_variables_get caps_start_loop caps_end_loop caps_reset_data caps_program_end : capsdb.

  Lemma caps_program_break : mrel INV program_break_at_current_location.
  Proof. uwalk. Qed.
  Lemma caps_continue_bp : mrel INV continue_from_breakpoint.
  Proof. uwalk. Qed.
  Lemma caps_reset_runtime : mrel INV reset_runtime_state.
  Proof. uwalk. Qed.
  Hint Resolve caps_reset_runtime : capsdb.
  Lemma caps_run_from_first : mrel INV run_from_first_numbered_line.
  Proof. uwalk. Qed.
  Lemma caps_goto n : mrel INV (goto_line_number n).
  Proof. uwalk. Qed.
  Lemma caps_define_function n a : mrel INV (define_function n a).
  Proof. uwalk. Qed.
  Lemma caps_find_var n : mrel INV (find_variable_value_in_stack n).
  Proof. uwalk. Qed.
  Lemma caps_next_line : mrel INV next_line.
  Proof. uwalk. Qed.
  Lemma caps_set_numbered_line n ts : mrel INV (set_numbered_line n ts).
  Proof. uwalk. Qed.
  Lemma caps_rng_rnd x : mrel INV (rng_rnd x).
  Proof. uwalk. Qed.
  Lemma caps_push_output o : mrel INV (push_output o).
  Proof. caps_modify. Qed.
  Hint Resolve caps_push_output : capsdb.

  Lemma caps_push_frame fr s :
    caps_inv s -> length (stack s) <> stack_limit -> typed_alist (fr_vars fr) ->
    caps_inv (set_stack (stack s ++ [fr]) s).
  Proof.
    intros Hinv Hne Hfr. pose proof Hinv as (Hst & _ & _ & _ & Hfrs & _).
    apply caps_set_stack; [exact Hinv| |].
    - rewrite app_length; cbn [length]. lia.
    - apply Forall_app; split; [exact Hfrs|]. constructor; [exact Hfr|constructor].
  Qed.

  Lemma caps_pop_frame fr rest s :
    caps_inv s -> rev (stack s) = fr :: rest -> caps_inv (set_stack (rev rest) s).
  Proof.
    intros Hinv E. pose proof Hinv as (Hst & _ & _ & _ & Hfrs & _).
    rewrite <- (rev_length (stack s)), E in Hst. cbn [length] in Hst.
    apply caps_set_stack; [exact Hinv | rewrite rev_length; lia | exact (proj2 (Forall_rev_cons _ _ _ _ E Hfrs))].
  Qed.

  Lemma caps_gosub n : mrel INV (gosub_line_number n).
  Proof.
    intros s Hinv. rewrite gosub_eq.
    destruct (Nat.eqb (length (stack s)) stack_limit) eqn:E; [exact Hinv|]. apply Nat.eqb_neq in E.
    destruct (store_has n s); cbn [snd]; [|eapply caps_inv_ext; [..|exact Hinv]; reflexivity].
    apply (caps_push_frame (mkframe (loc s) []) (set_loc _ (set_breakpoint None s))); [|exact E|apply typed_alist_nil].
    eapply caps_inv_ext; [..|exact Hinv]; reflexivity.
  Qed.

  Lemma caps_return : mrel INV return_to_last_gosub.
  Proof.
    intros s Hinv. rewrite return_eq. destruct (rev (stack s)) as [|fr rest] eqn:E; cbn [snd];
      (eapply caps_inv_ext; [..|first [exact (caps_pop_frame _ _ _ Hinv E) | exact Hinv]]; reflexivity).
  Qed.

  Lemma caps_push_fn name b : typed_alist b -> mrel INV (push_function_call name b).
  Proof.
    intros Hb s Hinv. rewrite push_eq.
    destruct (Nat.eqb (length (stack s)) stack_limit) eqn:E; [exact Hinv|]. apply Nat.eqb_neq in E.
    pose proof (caps_push_frame (mkframe (loc s) b) s Hinv E Hb) as H1.
    cbv zeta. destruct (alist_get name (functions s)); [|exact H1].
    eapply caps_inv_ext; [..|exact H1]; reflexivity.
  Qed.

  Lemma caps_pop_fn : mrel INV pop_function_call.
  Proof.
    intros s Hinv. rewrite pop_eq. destruct (rev (stack s)) as [|fr rest] eqn:E; [exact Hinv|].
    eapply caps_inv_ext; [..|exact (caps_pop_frame _ _ _ Hinv E)]; reflexivity.
  Qed.

  (* the common tail of DIM and of the default array *)
  Lemma caps_new_array name idx :
    mrel INV (a <- lift_res (array_create_value name idx) ;;
              modify (fun s => set_arrays (alist_set name a (arrays s)) s)).
  Proof.
    intros s Hinv. unfold bind, lift_res.
    destruct (array_create_value name idx) as [a|e l|p| |] eqn:E; try exact Hinv.
    cbn [modify snd]. apply caps_set_arrays; [exact Hinv|].
    apply arrays_ok_set; [apply Hinv|eapply array_create_value_ok; exact E].
  Qed.
  Hint Resolve caps_new_array : capsdb.

  Lemma caps_arrays_create name idx : mrel INV (arrays_create name idx).
  Proof. uwalk. Qed.

  Lemma caps_maybe_default name d : mrel INV (maybe_create_default_array name d).
  Proof. uwalk. Qed.

  Hint Resolve caps_maybe_default : capsdb.

  Lemma caps_arrays_get name idx : mrel INV (arrays_get name idx).
  Proof.
    unfold arrays_get; cwalk.
  Qed.

  Lemma caps_arrays_set name idx v : mrel INV (arrays_set name idx v).
  Proof.
    unfold arrays_set. destruct (negb (type_matches name v)); [apply (mrel_fail _ PO)|].
    apply (mrel_bind _ PO); [apply caps_maybe_default|intros _].
    intros s1 H1. rewrite bind_get. destruct (alist_get name (arrays s1)) as [a|] eqn:Ea; [|exact H1].
    destruct (Bool.eqb (ar_str a) match v with VStr _ => true | VNum _ => false end) eqn:Eb;
      cbn [negb]; [|exact H1].
    unfold bind, lift_res. destruct (array_linear_index a idx) as [i|e l|p| |]; try exact H1.
    destruct (Nat.ltb (N.to_nat i) (length (ar_cells a))); [|exact H1].
    cbn [modify snd]. apply caps_set_arrays; [exact H1|].
    apply arrays_ok_set; [apply H1|].
    apply alist_get_In in Ea. destruct H1 as (_ & _ & _ & _ & _ & Har).
    destruct (Har _ _ Ea) as (Hd & Hlen & Hcap & Hstr & Hcells).
    unfold arr_ok; cbn [ar_dims ar_cells ar_str]. rewrite list_update_length.
    split; [exact Hd|]. split; [exact Hlen|]. split; [exact Hcap|]. split; [exact Hstr|].
    apply list_update_Forall; [exact Hcells|].
    apply Bool.eqb_prop in Eb. destruct v; exact Eb.
  Qed.

  Lemma caps_warn m : mrel INV (warn m).
  Proof.
    unfold warn; cwalk.
  Qed.

  Hint Resolve caps_warn : capsdb.

  Lemma caps_maybe_warn n : mrel INV (maybe_warn_undeclared_array n).
  Proof.
    unfold maybe_warn_undeclared_array; cwalk.
  Qed.

  Lemma caps_next_data : mrel INV next_data_element.
  Proof.
    intros s Hinv; unfold next_data_element.
    destruct (data_it s) as [d|].
    - destruct (data_next _ d); cbn [snd]. eapply caps_inv_ext; [..|exact Hinv]; reflexivity.
    - destruct (data_chunks (st_keys s) (st_toks s)); try exact Hinv.
      destruct (data_next _ _); cbn [snd]. eapply caps_inv_ext; [..|exact Hinv]; reflexivity.
  Qed.

  Hint Resolve caps_program_break caps_continue_bp caps_run_from_first caps_goto
    caps_define_function caps_find_var caps_next_line caps_set_numbered_line caps_rng_rnd
    caps_gosub caps_return caps_push_fn caps_pop_fn caps_arrays_create
    caps_arrays_get caps_arrays_set caps_maybe_warn caps_next_data :
    capsdb.

  Lemma caps_eval_unary o v : mrel INV (eval_unary o v). Proof. uwalk. Qed.
  Lemma caps_eval_addsub o a b : mrel INV (eval_addsub o a b). Proof. uwalk. Qed.
  Lemma caps_eval_muldiv o a b : mrel INV (eval_muldiv o a b). Proof. uwalk. Qed.
  Lemma caps_eval_eq o a b : mrel INV (eval_eq o a b). Proof. uwalk. Qed.
  Lemma caps_eval_and a b : mrel INV (eval_and a b). Proof. uwalk. Qed.
  Lemma caps_eval_or a b : mrel INV (eval_or a b). Proof. uwalk. Qed.
  Lemma caps_eval_pow a b : mrel INV (eval_pow a b). Proof. uwalk. Qed.
  Lemma caps_expect_number v : mrel INV (expect_number v). Proof. uwalk. Qed.

  Hint Resolve caps_eval_unary caps_eval_addsub caps_eval_muldiv caps_eval_eq caps_eval_and
    caps_eval_or caps_eval_pow caps_expect_number : capsdb.

  Section Expr.
    Variable fuel : nat.
    Variable rec : M value.
    Hypothesis Hrec : mrel INV rec.

    Lemma caps_bind_arguments args i n b : mrel INV (bind_arguments rec args i n b).
    Proof.
      revert i b; induction args as [|a args IH]; intros i b; cbn [bind_arguments]; cwalk.
    Qed.

    (* every binding a call frame receives was checked against its parameter name *)
    Lemma bind_arguments_typed args : forall i n b,
      typed_alist b -> mpost typed_alist (bind_arguments rec args i n b).
    Proof.
      induction args as [|a args IH]; intros i n b Hb; cbn [bind_arguments].
      - apply mpost_ret; exact Hb.
      - apply mpost_bind; intros v. destruct (type_matches a v) eqn:E.
        + apply mpost_bind; intros _. apply mpost_bind; intros _.
          apply IH. apply typed_alist_set; assumption.
        + apply mpost_fail_bind.
    Qed.

    Lemma caps_call_body : mrel INV (call_body rec).
    Proof. exact (mrel_call_body _ PO rec Hrec caps_pop_fn). Qed.

    Hint Resolve caps_bind_arguments caps_call_body : capsdb.

    Lemma caps_array_index : mrel INV (evaluate_array_index fuel rec).
    Proof. uwalk. Qed.

    Hint Resolve caps_array_index : capsdb.

    Lemma caps_unary_arg : mrel INV (unary_number_function_arg rec).
    Proof. uwalk. Qed.

    Hint Resolve caps_unary_arg : capsdb.

    Lemma caps_user_function_call name : mrel INV (user_function_call rec name).
    Proof.
      unfold user_function_call.
      apply (mrel_bind _ PO); [apply (mrel_get _ PO)|intros fs].
      destruct (alist_get name fs) as [d|]; [|apply (mrel_ret _ PO)].
      apply (mrel_bind _ PO); [apply caps_expect|intros _].
      apply (mrel_bind_post _ PO typed_alist);
        [apply caps_bind_arguments | apply bind_arguments_typed; apply typed_alist_nil | intros b Hb].
      cwalk.
    Qed.

    Hint Resolve caps_user_function_call : capsdb.

    Lemma caps_function_call name : mrel INV (function_call rec name).
    Proof.
      unfold function_call.
      cwalk.
    Qed.

    Hint Resolve caps_function_call : capsdb.

    Lemma caps_expression_term : mrel INV (expression_term fuel rec).
    Proof.
      unfold expression_term.
      cwalk.
    Qed.

    Hint Resolve caps_expression_term : capsdb.

    Lemma caps_unary : mrel INV (unary_operator fuel rec).
    Proof.
      unfold unary_operator, parenthesized_expression.
      cwalk.
    Qed.

    Lemma caps_tier {O} (g : M (option O)) (operand : M value) (ap : O -> value -> value -> M value) :
      mrel INV g -> mrel INV operand -> (forall o a b, mrel INV (ap o a b)) ->
      mrel INV (tier fuel g operand ap).
    Proof. intros Hg Ho Ha. unfold tier; cwalk; auto. Qed.

    Lemma caps_accept_as {O} t (o : O) : mrel INV (accept_as t o).
    Proof. unfold accept_as; cwalk. Qed.

    Lemma caps_logical_or : mrel INV (logical_or_expression fuel rec).
    Proof.
      apply (tiers_ind fuel rec (mrel INV));
        [ intros; apply caps_tier; [first [apply caps_accept_as | apply caps_try] | assumption | intros; leaf] ..
        | exact caps_unary ].
    Qed.
  End Expr.

  Theorem caps_evaluate_expression fuel : forall n, mrel INV (evaluate_expression fuel n).
  Proof.
    induction fuel as [|k IH]; intros n; cbn [evaluate_expression].
    - apply (mrel_out_of_fuel _ PO).
    - destruct (Nat.eqb n max_nesting); [apply (mrel_fail _ PO)|].
      apply caps_logical_or; apply IH.
  Qed.

  Section Stmt.
    Variable fuel : nat.
    Variable nest : nat.
    Variable rec : M unit.
    Hypothesis Hrec : mrel INV rec.

    Hint Resolve caps_evaluate_expression caps_array_index : capsdb.
    Hint Extern 0 (mrel _ (expr _ _)) => apply caps_evaluate_expression : capsdb.

    Lemma caps_optional_index : mrel INV (parse_optional_array_index fuel nest).
    Proof. uwalk. Qed.

    Hint Resolve caps_optional_index : capsdb.

    Lemma caps_parse_lvalue : mrel INV (parse_lvalue fuel nest).
    Proof.
      unfold parse_lvalue.
      cwalk.
    Qed.

    Lemma caps_assign lv v : mrel INV (assign_value lv v).
    Proof. uwalk. Qed.

    Lemma caps_await : mrel INV rewind_program_and_await_input.
    Proof. uwalk. Qed.

    Lemma caps_break : mrel INV break_at_current_location.
    Proof. uwalk. Qed.

    Lemma caps_goto_stmt : mrel INV evaluate_goto_statement.
    Proof. uwalk. Qed.

    Lemma caps_gosub_stmt : mrel INV evaluate_gosub_statement.
    Proof. uwalk. Qed.

    Hint Resolve caps_parse_lvalue caps_assign caps_await caps_break
      caps_goto_stmt caps_gosub_stmt : capsdb.

    Lemma caps_stmt_or_goto : mrel INV (statement_or_goto_line_number rec).
    Proof. uwalk. Qed.

    Hint Resolve caps_stmt_or_goto : capsdb.

    Lemma caps_if : mrel INV (evaluate_if_statement fuel nest rec).
    Proof.
      unfold evaluate_if_statement.
      cwalk.
    Qed.

    Hint Resolve caps_if : capsdb.

    Lemma caps_assignment sym : mrel INV (evaluate_assignment_statement fuel nest sym).
    Proof. uwalk. Qed.

    Hint Resolve caps_assignment : capsdb.

    Lemma caps_let : mrel INV (evaluate_let_statement fuel nest).
    Proof.
      unfold evaluate_let_statement.
      cwalk.
    Qed.

    Hint Resolve caps_let : capsdb.

    Lemma caps_read : mrel INV (evaluate_read_statement fuel nest).
    Proof. uwalk. Qed.

    Hint Resolve caps_read : capsdb.

    Lemma caps_take_input : mrel INV take_input.
    Proof. uwalk. Qed.

    Hint Resolve caps_take_input : capsdb.

    Lemma caps_input : mrel INV (evaluate_input_statement fuel nest).
    Proof.
      unfold evaluate_input_statement.
      cwalk.
    Qed.

    Hint Resolve caps_input : capsdb.

    Lemma caps_dim : mrel INV (evaluate_dim_statement fuel nest).
    Proof. uwalk. Qed.

    Hint Resolve caps_dim : capsdb.

    Lemma caps_print : mrel INV (evaluate_print_statement fuel nest).
    Proof. uwalk. Qed.

    Hint Resolve caps_print : capsdb.

    Lemma caps_for : mrel INV (evaluate_for_statement fuel nest).
    Proof. uwalk. Qed.

    Hint Resolve caps_for : capsdb.

    Lemma caps_next_stmt : mrel INV evaluate_next_statement.
    Proof. uwalk. Qed.

    Hint Resolve caps_next_stmt : capsdb.

    Lemma caps_def : mrel INV (evaluate_def_statement fuel).
    Proof. uwalk. Qed.

    Hint Resolve caps_def : capsdb.

    Lemma caps_is_else : mrel INV is_else_of_then_clause.
    Proof. uwalk. Qed.

    Hint Resolve caps_is_else : capsdb.

    Lemma caps_statement_body : mrel INV (evaluate_statement_body fuel nest rec).
    Proof.
      unfold evaluate_statement_body.
      cwalk.
    Qed.
  End Stmt.

  Theorem caps_evaluate_statement fuel : forall n, mrel INV (evaluate_statement fuel n).
  Proof.
    induction fuel as [|k IH]; intros n; cbn [evaluate_statement].
    - apply (mrel_out_of_fuel _ PO).
    - destruct (Nat.eqb n max_nesting); [apply (mrel_fail _ PO)|].
      apply caps_statement_body; apply IH.
  Qed.

  Hint Resolve caps_evaluate_statement : capsdb.

  Theorem caps_run_next_statement fuel : mrel INV (run_next_statement fuel).
  Proof. uwalk. Qed.

  Hint Resolve caps_run_next_statement : capsdb.

  Lemma caps_process_command fuel c : mrel INV (process_command fuel c).
  Proof.
    unfold process_command.
    cwalk.
  Qed.

  Hint Resolve caps_process_command : capsdb.

  Lemma caps_evaluate_impl fuel line : mrel INV (evaluate_impl fuel line).
  Proof.
    unfold evaluate_impl.
    cwalk.
  Qed.

  Lemma caps_postprocess {A} (r : res A * interp) :
    caps_inv (snd r) -> caps_inv (snd (postprocess r)).
  Proof.
    destruct r as [[a|e l|p| |] s]; cbn [postprocess snd]; intros H; try exact H.
  Qed.

  Lemma caps_start_evaluating fuel line : mrel INV (start_evaluating fuel line).
  Proof.
    intros s Hinv. unfold start_evaluating. apply caps_postprocess.
    apply caps_evaluate_impl; exact Hinv.
  Qed.

  Lemma caps_continue_evaluating fuel : mrel INV (continue_evaluating fuel).
  Proof.
    intros s Hinv. unfold continue_evaluating. destruct (state s); try exact Hinv.
    apply caps_postprocess. apply caps_run_next_statement; exact Hinv.
  Qed.

  Lemma caps_provide_input text : mrel INV (provide_input text).
  Proof.
    intros s Hinv. unfold provide_input. destruct (state s); exact Hinv.
  Qed.

  Lemma caps_host_break : mrel INV host_break.
  Proof. apply caps_break. Qed.

  Lemma caps_randomize seed : mrel INV (randomize seed).
  Proof. unfold randomize. caps_modify. Qed.

End Preservation.

Theorem caps_step : forall fuel s op, caps_inv s -> caps_inv (snd (step fuel s op)).
Proof.
  intros fuel s op Hinv. unfold step.
  destruct (negb (legal s op)); [exact Hinv|].
  assert (H0 : caps_inv (set_reads 0 s)) by (eapply caps_inv_ext; [..|exact Hinv]; reflexivity).
  assert (Out : forall s1, caps_inv s1 -> caps_inv (set_outputs [] s1))
    by (intros s1 H; eapply caps_inv_ext; [..|exact H]; reflexivity).
  destruct op as [text| |text| |seed| |w t|]; rewrite ?row_state.
  - apply Out, caps_start_evaluating, H0.
  - apply Out, caps_continue_evaluating, H0.
  - apply Out, caps_provide_input, H0.
  - apply Out, caps_host_break, H0.
  - apply Out, caps_randomize, H0.
  - exact (Out _ (caps_fresh (pow_oracle s))).
  - cbn [snd]. eapply caps_inv_ext; [..|exact Hinv]; reflexivity.
  - cbn [snd]. apply caps_fresh.
Qed.

Theorem caps_reachable : forall fuel ops s, caps_inv s -> caps_inv (run_state fuel s ops).
Proof.
  intros fuel ops; induction ops as [|op ops IH]; intros s Hinv; cbn [run_state]; [exact Hinv|].
  apply IH. apply caps_step; exact Hinv.
Qed.

Corollary caps_session : forall fuel oracle ops, caps_inv (run_state fuel (fresh oracle) ops).
Proof. intros. apply caps_reachable, caps_fresh. Qed.

(* the numbers that the English statement of C16 quotes are those of Gen/Tables.v *)
Example caps_constants :
  STACK_LIMIT = 32%N /\ MAX_DIM_TOTAL_ELEMENTS = 10000%N /\ DEFAULT_ARRAY_SIZE = 10%N.
Proof. vm_compute. repeat split. Qed.

Corollary caps_numeric s : caps_inv s ->
  (N.of_nat (length (stack s)) <= STACK_LIMIT)%N
  /\ (N.of_nat (length (loops s)) <= STACK_LIMIT)%N
  /\ (forall name a, In (name, a) (arrays s) ->
        N.of_nat (length (ar_cells a)) = dims_product (ar_dims a)
        /\ (N.of_nat (length (ar_cells a)) <= MAX_DIM_TOTAL_ELEMENTS)%N).
Proof.
  intros (Hst & Hlp & _ & _ & _ & Har). unfold stack_limit in *.
  split; [lia|]. split; [lia|]. intros name a Hin.
  destruct (Har _ _ Hin) as (_ & Hlen & Hcap & _). split; assumption.
Qed.

(* with distinct loop variables, at most one open loop per variable of the program *)
Corollary loops_bounded_by_variables s univ :
  caps_inv s -> incl (map lp_sym (loops s)) univ -> length (loops s) <= length univ.
Proof.
  intros (_ & _ & Hnd & _) Hincl. rewrite <- (map_length lp_sym).
  apply NoDup_incl_length; assumption.
Qed.

Theorem gosub_overflow n s :
  length (stack s) = stack_limit -> gosub_line_number n s = (Err EStackOverflow None, s).
Proof. intros H. rewrite gosub_eq, H, Nat.eqb_refl. reflexivity. Qed.

(* ... and only then: below the cap GOSUB pushes exactly one frame or reports
   the missing line *)
Theorem gosub_below_cap n s :
  length (stack s) <> stack_limit ->
  gosub_line_number n s =
  if store_has n s
  then (Ok tt, set_stack (stack s ++ [mkframe (loc s) []])
                 (set_loc (mkloc (Some n) 0) (set_breakpoint None s)))
  else (Err EUndefinedStatement None, set_breakpoint None s).
Proof. intros H. apply Nat.eqb_neq in H. rewrite gosub_eq, H. reflexivity. Qed.

Theorem push_function_call_overflow name b s :
  length (stack s) = stack_limit -> push_function_call name b s = (Err EStackOverflow None, s).
Proof. intros H. rewrite push_eq, H, Nat.eqb_refl. reflexivity. Qed.

Theorem push_function_call_below_cap name b s :
  length (stack s) <> stack_limit ->
  stack (snd (push_function_call name b s)) = stack s ++ [mkframe (loc s) b]
  /\ fst (push_function_call name b s) <> Err EStackOverflow None.
Proof.
  intros H. apply Nat.eqb_neq in H. rewrite push_eq, H. cbv zeta.
  destruct (alist_get name (functions s)); split; try reflexivity; discriminate.
Qed.

(* FOR leaves the GOSUB stack, and a loop that is there afterwards was there before or starts where the statement ends *)
Lemma start_loop_shape sym a b c s s' : start_loop sym a b c s = (Ok tt, s') ->
  stack s' = stack s /\ forall lp, In lp (loops s') -> In lp (loops s) \/ lp_loc lp = loc s'.
Proof.
  rewrite start_loop_eq. cbv zeta.
  destruct (Nat.eqb (length (loops (drop_loop sym s))) stack_limit); [discriminate|].
  rewrite variables_set_eq. destruct (type_matches sym (VNum a)); [|discriminate]. intros E. injection E as <-.
  split; [unfold drop_loop; destruct (find_loop_rev sym (loops s)); reflexivity|].
  intros lp Hin. change (In lp (loops (drop_loop sym s) ++ [mkloop (loc (drop_loop sym s)) sym b c])) in Hin.
  apply in_app_or in Hin as [Hin | [<- | []]]; [left | right; reflexivity].
  rewrite drop_loop_loops in Hin. unfold loops_below in Hin.
  destruct (find_loop_rev sym (loops s)) as [i|]; [|exact Hin].
  rewrite <- (firstn_skipn i (loops s)). apply in_or_app. left. exact Hin.
Qed.

(* FOR: the loop for the same variable and everything above it are dropped
   first; the error is raised exactly when [stack_limit] loops remain *)
Theorem start_loop_overflow sym a b c s :
  length (loops_below sym (loops s)) = stack_limit ->
  start_loop sym a b c s = (Err EStackOverflow None, drop_loop sym s).
Proof.
  intros H. rewrite start_loop_eq. cbv zeta. rewrite drop_loop_loops, H, Nat.eqb_refl. reflexivity.
Qed.

Theorem start_loop_below_cap sym a b c s :
  length (loops_below sym (loops s)) <> stack_limit ->
  fst (start_loop sym a b c s) <> Err EStackOverflow None
  /\ loops (snd (start_loop sym a b c s)) = loops_below sym (loops s) ++ [mkloop (loc s) sym b c].
Proof.
  intros H. apply Nat.eqb_neq in H. rewrite start_loop_eq. cbv zeta.
  rewrite drop_loop_loops, H, variables_set_eq.
  assert (Hloc : loc (drop_loop sym s) = loc s).
  { unfold drop_loop. destruct (find_loop_rev sym (loops s)); reflexivity. }
  rewrite Hloc. destruct (type_matches sym (VNum a)); split; try reflexivity; discriminate.
Qed.

(* Arrays: see [array_create_value_spec] above; here lifted to DIM *)
Theorem arrays_create_too_large name idx s :
  idx <> [] -> alist_has name (arrays s) = false ->
  (MAX_DIM_TOTAL_ELEMENTS < dims_product (dim_sizes idx))%N ->
  arrays_create name idx s = (Err EArrayTooLarge None, s).
Proof.
  intros Hne Hhas Hbig. unfold arrays_create. rewrite bind_get, Hhas.
  pose proof (array_create_value_spec name idx Hne) as H.
  apply N.ltb_lt in Hbig. rewrite Hbig in H. unfold bind, lift_res. rewrite H. reflexivity.
Qed.

Theorem arrays_create_fits name idx s :
  idx <> [] -> alist_has name (arrays s) = false ->
  (dims_product (dim_sizes idx) <= MAX_DIM_TOTAL_ELEMENTS)%N ->
  exists a, arrays_create name idx s = (Ok tt, set_arrays (alist_set name a (arrays s)) s)
            /\ arr_ok name a /\ ar_dims a = dim_sizes idx.
Proof.
  intros Hne Hhas Hfit. unfold arrays_create. rewrite bind_get, Hhas.
  pose proof (array_create_value_spec name idx Hne) as H.
  apply N.ltb_ge in Hfit. rewrite Hfit in H. destruct H as (a & Ha & Hok & Hd).
  exists a. unfold bind, lift_res. rewrite Ha. auto.
Qed.

Definition bytes_eq_dec : forall a b : bytes, {a = b} + {a <> b} := list_eq_dec N.eq_dec.

Theorem start_loop_no_accumulation sym a b c s s' :
  NoDup (map lp_sym (loops s)) ->
  start_loop sym a b c s = (Ok tt, s') ->
  count_occ bytes_eq_dec (map lp_sym (loops s')) sym = 1
  /\ length (loops s') <= S (length (loops s))
  /\ (In sym (map lp_sym (loops s)) -> length (loops s') <= length (loops s)).
Proof.
  intros Hnd. rewrite start_loop_eq. cbv zeta.
  destruct (Nat.eqb (length (loops (drop_loop sym s))) stack_limit); [discriminate|].
  rewrite variables_set_eq. destruct (type_matches sym (VNum a)); [|discriminate].
  intros E; inversion E; subst s'; clear E. caps_fields. rewrite drop_loop_loops.
  rewrite map_app, count_occ_app, app_length. cbn [map lp_sym length count_occ].
  pose proof (loops_below_length sym (loops s)) as Hle.
  split; [|split].
  - rewrite (proj1 (count_occ_not_In bytes_eq_dec _ _) (loops_below_fresh sym _ Hnd)).
    destruct (bytes_eq_dec sym sym); [reflexivity|congruence].
  - lia.
  - intros Hin. pose proof (loops_below_length_lt sym (loops s) Hin). lia.
Qed.

(* whatever the outcome, FOR grows the loop list by at most one, and not at all
   when the variable already had a loop (re-entering a FOR via GOTO) *)
Theorem start_loop_growth sym a b c s :
  let s' := snd (start_loop sym a b c s) in
  length (loops s') <= S (length (loops s))
  /\ (In sym (map lp_sym (loops s)) -> length (loops s') <= length (loops s)).
Proof.
  cbv zeta. rewrite start_loop_eq. cbv zeta.
  pose proof (loops_below_length sym (loops s)) as Hle.
  destruct (Nat.eqb (length (loops (drop_loop sym s))) stack_limit).
  - cbn [snd]. rewrite drop_loop_loops. split; [lia|intros _; lia].
  - rewrite variables_set_eq. destruct (type_matches sym (VNum a)); cbn [snd]; caps_fields;
      rewrite drop_loop_loops, app_length; cbn [length];
      (split; [lia|intros Hin; pose proof (loops_below_length_lt sym (loops s) Hin); lia]).
Qed.

Definition last_msg (ops : list hostop) : option bytes :=
  option_map r_msg (last (run_ops default_fuel (fresh []) ops) None).

(* two nested FOR loops and a GOSUB in flight, one string variable, one 3x4 array *)
Definition demo_ops : list hostop :=
  [ HLine (bs "10 FOR I = 1 TO 3"); HLine (bs "20 FOR J = 1 TO 2"); HLine (bs "30 GOSUB 100");
    HLine (bs "40 NEXT J"); HLine (bs "50 NEXT I"); HLine (bs "60 END");
    HLine (bs "100 A$ = ""X"""); HLine (bs "110 DIM B(2,3)"); HLine (bs "120 RETURN");
    HLine (bs "RUN"); HCont; HCont; HCont; HCont ].

Example demo_state :
  let s := run_state default_fuel (fresh []) demo_ops in
  length (stack s) = 1 /\ length (loops s) = 2 /\ state s = Running
  /\ map fst (variables s) = [bs "I"; bs "J"; bs "A$"]
  /\ map (fun p => (fst p, ar_dims (snd p), length (ar_cells (snd p)))) (arrays s)
     = [(bs "B", [3%N; 4%N], 12)].
Proof. vm_compute. repeat split. Qed.

(* unbounded GOSUB recursion: the 33rd frame is refused, 32 remain, the
   interpreter is Idle and takes the next line *)
Definition gosub_ops : list hostop :=
  [ HLine (bs "10 GOSUB 10"); HLine (bs "RUN") ] ++ repeat HCont 32.

Example gosub_cap :
  let s := run_state default_fuel (fresh []) gosub_ops in
  length (stack s) = 32 /\ state s = Idle
  /\ last_msg gosub_ops = Some (bs "OUT OF MEMORY ERROR (STACK OVERFLOW) IN 10")
  /\ last_msg (gosub_ops ++ [HLine (bs "PRINT 1")]) = Some [].
Proof. vm_compute. repeat split. Qed.

(* re-entering a FOR through GOTO a hundred times leaves one loop *)
Definition for_ops : list hostop :=
  [ HLine (bs "10 FOR I = 1 TO 3"); HLine (bs "20 GOTO 10"); HLine (bs "RUN") ] ++ repeat HCont 201.

Example for_reentry :
  let s := run_state default_fuel (fresh []) for_ops in
  length (loops s) = 1 /\ state s = Running.
Proof. vm_compute. repeat split. Qed.

(* 101 x 101 cells are refused, 100 x 100 are granted *)
Example dim_cap :
  last_msg [HLine (bs "DIM A(100,100)")] = Some (bs "OUT OF MEMORY ERROR (ARRAY TOO LARGE)")
  /\ let s := run_state default_fuel (fresh []) [HLine (bs "DIM B$(99,99)"); HLine (bs "B$(99,99) = ""Z""")] in
     map (fun p => (fst p, ar_dims (snd p), N.of_nat (length (ar_cells (snd p))))) (arrays s)
     = [(bs "B$", [100%N; 100%N], 10000%N)]
     /\ state s = Idle.
Proof. vm_compute. repeat split. Qed.

Print Assumptions caps_init.
Print Assumptions caps_fresh.
Print Assumptions caps_evaluate_expression.
Print Assumptions caps_evaluate_statement.
Print Assumptions caps_run_next_statement.
Print Assumptions caps_step.
Print Assumptions caps_reachable.
Print Assumptions array_create_value_spec.
Print Assumptions gosub_overflow.
Print Assumptions gosub_below_cap.
Print Assumptions push_function_call_overflow.
Print Assumptions push_function_call_below_cap.
Print Assumptions start_loop_overflow.
Print Assumptions start_loop_below_cap.
Print Assumptions arrays_create_too_large.
Print Assumptions arrays_create_fits.
Print Assumptions start_loop_no_accumulation.
Print Assumptions start_loop_growth.
Print Assumptions loops_bounded_by_variables.
