(* Proofs/Monad.v — the pointwise monad laws; [mrel R m]: running [m] relates the start
   state to the end state by the preorder [R]; its rules, and the tactics that walk an
   evaluator ([mrel_step], [mstep], the leaf [field_leaf]).  Also [same] (the state is left
   as it is) with the pure primitives, [inv_rel P] (an invariant read as a relation) and
   [repeat_exit] (a loop by invariant and exit condition). *)
From Coq Require Import List NArith ZArith Bool Lia.
From Abasic Require Import Model.Bytes Model.Num Model.Token Model.State Model.Eval.
Import ListNotations.

Lemma bind_ret {A B} (a : A) (K : A -> M B) s : bind (ret a) K s = K a s.
Proof. reflexivity. Qed.

Lemma bind_get {A B} (f : interp -> A) (K : A -> M B) s : bind (get f) K s = K (f s) s.
Proof. reflexivity. Qed.

Lemma bind_modify {B} g (K : unit -> M B) s : bind (modify g) K s = K tt (g s).
Proof. reflexivity. Qed.

Lemma bind_run {A B} (m : M A) (f : A -> M B) s :
  bind m f s = match m s with
               | (Ok a, s') => f a s'
               | (Err e l, s') => (Err e l, s')
               | (Panic p, s') => (Panic p, s')
               | (OutOfFuel, s') => (OutOfFuel, s')
               | (OracleMiss, s') => (OracleMiss, s')
               end.
Proof. reflexivity. Qed.

(* [bind] after a known run of its first half *)
Lemma bind_of_run {A B} (m : M A) (K : A -> M B) s0 R s1 :
  m s0 = (R, s1) ->
  bind m K s0 = match R with
                | Ok a => K a s1
                | Err e l => (Err e l, s1)
                | Panic p => (Panic p, s1)
                | OutOfFuel => (OutOfFuel, s1)
                | OracleMiss => (OracleMiss, s1)
                end.
Proof. intros H; unfold bind; rewrite H; destruct R; reflexivity. Qed.

Lemma bind_ok {A B} (m : M A) (K : A -> M B) s0 a s1 :
  m s0 = (Ok a, s1) -> bind m K s0 = K a s1.
Proof. intros H; unfold bind; rewrite H; reflexivity. Qed.

Lemma bind_err {A B} (m : M A) (K : A -> M B) s0 e l s1 :
  m s0 = (Err e l, s1) -> bind m K s0 = (Err e l, s1).
Proof. intros H; unfold bind; rewrite H; reflexivity. Qed.

Lemma bind_fail {A B} e (K : A -> M B) s0 : bind (fail e) K s0 = (Err e None, s0).
Proof. reflexivity. Qed.

Lemma bind_assoc {A B C} (m : M A) (f : A -> M B) (g : B -> M C) s :
  bind (bind m f) g s = bind m (fun a => bind (f a) g) s.
Proof. unfold bind. destruct (m s) as [[a|e l|p| |] s1]; reflexivity. Qed.

Lemma bind_ext {A B} (m : M A) (f g : A -> M B) s :
  (forall a s', f a s' = g a s') -> bind m f s = bind m g s.
Proof. intros H. unfold bind. destruct (m s) as [[a|e l|p| |] s1]; auto. Qed.

Definition mrel {A} (R : interp -> interp -> Prop) (m : M A) : Prop :=
  forall s, R s (snd (m s)).

Record preorder (R : interp -> interp -> Prop) : Prop := {
  po_refl : forall s, R s s;
  po_trans : forall a b c, R a b -> R b c -> R a c }.

Section Rules.
  Variable R : interp -> interp -> Prop.
  Hypothesis PO : preorder R.

  Lemma mrel_ret {A} (a : A) : mrel R (ret a).
  Proof. intros s; apply (po_refl _ PO). Qed.

  Lemma mrel_fail {A} e : mrel R (@fail A e).
  Proof. intros s; apply (po_refl _ PO). Qed.

  Lemma mrel_fail_at {A} e l : mrel R (@fail_at A e l).
  Proof. intros s; apply (po_refl _ PO). Qed.

  Lemma mrel_panic {A} p : mrel R (@panic A p).
  Proof. intros s; apply (po_refl _ PO). Qed.

  Lemma mrel_out_of_fuel {A} : mrel R (@out_of_fuel A).
  Proof. intros s; apply (po_refl _ PO). Qed.

  Lemma mrel_oracle_miss {A} : mrel R (@oracle_miss A).
  Proof. intros s; apply (po_refl _ PO). Qed.

  Lemma mrel_get {A} (f : interp -> A) : mrel R (get f).
  Proof. intros s; apply (po_refl _ PO). Qed.

  Lemma mrel_lift_res {A} (r : res A) : mrel R (lift_res r).
  Proof. intros s; apply (po_refl _ PO). Qed.

  Lemma mrel_modify f : (forall s, R s (f s)) -> mrel R (modify f).
  Proof. intros H s; apply H. Qed.

  Lemma mrel_bind {A B} (m : M A) (f : A -> M B) :
    mrel R m -> (forall a, mrel R (f a)) -> mrel R (bind m f).
  Proof.
    intros Hm Hf s. unfold bind. specialize (Hm s).
    destruct (m s) as [[a| | | |] s']; cbn [snd] in *; try exact Hm.
    eapply (po_trans _ PO); [exact Hm | apply Hf].
  Qed.

  Lemma mrel_repeat {St Res} n (body : St -> M (St + Res)) :
    (forall acc, mrel R (body acc)) -> forall acc, mrel R (repeat_m n body acc).
  Proof.
    intros Hb. induction n as [|n IH]; intros acc; cbn [repeat_m].
    - apply mrel_out_of_fuel.
    - apply mrel_bind; [apply Hb|]. intros [acc'|r]; [apply IH | apply mrel_ret].
  Qed.

  Lemma mrel_call_body (rec : M value) :
    mrel R rec -> mrel R pop_function_call -> mrel R (call_body rec).
  Proof.
    intros Hr Hp s. unfold call_body. specialize (Hr s).
    destruct (rec s) as [[v|e l|p| |] s1]; cbn [snd] in *; try exact Hr;
      (eapply (po_trans _ PO); [exact Hr|]); specialize (Hp s1);
      destruct (pop_function_call s1) as [[u|e2 l2|p| |] s2]; exact Hp.
  Qed.

  Lemma mrel_fun {A} (m : M A) : (forall s, R s (snd (m s))) -> mrel R m.
  Proof. intros H; exact H. Qed.
End Rules.

(* [I]: the loop invariant, kept by every iteration that goes on; [E]: what the iteration that stops
   establishes, hence what holds when the loop returns a value *)
Lemma repeat_exit {S R} (I E : interp -> Prop) (body : S -> M (S + R)) :
  (forall acc s a s', I s -> body acc s = (Ok (inl a), s') -> I s') ->
  (forall acc s r s', I s -> body acc s = (Ok (inr r), s') -> E s') ->
  forall n acc s r s', I s -> repeat_m n body acc s = (Ok r, s') -> E s'.
Proof.
  intros Hgo Hstop. induction n as [|n IH]; intros acc s r s' HI H; [discriminate H|].
  cbn [repeat_m] in H. unfold bind at 1 in H.
  destruct (body acc s) as [[[a|r']|e l|p| |] s1] eqn:Eb; try discriminate H.
  - exact (IH a s1 r s' (Hgo _ _ _ _ HI Eb) H).
  - injection H as <- <-. exact (Hstop _ _ _ _ HI Eb).
Qed.

Definition inv_rel (P : interp -> Prop) : interp -> interp -> Prop := fun s s' => P s -> P s'.

Lemma inv_rel_preorder P : preorder (inv_rel P).
Proof. split; unfold inv_rel; auto. Qed.

Lemma mrel_conj {A} R1 R2 (m : M A) :
  mrel R1 m -> mrel R2 m -> mrel (fun s s' => R1 s s' /\ R2 s s') m.
Proof. intros H1 H2 s; split; auto. Qed.

(* a token match with one special constructor: two goals *)
Lemma on_number {X} (P : X -> Prop) (t : option token) (a : f64 -> X) (b : X) :
  (forall x, P (a x)) -> P b -> P (match t with Some (TNumber x) => a x | _ => b end).
Proof. intros; destruct t as [[]|]; auto. Qed.

Lemma on_symbol {X} (P : X -> Prop) (t : option token) (a : bytes -> X) (b : X) :
  (forall x, P (a x)) -> P b -> P (match t with Some (TSymbol x) => a x | _ => b end).
Proof. intros; destruct t as [[]|]; auto. Qed.

Ltac case_scrutinee P x :=
  lazymatch type of x with
  | option token =>
      first [ simple apply (on_number P); [intro|] | simple apply (on_symbol P); [intro|] | destruct x ]
  | _ => destruct x
  end.

(* The rule is chosen by the head of the computation: trying each rule by
   unification makes [apply] unfold the evaluator to decide.  Only the last case does
   try them that way; it is reached when the head is a constant the leaf does not close
   (a definition of State.v that is a [bind] underneath, a [modify]): the unification
   unfolds the constant, and a rule that does not fit fails only after comparing
   [R s (snd (m s))] for the two computations up to conversion.  That is cheap while
   [R] and the constant are small. *)
Ltac mrel_step PO leaf :=
  lazymatch goal with
  | |- mrel _ (ret _) => apply (mrel_ret _ PO)
  | |- mrel _ (fail _) => apply (mrel_fail _ PO)
  | |- mrel _ (fail_at _ _) => apply (mrel_fail_at _ PO)
  | |- mrel _ (panic _) => apply (mrel_panic _ PO)
  | |- mrel _ out_of_fuel => apply (mrel_out_of_fuel _ PO)
  | |- mrel _ oracle_miss => apply (mrel_oracle_miss _ PO)
  | |- mrel _ (get _) => apply (mrel_get _ PO)
  | |- mrel _ (lift_res _) => apply (mrel_lift_res _ PO)
  | |- mrel _ (bind _ _) => first [ solve [leaf] | apply (mrel_bind _ PO); [| intro] ]
  | |- mrel _ (repeat_m _ _ _) => first [ solve [leaf] | apply (mrel_repeat _ PO); intro ]
  | |- ?P (match ?x with _ => _ end) => first [ solve [leaf] | case_scrutinee P x ]
  | |- _ =>
      first
        [ solve [leaf]
        | apply (mrel_ret _ PO) | apply (mrel_fail _ PO) | apply (mrel_fail_at _ PO)
        | apply (mrel_panic _ PO) | apply (mrel_out_of_fuel _ PO) | apply (mrel_oracle_miss _ PO)
        | apply (mrel_get _ PO) | apply (mrel_lift_res _ PO)
        | apply (mrel_bind _ PO); [| intro]
        | apply (mrel_repeat _ PO); intro ]
  end.

Ltac mrel_walk PO leaf := repeat (mrel_step PO leaf).

(* The same rules chosen by syntax alone, none tried up to conversion; what is walked
   has to be unfolded first.  For a relation whose body normalises states the attempts
   of [mrel_step] are ruinous: Inspect's [Q] compares [core s], five setters deep, so that
   up to conversion it cannot tell [modify (set_reads ..)] from [ret tt], and every attempt
   compares normal forms of records; its walk takes 2 s with [mstep] and did not end
   within 20 min with [mrel_step]. *)
Ltac mstep PO leaf :=
  lazymatch goal with
  | |- mrel _ (ret _) => apply (mrel_ret _ PO)
  | |- mrel _ (fail _) => apply (mrel_fail _ PO)
  | |- mrel _ (fail_at _ _) => apply (mrel_fail_at _ PO)
  | |- mrel _ (panic _) => apply (mrel_panic _ PO)
  | |- mrel _ out_of_fuel => apply (mrel_out_of_fuel _ PO)
  | |- mrel _ oracle_miss => apply (mrel_oracle_miss _ PO)
  | |- mrel _ (get _) => apply (mrel_get _ PO)
  | |- mrel _ (lift_res _) => apply (mrel_lift_res _ PO)
  | |- mrel _ (bind _ _) => apply (mrel_bind _ PO); [| intro]
  | |- mrel _ (repeat_m _ _ _) => apply (mrel_repeat _ PO); intro
  | |- mrel _ (match ?x with _ => _ end) => destruct x
  | |- mrel _ _ => solve [leaf]
  end.

(* the two leaves a relation on single fields has to answer for itself: a field update, where the
   state is opened so that the projections of the updated record compute and [fin] closes what the
   relation then asks, and a lookup in the token table, which leaves the state as it is.
   [idtac;]: the match is to run when the leaf is called, not when it is passed to the walker *)
Ltac field_leaf PO fin :=
  idtac;
  lazymatch goal with
  | |- mrel ?R (modify _) =>
      apply (mrel_modify R); intros s; destruct s as [? ? ? [? ?] ? ? ? ? ? ? ? ? ? ? ? ? ? ? ?];
      cbn; repeat match goal with |- context [match ?x with _ => _ end] => destruct x end; fin
  | |- mrel _ (tokens_for_line ?l) =>
      let s := fresh "s" in
      intros s; unfold tokens_for_line; destruct l; [destruct (toks_get _ (st_toks s))|]; apply (po_refl _ PO)
  end.

Definition same (s s' : interp) : Prop := s' = s.

Lemma same_preorder : preorder same.
Proof. split; unfold same; intros; congruence. Qed.

Lemma mrel_same {A} R (m : M A) : preorder R -> mrel same m -> mrel R m.
Proof. intros PO H s. rewrite (H s). apply (po_refl _ PO). Qed.

Ltac samewalk := repeat (mstep same_preorder fail).

Lemma same_tokens_for_line l : mrel same (tokens_for_line l).
Proof. intros s. unfold tokens_for_line. destruct l as [n|]; [destruct (toks_get n (st_toks s))|]; reflexivity. Qed.

Lemma same_find_var n : mrel same (find_variable_value_in_stack n). Proof. unfold find_variable_value_in_stack. samewalk. Qed.
Lemma same_variables_get n : mrel same (variables_get n). Proof. unfold variables_get. samewalk. Qed.
Lemma same_get_line_number : mrel same get_line_number. Proof. unfold get_line_number. samewalk. Qed.
Lemma same_expect_number v : mrel same (expect_number v). Proof. unfold expect_number. samewalk. Qed.
Lemma same_eval_unary o v : mrel same (eval_unary o v). Proof. unfold eval_unary. samewalk. Qed.
Lemma same_eval_addsub o a b : mrel same (eval_addsub o a b). Proof. unfold eval_addsub. samewalk. Qed.
Lemma same_eval_muldiv o a b : mrel same (eval_muldiv o a b). Proof. unfold eval_muldiv. samewalk. Qed.
Lemma same_eval_eq o a b : mrel same (eval_eq o a b). Proof. unfold eval_eq. samewalk. Qed.
Lemma same_eval_and a b : mrel same (eval_and a b). Proof. unfold eval_and. samewalk. Qed.
Lemma same_eval_or a b : mrel same (eval_or a b). Proof. unfold eval_or. samewalk. Qed.
Lemma same_eval_pow a b : mrel same (eval_pow a b). Proof. unfold eval_pow. samewalk. Qed.

(* the six operator tiers sit on one another: a property of a tier's operand carries to the top *)
Lemma tiers_ind fuel rec (P : M value -> Prop) :
  (forall x, P x -> P (tier fuel (accept_as TCaret tt) x (fun _ => eval_pow))) ->
  (forall x, P x -> P (tier fuel (try_next_token muldiv_of_token) x eval_muldiv)) ->
  (forall x, P x -> P (tier fuel (try_next_token addsub_of_token) x eval_addsub)) ->
  (forall x, P x -> P (tier fuel (try_next_token eq_of_token) x eval_eq)) ->
  (forall x, P x -> P (tier fuel (accept_as TAnd tt) x (fun _ => eval_and))) ->
  (forall x, P x -> P (tier fuel (accept_as TOr tt) x (fun _ => eval_or))) ->
  P (unary_operator fuel rec) -> P (logical_or_expression fuel rec).
Proof. intros H1 H2 H3 H4 H5 H6 HU. apply H6, H5, H4, H3, H2, H1, HU. Qed.

Ltac head_of t := lazymatch t with ?f _ => head_of f | _ => t end.
Ltac unfold_head := lazymatch goal with |- _ ?m => let h := head_of m in unfold h end.
