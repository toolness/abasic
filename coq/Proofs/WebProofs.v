(* C19: the Web adapter under the page's protocol.  Each adapter call, under
   the precondition the page establishes before making it (the core is
   well-formed, no error is latched, the core is in the state the page just
   observed), does not trap and re-establishes [JInv]; every page event
   preserves [JInv] and neither traps nor throws, hence no sequence does.  What
   the adapter exposes is the image of what the core yields (equations, by
   definition of the model functions). *)
From Coq Require Import List NArith ZArith Bool Lia.
From Abasic Require Import Model.Bytes Model.Lexer Model.State Model.Interp Model.Web
     Proofs.StoreProofs Proofs.ResetProofs Proofs.Safety.
Import ListNotations.
Local Open Scope nat_scope.

Record JInv (j : js) : Prop := {
  ji_wf : wf (core j);
  ji_state : state (core j) <> NewInterpreterRequested;
  ji_err : latest_error j <> None -> state (core j) = Idle }.

Lemma JInv_new oracle : JInv (js_new oracle).
Proof. split; cbn; [apply wf_fresh|discriminate|congruence]. Qed.

Lemma wf_maybe_replace s : wf s -> wf (maybe_replace s).
Proof. intros H. unfold maybe_replace. destruct (state s); try exact H. apply wf_fresh. Qed.

Lemma state_maybe_replace s : state (maybe_replace s) <> NewInterpreterRequested.
Proof.
  unfold maybe_replace. destruct (state s) eqn:E; try (rewrite E; discriminate). cbn. discriminate.
Qed.

(* the match below is the common tail of js_start_evaluating and
   js_continue_evaluating (Model/Web.v), which has no name there: it has to
   follow any change of those two *)
Lemma js_outcome_safe (ol : option bytes) (x : res unit * interp) :
  TR (fst x) (snd x) ->
  match match postprocess x with
        | (Ok _, s) => JOk tt (mkjs (maybe_replace s) None)
        | (Err e l, s) =>
            match render_caret e l ol s with
            | Ok ls => JOk tt (mkjs s (Some (join [nl] (display_error e l :: ls))))
            | _ => JTrap
            end
        | (Panic _, s) => JTrap
        | (_, s) => JStuck
        end with
  | JOk _ j' => JInv j'
  | JTrap => False
  | JStuck => True
  end.
Proof.
  intros Htr. pose proof (tr_postprocess _ Htr) as [A1 A2 A3]. pose proof (postprocess_err x) as Hpe.
  destruct (postprocess x) as [[u|e l|p| |] s1]; cbn [fst snd] in *.
  - split; cbn [core latest_error]; [apply wf_maybe_replace, A1|apply state_maybe_replace|congruence].
  - destruct (render_caret_ok e l ol s1) as (ls & Hls).
    { intros l0 ->. eapply A3; reflexivity. }
    rewrite Hls. split; cbn [core latest_error]; [exact A1| |intros _; eapply Hpe; reflexivity].
    rewrite (Hpe e l s1 eq_refl). discriminate.
  - exact (A2 p eq_refl).
  - exact I.
  - exact I.
Qed.

Lemma js_start_safe fuel line j :
  JInv j -> latest_error j = None -> state (core j) = Idle ->
  match js_start_evaluating fuel line j with
  | JOk _ j' => JInv j'
  | JTrap => False
  | JStuck => True
  end.
Proof.
  intros [Hwf Hst Herr] Hnone Hidle. unfold js_start_evaluating. rewrite Hnone.
  exact (js_outcome_safe (Some line) _ (tr_evaluate_impl fuel line (core j) Hwf Hidle)).
Qed.

Lemma js_continue_safe fuel j :
  JInv j -> latest_error j = None -> state (core j) = Running ->
  match js_continue_evaluating fuel j with
  | JOk _ j' => JInv j'
  | JTrap => False
  | JStuck => True
  end.
Proof.
  intros [Hwf Hst Herr] Hnone Hrun. unfold js_continue_evaluating. rewrite Hnone.
  unfold continue_evaluating. rewrite Hrun.
  exact (js_outcome_safe None _ (tr_of_sr (run_next_statement fuel) (core j) (sr_run_next_statement fuel) Hwf)).
Qed.

Lemma js_provide_safe text j :
  JInv j -> latest_error j = None -> state (core j) = AwaitingInput ->
  exists j', js_provide_input text j = JOk tt j' /\ JInv j' /\ latest_error j' = None.
Proof.
  intros [Hwf Hst Herr] Hnone Haw. unfold js_provide_input, provide_input. rewrite Haw.
  eexists. split; [reflexivity|]. split; [|exact Hnone].
  split; cbn [core latest_error]; [revert Hwf; apply wf_ext; reflexivity|cbn; discriminate|congruence].
Qed.

Lemma interrupted_idle s : state (interrupted s) = Idle.
Proof. unfold interrupted, imm_reset. cbn. destruct (numbered_of (loc s)); reflexivity. Qed.

Lemma js_break_safe j :
  JInv j -> latest_error j = None ->
  exists j', js_break j = JOk tt j' /\ JInv j' /\ latest_error j' = None.
Proof.
  intros [Hwf Hst Herr] Hnone. unfold js_break.
  pose proof (tr_of_sr host_break (core j) sr_break Hwf) as [A1 _ _].
  rewrite host_break_eq in *. cbn [snd] in A1.
  eexists. split; [reflexivity|]. split; [|exact Hnone].
  split; cbn [core latest_error]; [exact A1|rewrite interrupted_idle; discriminate|congruence].
Qed.

Lemma js_get_state_safe j : JInv j -> exists st, js_get_state j = JOk st j
  /\ (st = JErrored <-> latest_error j <> None)
  /\ (st = JIdle -> state (core j) = Idle) /\ (st = JRunning -> state (core j) = Running)
  /\ (st = JAwaitingInput -> state (core j) = AwaitingInput).
Proof.
  intros [Hwf Hst Herr]. unfold js_get_state. destruct (latest_error j) as [e|] eqn:E.
  - exists JErrored. repeat split; try discriminate; congruence.
  - destruct (state (core j)) eqn:Es; try congruence;
      eexists; (split; [reflexivity|]); repeat split; try discriminate; try congruence; intros H; congruence.
Qed.

Definition safe (r : pres) : Prop :=
  match r with
  | POk p _ => JInv (impl p)
  | PStuck => True
  | PThrow _ | PTrap _ => False
  end.

Lemma JInv_take_output j : JInv j -> JInv (snd (js_take_output j)).
Proof.
  intros [Hwf Hst Herr]. unfold js_take_output. cbn [snd].
  split; cbn [core latest_error]; [revert Hwf; apply wf_ext; reflexivity|exact Hst|exact Herr].
Qed.

Lemma hcs_safe_none fuel : forall k p log, 1 <= k -> JInv (impl p) -> latest_error (impl p) = None ->
  safe (handle_current_state fuel k p log).
Proof.
  intros k p log Hk Hinv Hnone. destruct k as [|k]; [lia|].
  cbn [handle_current_state]. unfold js_take_output at 1.
  set (j1 := mkjs (set_outputs [] (core (impl p))) (latest_error (impl p))).
  assert (Hinv1 : JInv j1) by (apply (JInv_take_output (impl p) Hinv)).
  assert (Hn1 : latest_error j1 = None) by exact Hnone.
  destruct (js_get_state_safe j1 Hinv1) as (st & Hgs & Herr & Hi & Hr & Ha). rewrite Hgs.
  destruct st.
  - destruct (negb (fully_interactive p)); cbn [safe impl]; exact Hinv1.
  - pose proof (js_continue_safe fuel j1 Hinv1 Hn1 (Hr eq_refl)) as Hc.
    destruct (js_continue_evaluating fuel j1) as [u j3| |]; cbn [safe impl]; try exact Hc; exact I.
  - cbn [safe impl]. exact Hinv1.
  - exfalso. apply (proj1 Herr eq_refl). exact Hn1.
Qed.

(* with an error latched it is taken and shown first: a second pass *)
Lemma hcs_safe fuel : forall k p log, 2 <= k -> JInv (impl p) -> safe (handle_current_state fuel k p log).
Proof.
  intros k p log Hk Hinv. destruct (latest_error (impl p)) as [e|] eqn:E; [|apply hcs_safe_none; [lia|exact Hinv|exact E]].
  destruct k as [|k]; [lia|].
  cbn [handle_current_state]. unfold js_take_output at 1.
  set (j1 := mkjs (set_outputs [] (core (impl p))) (latest_error (impl p))).
  assert (Hinv1 : JInv j1) by (apply (JInv_take_output (impl p) Hinv)).
  unfold js_get_state. subst j1. cbn [latest_error]. rewrite E.
  unfold js_take_error. cbn [fst snd latest_error].
  apply hcs_safe_none; [lia| |reflexivity].
  cbn [impl]. destruct Hinv1 as [A1 A2 A3]. split; cbn [core latest_error] in *; [exact A1|exact A2|congruence].
Qed.

Lemma not_errored_none j st :
  (st = JErrored <-> latest_error j <> None) -> st <> JErrored -> latest_error j = None.
Proof. intros Herr Hne. destruct (latest_error j); [|reflexivity]. exfalso. apply Hne, Herr. discriminate. Qed.

Lemma do_break_safe fuel p log : JInv (impl p) -> safe (do_break fuel p log).
Proof.
  intros Hinv. unfold do_break.
  destruct (js_get_state_safe (impl p) Hinv) as (st & Hgs & Herr & Hi & Hr & Ha). rewrite Hgs.
  pose proof (not_errored_none _ _ Herr) as Hnone.
  destruct st; cbn [safe impl]; try exact Hinv;
    (destruct (js_break_safe (impl p) Hinv (Hnone ltac:(discriminate))) as (j2 & Hb & Hinv2 & _); rewrite Hb;
     apply hcs_safe; [lia|exact Hinv2]).
Qed.

Theorem page_step_safe fuel p ev :
  JInv (impl p) -> (match ev with EvLoad _ => False | _ => True end) -> safe (page_step fuel p ev).
Proof.
  intros Hinv Hev. destruct ev as [text| |text| |]; [contradiction| | | |]; cbn [page_step].
  - apply hcs_safe; [lia|exact Hinv].
  - destruct (negb (input_enabled p) || negb (started p)); [exact Hinv|].
    destruct (js_get_state_safe (impl p) Hinv) as (st & Hgs & Herr & Hi & Hr & Ha). rewrite Hgs.
    pose proof (not_errored_none _ _ Herr) as Hnone.
    destruct ((match st with JIdle => false | _ => true end) && bytes_eqb text break_alias).
    + apply do_break_safe. exact Hinv.
    + destruct st; cbn [safe impl]; try exact Hinv.
      * pose proof (js_start_safe fuel text (impl p) Hinv (Hnone ltac:(discriminate)) (Hi eq_refl)) as Hs.
        destruct (js_start_evaluating fuel text (impl p)) as [u j2| |]; [|contradiction|exact I].
        apply hcs_safe; [lia|exact Hs].
      * destruct (js_provide_safe text (impl p) Hinv (Hnone ltac:(discriminate)) (Ha eq_refl)) as (j2 & Hp & Hinv2 & _).
        rewrite Hp. apply hcs_safe; [lia|exact Hinv2].
  - destruct (negb (input_enabled p) || negb (started p)); [exact Hinv|]. apply do_break_safe, Hinv.
  - destruct (pending_ticks p); [exact Hinv|]. apply hcs_safe; [lia|exact Hinv].
Qed.

(* a session: the events one after the other (C19's statements are over it) *)
Fixpoint page_run (fuel : nat) (p : page) (evs : list event) : pres :=
  match evs with
  | [] => POk p []
  | ev :: r => match page_step fuel p ev with
               | POk p' _ => page_run fuel p' r
               | other => other
               end
  end.

Theorem page_run_safe fuel : forall evs p,
  JInv (impl p) -> Forall (fun ev => match ev with EvLoad _ => False | _ => True end) evs ->
  safe (page_run fuel p evs).
Proof.
  induction evs as [|ev evs IH]; intros p Hinv Hevs; cbn [page_run]; [exact Hinv|].
  inversion Hevs as [|? ? Hev Hevs']; subst.
  pose proof (page_step_safe fuel p ev Hinv Hev) as Hs.
  destruct (page_step fuel p ev) as [p' log|log|log|]; try exact Hs. apply IH; assumption.
Qed.

Definition loader_line_ok (l : bytes) : Prop :=
  js_blank l = true \/ starts_with_digit l = false \/ parse_line_number l <> None.

Theorem js_outputs_are_core_outputs j :
  fst (js_take_output j) = map (fun o => (out_type o, display_output o)) (outputs (core j))
  /\ outputs (core (snd (js_take_output j))) = [].
Proof. split; reflexivity. Qed.

Theorem js_state_is_core_state j st :
  js_get_state j = JOk st j ->
  match st with
  | JErrored => latest_error j <> None
  | JIdle => latest_error j = None /\ state (core j) = Idle
  | JRunning => latest_error j = None /\ state (core j) = Running
  | JAwaitingInput => latest_error j = None /\ state (core j) = AwaitingInput
  end.
Proof.
  unfold js_get_state. destruct (latest_error j) as [e|]; [intros H; inversion H; discriminate|].
  destruct (state (core j)); intros H; inversion H; split; reflexivity.
Qed.

Theorem js_start_error_text fuel line j e l s1 :
  latest_error j = None -> start_evaluating fuel line (core j) = (Err e l, s1) ->
  forall ls, render_caret e l (Some line) s1 = Ok ls ->
  js_start_evaluating fuel line j = JOk tt (mkjs s1 (Some (join [nl] (display_error e l :: ls)))).
Proof. intros Hn Hs ls Hc. unfold js_start_evaluating. rewrite Hn, Hs, Hc. reflexivity. Qed.

Theorem js_continue_error_text fuel j e l s1 :
  latest_error j = None -> continue_evaluating fuel (core j) = (Err e l, s1) ->
  forall ls, render_caret e l None s1 = Ok ls ->
  js_continue_evaluating fuel j = JOk tt (mkjs s1 (Some (join [nl] (display_error e l :: ls)))).
Proof. intros Hn Hs ls Hc. unfold js_continue_evaluating. rewrite Hn, Hs, Hc. reflexivity. Qed.

Theorem js_start_ok_is_core fuel line j u s1 :
  latest_error j = None -> start_evaluating fuel line (core j) = (Ok u, s1) ->
  js_start_evaluating fuel line j = JOk tt (mkjs (maybe_replace s1) None).
Proof. intros Hn Hs. unfold js_start_evaluating. rewrite Hn, Hs. reflexivity. Qed.

Lemma command_of_NEW : command_of (bs "NEW") = Some CNew.
Proof. vm_compute. reflexivity. Qed.

Theorem js_new_is_fresh fuel j :
  latest_error j = None -> state (core j) = Idle ->
  js_start_evaluating fuel (bs "NEW") j = JOk tt (js_new (pow_oracle (core j))).
Proof.
  intros Hn Hidle. unfold js_start_evaluating. rewrite Hn.
  unfold start_evaluating. rewrite (evaluate_impl_command fuel _ CNew _ Hidle command_of_NEW).
  cbn [process_command]. unfold modify, postprocess, maybe_replace, js_new. cbn [fst snd state set_state].
  f_equal. f_equal. unfold imm_reset. destruct (breakpoint (core j)); reflexivity.
Qed.
