(* C03, one statement: the assignment `v = e` and PRINT, in any legal token spelling, from
   any cursor position, run by the model's statement evaluator and by the reference's [exec]
   from related stores.  Both succeed or both fail with the same error kind; on success the
   cursor is just past the statement and the stores are related again, so the step composes;
   on failure neither store changed.  [same_store] (frames and variables agree pointwise)
   implies [same_reads], which the expression theorem needs, and unlike it is preserved by
   assignment.
   The two theorems are the statement-level part of C03 and stand for themselves; the whole-program
   proof does not go through them: ProgSim.v has a contract of its own for every statement
   ([ProgSim.steps_as]) and takes from here the statement head, the bridges to State.v's functions
   and, for PRINT, the two sides [model_print] and [ref_print_items]. *)
From Coq Require Import List ZArith Lia.
From Abasic Require Import Model.Bytes Model.Num Model.Token Model.State Model.Eval Ref.RefSem Proofs.Monad Proofs.ExprSem Proofs.InputProofs Proofs.RefProofs.
Import ListNotations.
Local Open Scope nat_scope.

Definition same_store (st : rstate) (s : interp) : Prop :=
  (forall name, lookup_frames name (r_frames st) = find_in_frames name (rev (stack s)))
  /\ (forall name, lookup name (r_vars st) = alist_get name (variables s)).

Lemma default_agrees name : default_of name = default_value name.
Proof. reflexivity. Qed.

Lemma kind_agrees name x : kind_ok name x = type_matches name x.
Proof. destruct x; reflexivity. Qed.

Lemma same_store_reads st s : same_store st s -> same_reads st s.
Proof.
  intros [Hf Hv] name. unfold read_var, lookup_var. rewrite Hf, Hv. reflexivity.
Qed.

Lemma lookup_is_alist_get {V} k (l : list (bytes * V)) : lookup k l = alist_get k l.
Proof. induction l as [|[k' v] l IH]; cbn [lookup alist_get]; [reflexivity | rewrite IH; reflexivity]. Qed.

Lemma update_is_alist_set {V} k (v : V) l : update k v l = alist_set k v l.
Proof. induction l as [|[k' v'] l IH]; cbn [update alist_set]; [reflexivity | rewrite IH; reflexivity]. Qed.

Lemma same_store_assign st s s' v x :
  same_store st s -> stack s' = stack s ->
  variables s' = alist_set v x (variables s) ->
  same_store (set_vars' (update v x (r_vars st)) st) s'.
Proof.
  intros [Hf Hv] Hs Hvars. split; intros name.
  - rewrite Hs. destruct st; exact (Hf name).
  - rewrite Hvars. replace (r_vars (set_vars' (update v x (r_vars st)) st)) with (update v x (r_vars st))
      by (destruct st; reflexivity).
    rewrite update_is_alist_set, lookup_is_alist_get, !Caps.alist_get_set.
    rewrite <- lookup_is_alist_get, Hv. reflexivity.
Qed.

(* the expression fragment never panics, runs out of fuel or misses the
   oracle: its fold is a value, TYPE MISMATCH or DIVISION BY ZERO *)

Definition plain (R : res value) : Prop :=
  match R with
  | Ok _ => True
  | Err ETypeMismatch None | Err EDivisionByZero None => True
  | _ => False
  end.

Lemma den_plain s : forall e e', tr e = Some e' -> plain (den s e').
Proof.
  induction e as [x|b|v|a idx|a IH|a IH|a IH|op a IHa b IHb|a IH|a IH|a IH|f args];
    intros e' Htr; cbn [tr] in Htr; try discriminate.
  1-3: inversion Htr; exact I.
  (* an operator passes the error of an operand on, and on values yields a value or one of the two errors *)
  1-3, 5-6:
    (destruct (tr a) as [a'|]; [|discriminate]; inversion Htr; subst; cbn [den];
     specialize (IH a' eq_refl); destruct (den s a') as [[x|x]|er l|pp| |]; try exact IH; exact I).
  destruct (tr a) as [a'|]; [|discriminate]. destruct (tr b) as [b'|]; [|discriminate].
  inversion Htr; subst. cbn [den].
  specialize (IHa a' eq_refl). specialize (IHb b' eq_refl).
  destruct (den s a') as [v|er l|pp| |]; try exact IHa.
  destruct (den s b') as [w|er l|pp| |]; try exact IHb.
  destruct op as [| |c| | | |]; destruct v as [x|x], w as [y|y]; cbn; try exact I.
  destruct (f64_eqb y f64_zero); exact I.
Qed.

(* only ever asked of TYPE MISMATCH and DIVISION BY ZERO ([den_plain]); the other case is a filler *)
Definition rerr_of (e : ierror) : rerr :=
  match e with EDivisionByZero => RDivisionByZero | _ => RTypeMismatch end.

(* the statement dispatcher at the nesting level of its own recursion *)
Definition on_token (f n : nat) (t : token) : M unit := dispatch f n (evaluate_statement f n) t.

Section Statement.
  Variable s : interp.
  Variable toks : list token.
  Hypothesis Htoks : fst (cur_tokens s) = Ok toks.

  (* [InputProofs.statement_head] with tracing off *)
  Lemma statement_head_quiet f d i r o t :
    enable_tracing s = false -> Nat.eqb d max_nesting = false -> nth_error toks i = Some t ->
    evaluate_statement (S f) d (at_idx s i r o) = on_token f (S d) t (at_idx s (S i) (S r) o).
  Proof.
    intros Htrace Hd Ht. rewrite (InputProofs.statement_head s toks Htoks f d i r o t Ht Hd).
    unfold trace_of. rewrite Htrace, app_nil_r. reflexivity.
  Qed.
End Statement.

Section LetSim.
  Variable s : interp.
  Variable toks : list token.
  Hypothesis Htoks : fst (cur_tokens s) = Ok toks.
  Hypothesis Htrace : enable_tracing s = false.

  (* the statement's tokens start at index [i] of the current line *)
  Variables (v : bytes) (e : rexpr) (e' : expr) (ts rest : list token) (i : nat).
  Hypothesis Hskip : skipn i toks = TSymbol v :: TEquals :: ts ++ rest.
  Hypothesis Hstop : stops 0 rest = true.
  Hypothesis Htr : tr e = Some e'.
  Hypothesis Hren : Renders 0 e' ts.
  Variable d : nat.
  Hypothesis Hd : Nat.eqb d max_nesting = false.
  Hypothesis Hdepth : S d + pdepth e' < max_nesting.

  Variables (p : rprogram) (after : rpc) (li : nat) (st : rstate).
  Hypothesis Hrel : same_store st s.

  Lemma ref_let F : xsize e <= F ->
    exec F p (SLet v [] e) after li st =
    match den s e' with
    | Ok x => if type_matches v x
              then Next after (set_vars' (update v x (r_vars st)) st)
              else Fail RTypeMismatch (line_no p li) st
    | Err er _ => Fail (rerr_of er) (line_no p li) st
    | _ => NoFuel
    end.
  Proof.
    intros HF. cbn [exec eval_subscripts]. unfold RefSem.ev.
    rewrite (ref_expr_is_den e e' st s F Htr (same_store_reads _ _ Hrel) HF).
    pose proof (den_plain s e e' Htr) as Hp.
    destruct (den s e') as [x|er l|pp| |]; cbn [conv]; try reflexivity.
    - unfold store_scalar. rewrite kind_agrees. destruct (type_matches v x); reflexivity.
    - destruct er; cbn [plain] in Hp; try contradiction; destruct l; try contradiction; reflexivity.
  Qed.

  Lemma model_let : exists fuel0, forall fuel, fuel0 <= fuel -> forall r o,
    exists i' r' o', W s o o' /\
      evaluate_statement fuel d (at_idx s i r o) =
      match den s e' with
      | Ok x => if type_matches v x
                then (Ok tt, set_variables (alist_set v x (variables s))
                               (at_idx s (i + 2 + length ts) r' o'))
                else (Err ETypeMismatch None, at_idx s (i + 2 + length ts) r' o')
      | Err er l => (Err er l, at_idx s i' r' o')
      | Panic pp => (Panic pp, at_idx s i' r' o')
      | OutOfFuel => (OutOfFuel, at_idx s i' r' o')
      | OracleMiss => (OracleMiss, at_idx s i' r' o')
      end.
  Proof.
    destruct (skipn_cons_nth _ _ _ _ Hskip) as [H0 Hs1].
    destruct (skipn_cons_nth _ _ _ _ Hs1) as [H1 Hs2].
    destruct (expr_sem_at s toks Htoks e' ts Hren (S d) Hdepth) as (f0 & Hex).
    exists (S (S f0)). intros fuel Hf r o.
    destruct fuel as [|f]; [lia|].
    assert (Hf' : f0 <= f) by lia.
    destruct (Hex f Hf' _ rest (S (S (S r))) o Hs2 Hstop) as (i' & r' & o' & Heq & Hidx & HW).
    exists i', r', o'. split; [exact HW|].
    rewrite (statement_head_quiet s toks Htoks f d i r o _ Htrace Hd H0).
    unfold on_token, dispatch, evaluate_assignment_statement, parse_optional_array_index.
    rewrite bind_assoc.
    erewrite bind_ok by (apply (peek_is_at s toks Htoks)).
    rewrite H1. change (token_eqb TEquals TLeftParen) with false. cbn [negb].
    rewrite (bind_ok _ _ _ _ _ (eq_refl : ret None (at_idx s (S i) (S (S r)) o) = (Ok None, _))).
    erewrite bind_ok by (apply (expect_ok s toks Htoks _ _ _ TEquals TEquals H1); reflexivity).
    unfold Eval.expr.
    erewrite bind_of_run by exact Heq.
    destruct (den s e') as [x|er l|pp| |]; try reflexivity.
    rewrite (Hidx x eq_refl).
    replace (S (S i) + length ts) with (i + 2 + length ts) by lia.
    unfold assign_value. cbn [lv_index lv_sym]. unfold variables_set.
    destruct (type_matches v x); reflexivity.
  Qed.

  Theorem let_statement_simulates : exists fuel0, forall fuel, fuel0 <= fuel -> forall r o,
    match exec (xsize e) p (SLet v [] e) after li st with
    | Next pc st' =>
        pc = after /\
        exists s', evaluate_statement fuel d (at_idx s i r o) = (Ok tt, s')
          /\ same_store st' s'
          /\ loc s' = mkloc (loc_line (loc s)) (i + 2 + length ts)
          /\ W s o (outputs s')
          /\ (exists x r', s' = set_variables (alist_set v x (variables s))
                                (at_idx s (i + 2 + length ts) r' (outputs s')))
    | Fail er line st' =>
        line = line_no p li /\ st' = st /\
        exists ie l s', evaluate_statement fuel d (at_idx s i r o) = (Err ie l, s')
          /\ rerr_of ie = er /\ same_store st s'
    | Done _ | NoFuel => False
    end.
  Proof.
    destruct model_let as (f0 & Hm). exists f0. intros fuel Hf r o.
    destruct (Hm fuel Hf r o) as (i' & r' & o' & HW & Hrun). clear Hm.
    rewrite (ref_let (xsize e) (le_n _)).
    pose proof (den_plain s e e' Htr) as Hp.
    destruct (den s e') as [x|er l|pp| |]; cbn [plain] in Hp; try contradiction.
    - destruct (type_matches v x).
      + split; [reflexivity|]. eexists. split; [exact Hrun|].
        split; [apply (same_store_assign st s _ v x Hrel); reflexivity|].
        split; [reflexivity|]. split; [exact HW|].
        exists x, r'. reflexivity.
      + split; [reflexivity|]. split; [reflexivity|].
        eexists _, _, _. split; [exact Hrun|]. split; [reflexivity|].
        destruct Hrel as [Hf1 Hv1]. split; [exact Hf1 | exact Hv1].
    - split; [reflexivity|]. split; [reflexivity|].
      eexists _, _, _. split; [exact Hrun|]. split; [reflexivity|].
      destruct Hrel as [Hf1 Hv1]. split; [exact Hf1 | exact Hv1].
  Qed.
End LetSim.

Inductive mitem := MExpr (e : expr) | MSemi | MComma.

Fixpoint tr_items (items : list pitem) : option (list mitem) :=
  match items with
  | [] => Some []
  | PSemi :: r => option_map (cons MSemi) (tr_items r)
  | PComma :: r => option_map (cons MComma) (tr_items r)
  | PExpr e :: r => match tr e, tr_items r with
                    | Some e', Some r' => Some (MExpr e' :: r')
                    | _, _ => None
                    end
  end.

(* what follows a PRINT's items: the end of the line, a colon, or ELSE *)
Definition ends (rest : list token) : bool :=
  match rest with [] | TColon :: _ | TElse :: _ => true | _ => false end.

Inductive IRenders (rest : list token) : list mitem -> list token -> Prop :=
| IR_nil : ends rest = true -> IRenders rest [] []
| IR_semi r ts : IRenders rest r ts -> IRenders rest (MSemi :: r) (TSemicolon :: ts)
| IR_comma r ts : IRenders rest r ts -> IRenders rest (MComma :: r) (TComma :: ts)
| IR_expr e te r ts : Renders 0 e te -> stops 0 (ts ++ rest) = true -> IRenders rest r ts ->
    IRenders rest (MExpr e :: r) (te ++ ts).

(* the fold the PRINT loop computes *)
Fixpoint pden (s : interp) (items : list mitem) (semi : bool) (text : bytes) : res (bool * bytes) :=
  match items with
  | [] => Ok (semi, text)
  | MSemi :: r => pden s r true text
  | MComma :: r => pden s r false (text ++ [9%N])
  | MExpr e :: r =>
      match den s e with
      | Ok v => pden s r false (text ++ show_value v)
      | Err er l => Err er l
      | Panic p => Panic p
      | OutOfFuel => OutOfFuel
      | OracleMiss => OracleMiss
      end
  end.

Fixpoint idepth (items : list mitem) : nat :=
  match items with
  | [] => 0
  | MExpr e :: r => Nat.max (pdepth e) (idepth r)
  | _ :: r => idepth r
  end.

(* the first token of an expression is none of the tokens the PRINT loop looks for *)
Definition starts_item (t : token) : Prop :=
  match t with TColon | TElse | TSemicolon | TComma => False | _ => True end.

Lemma renders_head k e ts : Renders k e ts -> exists t ts', ts = t :: ts' /\ starts_item t.
Proof.
  induction 1 as [x|b|name|e ts H IH|e ts H IH|e ts H IH|op e ts H IH|op a b ta tb Ha IHa Hb IHb|k e ts Hk H IH].
  - eexists _, _; split; [reflexivity | exact I].
  - eexists _, _; split; [reflexivity | exact I].
  - eexists _, _; split; [reflexivity | exact I].
  - eexists _, _; split; [reflexivity | exact I].
  - eexists _, _; split; [reflexivity | exact I].
  - eexists _, _; split; [reflexivity | exact I].
  - eexists _, _; split; [reflexivity | destruct op; exact I].
  - destruct IHa as (t & ts' & -> & Ht). eexists _, _; split; [reflexivity | exact Ht].
  - exact IH.
Qed.

Section PrintSim.
  Variable s : interp.
  Variable toks : list token.
  Hypothesis Htoks : fst (cur_tokens s) = Ok toks.

  Definition pbody (F nest : nat) (st : bool * bytes) : M ((bool * bytes) + (bool * bytes)) :=
    let '(semi, text) := st in
    t <- peek_next_token ;;
    match t with
    | None => ret (inr st)
    | Some TColon => ret (inr st)
    | Some TElse => ret (inr st)
    | Some TSemicolon => next_token ;;; ret (inl (true, text))
    | Some TComma => next_token ;;; ret (inl (false, text ++ [9%N]))
    | Some _ => v <- Eval.expr F nest ;; ret (inl (false, text ++ show_value v))
    end.

  Lemma print_is_pbody F nest :
    evaluate_print_statement F nest =
    (r <- repeat_m F (pbody F nest) (false, []) ;;
     let '(semi, text) := r in push_output (OPrint (if semi then text else text ++ [10%N]))).
  Proof. reflexivity. Qed.

  Lemma print_loop rest items ts : IRenders rest items ts ->
    forall nest, nest + idepth items < max_nesting ->
    exists K0 F0, forall F, F0 <= F -> forall k, K0 <= k -> forall i semi text r o, skipn i toks = ts ++ rest ->
      lands s (repeat_m k (pbody F nest) (semi, text) (at_idx s i r o)) (pden s items semi text) (i + length ts) o.
  Proof.
    induction 1 as [Hend|r0 ts H IH|r0 ts H IH|e te r0 ts He Hst H IH]; intros nest Hn.
    (* `;` and `,`: one more turn of the loop *)
    2-3:
      (cbn [idepth] in Hn; destruct (IH nest Hn) as (K0 & F0 & HI);
       exists (S K0), F0; intros F HF k Hk i semi text r o Hsk; (destruct k as [|k]; [lia|]);
       cbn [app] in Hsk; destruct (skipn_cons_nth _ _ _ _ Hsk) as [Hnth Hsk'];
       rewrite repeat_m_S; unfold pbody at 1; rewrite bind_assoc;
       erewrite bind_ok by apply (peek_at s toks Htoks); rewrite Hnth; cbv iota; rewrite bind_assoc;
       erewrite bind_ok by (apply (next_some s toks Htoks); exact Hnth); rewrite bind_ret;
       cbn [pden length]; replace (i + S (length ts)) with (S i + length ts) by lia; apply (HI F HF k); [lia | exact Hsk']).
    - exists 1, 0. intros F _ k Hk i semi text r o Hsk. destruct k as [|k]; [lia|].
      rewrite repeat_m_S. unfold pbody at 1. rewrite bind_assoc.
      erewrite bind_ok by apply (peek_at s toks Htoks).
      cbn [app] in Hsk. cbn [pden length]. rewrite Nat.add_0_r.
      destruct rest as [|t rest'].
      + rewrite (skipn_nil_nth _ _ Hsk). apply (lands_here s); [reflexivity | apply W_refl].
      + destruct (skipn_cons_nth _ _ _ _ Hsk) as [Hnth _]. rewrite Hnth.
        destruct t; try discriminate Hend; (apply (lands_here s); [reflexivity | apply W_refl]).
    - cbn [idepth] in Hn.
      destruct (expr_sem_at s toks Htoks e te He nest ltac:(lia)) as (fe & Hfe).
      destruct (IH nest ltac:(lia)) as (K0 & F0 & HI).
      exists (S K0), (Nat.max fe F0). intros F HF k Hk i semi text r o Hsk. destruct k as [|k]; [lia|].
      assert (Hsk1 : skipn i toks = te ++ (ts ++ rest)) by (rewrite app_assoc; exact Hsk).
      pose proof (skipn_app_len _ _ _ _ Hsk1) as Hsk2.
      destruct (renders_head _ _ _ He) as (t & te' & Ete & Ht).
      assert (Hnth : nth_error toks i = Some t).
      { rewrite Ete in Hsk1. cbn [app] in Hsk1. apply (skipn_cons_nth _ _ _ _ Hsk1). }
      rewrite repeat_m_S. unfold pbody at 1. rewrite bind_assoc.
      erewrite bind_ok by apply (peek_at s toks Htoks). rewrite Hnth. cbv iota.
      match goal with |- lands s (bind ?m _ _) _ _ _ =>
        replace m with (v <- Eval.expr F nest ;; ret (@inl (bool * bytes) (bool * bytes) (false, text ++ show_value v)))
          by (destruct t; try reflexivity; contradiction)
      end.
      (* [pden] passes the item's outcome on as [den] does an operand's *)
      rewrite bind_assoc. unfold Eval.expr.
      apply (lands_bind s _ _ _ _ (fun v => pden s r0 false (text ++ show_value v)) _ _ _ (Hfe F ltac:(lia) i _ (S r) o Hsk1 Hst)).
      intros v r1 o1. rewrite bind_ret, app_length, Nat.add_assoc. apply (HI F ltac:(lia) k); [lia | exact Hsk2].
  Qed.

  Variables (items : list mitem) (ts rest : list token).
  Hypothesis Htrace : enable_tracing s = false.
  (* PRINT or its abbreviation ? *)
  Variable hd : token.
  Hypothesis Hhd : hd = TPrint \/ hd = TQuestionMark.
  Hypothesis Hren : IRenders rest items ts.
  Variable d : nat.
  Hypothesis Hd : Nat.eqb d max_nesting = false.
  Hypothesis Hdepth : S d + idepth items < max_nesting.

  Lemma model_print : exists fuel0, forall fuel, fuel0 <= fuel -> forall i r o,
    skipn i toks = hd :: ts ++ rest ->
    exists i' r' o', W s o o' /\
      evaluate_statement fuel d (at_idx s i r o) =
      match pden s items false [] with
      | Ok (semi, text) =>
          (Ok tt, at_idx s (i + 1 + length ts) r' (o' ++ [OPrint (if semi then text else text ++ [10%N])]))
      | Err er l => (Err er l, at_idx s i' r' o')
      | Panic pp => (Panic pp, at_idx s i' r' o')
      | OutOfFuel => (OutOfFuel, at_idx s i' r' o')
      | OracleMiss => (OracleMiss, at_idx s i' r' o')
      end.
  Proof.
    destruct (print_loop rest items ts Hren (S d) Hdepth) as (K0 & F0 & HL).
    exists (S (Nat.max K0 F0)). intros fuel Hf i r o Hskip.
    destruct (skipn_cons_nth _ _ _ _ Hskip) as [H0 Hs1].
    destruct fuel as [|f]; [lia|].
    destruct (HL f ltac:(lia) f ltac:(lia) _ false [] (S r) o Hs1) as (i' & r' & o' & Hrun & Hi & HW).
    exists i', r', o'. split; [exact HW|].
    rewrite (statement_head_quiet s toks Htoks f d i r o _ Htrace Hd H0).
    destruct Hhd as [->| ->]; unfold on_token, dispatch; rewrite print_is_pbody;
      (destruct (pden s items false []) as [[semi text]|er l|pp| |]; (erewrite bind_of_run by exact Hrun); try reflexivity);
      rewrite (Hi _ eq_refl); unfold push_output, modify; cbn [fst snd];
      replace (S i + length ts) with (i + 1 + length ts) by lia; reflexivity.
  Qed.
End PrintSim.

Fixpoint isize (items : list pitem) : nat :=
  match items with
  | [] => 0
  | PExpr e :: r => Nat.max (xsize e) (isize r)
  | _ :: r => isize r
  end.

Lemma ref_print_items F st s : same_store st s ->
  forall items mitems, tr_items items = Some mitems -> isize items <= F ->
  forall semi text,
  print_items F st items semi text =
  match pden s mitems semi text with
  | Ok st' => EOk st' st
  | Err er _ => EErr (rerr_of er) None
  | _ => EFuel
  end.
Proof.
  intros Hrel. induction items as [|it items IH]; intros mitems Htr HF semi text.
  - inversion Htr; subst. reflexivity.
  - destruct it as [e| |]; cbn [tr_items] in Htr; cbn [isize] in HF.
    + destruct (tr e) as [e'|] eqn:Ee; [|discriminate].
      destruct (tr_items items) as [r'|] eqn:Er; [|discriminate].
      inversion Htr; subst mitems. cbn [print_items pden]. unfold RefSem.ev.
      rewrite (ref_expr_is_den e e' st s F Ee (same_store_reads _ _ Hrel) ltac:(lia)).
      pose proof (den_plain s e e' Ee) as Hp.
      destruct (den s e') as [v|er l|pp| |]; cbn [conv plain] in *; try contradiction.
      * apply (IH r' eq_refl ltac:(lia)).
      * destruct er; try contradiction; destruct l; try contradiction; reflexivity.
    + destruct (tr_items items) as [r'|] eqn:Er; [|discriminate]. inversion Htr; subst mitems.
      cbn [print_items pden]. apply (IH r' eq_refl HF).
    + destruct (tr_items items) as [r'|] eqn:Er; [|discriminate]. inversion Htr; subst mitems.
      cbn [print_items pden]. apply (IH r' eq_refl HF).
Qed.

Lemma pden_plain s : forall items mitems, tr_items items = Some mitems ->
  forall semi text, match pden s mitems semi text with
                    | Ok _ => True
                    | Err ETypeMismatch None | Err EDivisionByZero None => True
                    | _ => False
                    end.
Proof.
  induction items as [|it items IH]; intros mitems Htr semi text.
  - inversion Htr; subst. exact I.
  - destruct it as [e| |]; cbn [tr_items] in Htr.
    + destruct (tr e) as [e'|] eqn:Ee; [|discriminate].
      destruct (tr_items items) as [r'|] eqn:Er; [|discriminate].
      inversion Htr; subst mitems. cbn [pden].
      pose proof (den_plain s e e' Ee) as Hp.
      destruct (den s e') as [v|er l|pp| |]; cbn [plain] in Hp; try contradiction; [apply (IH r' eq_refl)|exact Hp].
    + destruct (tr_items items) as [r'|] eqn:Er; [|discriminate]. inversion Htr; subst mitems.
      cbn [pden]. apply (IH r' eq_refl).
    + destruct (tr_items items) as [r'|] eqn:Er; [|discriminate]. inversion Htr; subst mitems.
      cbn [pden]. apply (IH r' eq_refl).
Qed.

(* PRINT: the reference appends one output record, the model pushes one Print record with
   the same text (behind any warnings); or both fail with the same error kind *)
Theorem print_statement_simulates s toks items mitems ts rest i p after li st d hd :
  fst (cur_tokens s) = Ok toks -> enable_tracing s = false ->
  hd = TPrint \/ hd = TQuestionMark ->
  skipn i toks = hd :: ts ++ rest ->
  tr_items items = Some mitems -> IRenders rest mitems ts ->
  Nat.eqb d max_nesting = false -> S d + idepth mitems < max_nesting ->
  same_store st s ->
  exists fuel0, forall fuel, fuel0 <= fuel -> forall r o,
    match exec (isize items) p (SPrint items) after li st with
    | Next pc st' =>
        pc = after /\
        exists text, st' = add_out text st /\
        exists s' ow r', evaluate_statement fuel d (at_idx s i r o) = (Ok tt, s')
          /\ W s o ow
          /\ s' = at_idx s (i + 1 + length ts) r' (ow ++ [OPrint text])
          /\ same_store st' s'
    | Fail er line st' =>
        line = line_no p li /\ st' = st /\
        exists ie l s', evaluate_statement fuel d (at_idx s i r o) = (Err ie l, s')
          /\ rerr_of ie = er /\ same_store st s'
    | Done _ | NoFuel => False
    end.
Proof.
  intros Htoks Htrace Hhd Hskip Htr Hren Hd Hdepth Hrel.
  destruct (model_print s toks Htoks mitems ts rest Htrace hd Hhd Hren d Hd Hdepth) as (f0 & Hm).
  exists f0. intros fuel Hf r o.
  destruct (Hm fuel Hf i r o Hskip) as (i' & r' & o' & HW & Hrun). clear Hm.
  cbn [exec].
  rewrite (ref_print_items (isize items) st s Hrel items mitems Htr (le_n _) false []).
  pose proof (pden_plain s items mitems Htr false []) as Hp.
  destruct (pden s mitems false []) as [[semi text]|er l|pp| |]; try contradiction.
  - split; [reflexivity|]. eexists. split; [reflexivity|].
    eexists _, o', r'. split; [exact Hrun|]. split; [exact HW|]. split; [reflexivity|].
    destruct Hrel as [Hf1 Hv1]. split; [exact Hf1 | exact Hv1].
  - destruct er; try contradiction; destruct l; try contradiction;
      (split; [reflexivity|]; split; [reflexivity|];
       eexists _, _, _; split; [exact Hrun|]; split; [reflexivity|];
       destruct Hrel as [Hf1 Hv1]; split; [exact Hf1 | exact Hv1]).
Qed.
