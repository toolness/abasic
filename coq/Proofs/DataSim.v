(* The DATA iterator as a position in the flat list of DATA items (C03: READ consumes DATA
   in line order, then statement order).  [data_next] walks chunks, one per DATA statement; the reference indexes a
   flat list; [dpos d] is the iterator's flat position.  [data_next_spec] also says that the
   iterator then stands in the chunk the item came from: where a DATA TYPE MISMATCH is
   reported. *)
From Coq Require Import List Lia.
From Abasic Require Import Model.Token Model.State.
Import ListNotations.
Local Open Scope nat_scope.

Lemma nth_error_Some_lt {A} (l : list A) i x : nth_error l i = Some x -> i < length l.
Proof. intros H. apply nth_error_Some. rewrite H. discriminate. Qed.

Definition chunk := (location * list data_elem)%type.

(* the items with the location of their DATA statement *)
Definition flatl (cs : list chunk) : list (data_elem * location) :=
  concat (map (fun c : chunk => map (fun e => (e, fst c)) (snd c)) cs).

Definition dpos (d : data_iter) : nat := length (flatl (firstn (di_ci d) (di_chunks d))) + di_ii d.

(* [<=]: standing behind the last item of a chunk is a resting state; the next call moves on *)
Definition wf_it (d : data_iter) : Prop :=
  match nth_error (di_chunks d) (di_ci d) with
  | Some (_, items) => di_ii d <= length items
  | None => di_ci d = length (di_chunks d) /\ di_ii d = 0
  end.

Lemma wf_it_start cs : wf_it (mkdi cs 0 0).
Proof. unfold wf_it. cbn. destruct cs as [|[l items] cs]; cbn; [split; reflexivity | lia]. Qed.

Lemma dpos_start cs : dpos (mkdi cs 0 0) = 0.
Proof. reflexivity. Qed.

Lemma flatl_app a b : flatl (a ++ b) = flatl a ++ flatl b.
Proof. unfold flatl. rewrite map_app, concat_app. reflexivity. Qed.

Lemma flatl_split cs ci l items :
  nth_error cs ci = Some (l, items) ->
  flatl cs = flatl (firstn ci cs) ++ map (fun e => (e, l)) items ++ flatl (skipn (S ci) cs).
Proof.
  intros H. rewrite <- (firstn_skipn ci cs) at 1. rewrite flatl_app. f_equal.
  assert (E : skipn ci cs = (l, items) :: skipn (S ci) cs).
  { clear -H. revert cs H. induction ci as [|ci IH]; intros [|c cs] H; cbn in *; try discriminate.
    - inversion H. reflexivity.
    - apply IH. exact H. }
  rewrite E. unfold flatl at 1. cbn [map concat fst snd]. reflexivity.
Qed.

Lemma firstn_S_snoc {A} (l : list A) i x : nth_error l i = Some x -> firstn (S i) l = firstn i l ++ [x].
Proof.
  revert l. induction i as [|i IH]; intros [|y l] H; cbn in *; try discriminate.
  - inversion H. reflexivity.
  - rewrite (IH l H). reflexivity.
Qed.

Theorem data_next_spec : forall fuel d,
  wf_it d -> length (di_chunks d) - di_ci d < fuel ->
  let '(r, d') := data_next fuel d in
  di_chunks d' = di_chunks d /\ wf_it d'
  /\ match nth_error (flatl (di_chunks d)) (dpos d) with
     | Some (e, l) => r = Some e /\ dpos d' = S (dpos d)
                      /\ exists items, nth_error (di_chunks d) (di_ci d') = Some (l, items)
     | None => r = None /\ dpos d' = dpos d
     end.
Proof.
  induction fuel as [|fuel IH]; intros d Hwf Hf; [lia|].
  cbn [data_next]. unfold wf_it in Hwf.
  destruct (nth_error (di_chunks d) (di_ci d)) as [[l items]|] eqn:Ec.
  - destruct (nth_error items (di_ii d)) as [e|] eqn:Ei.
    +
      cbn [di_chunks di_ci di_ii]. split; [reflexivity|]. split.
      { unfold wf_it. cbn [di_chunks di_ci di_ii]. rewrite Ec.
        apply nth_error_Some_lt in Ei. lia. }
      unfold dpos. cbn [di_chunks di_ci di_ii].
      rewrite (flatl_split _ _ _ _ Ec), nth_error_app2 by lia.
      replace (length (flatl (firstn (di_ci d) (di_chunks d))) + di_ii d - length (flatl (firstn (di_ci d) (di_chunks d))))
        with (di_ii d) by lia.
      rewrite nth_error_app1 by (rewrite map_length; apply nth_error_Some_lt in Ei; exact Ei).
      rewrite nth_error_map, Ei. cbn [option_map].
      split; [reflexivity|]. split; [lia|]. exists items. exact Ec.
    + (* this chunk is exhausted: on to the next *)
      assert (Hii : di_ii d = length items) by (apply nth_error_None in Ei; lia).
      set (d1 := mkdi (di_chunks d) (S (di_ci d)) 0).
      assert (Hlt : di_ci d < length (di_chunks d)) by (apply nth_error_Some_lt in Ec; exact Ec).
      assert (Hwf1 : wf_it d1).
      { unfold wf_it, d1. cbn [di_chunks di_ci di_ii].
        destruct (nth_error (di_chunks d) (S (di_ci d))) as [[l1 it1]|] eqn:E1; [lia|].
        apply nth_error_None in E1. split; [lia | reflexivity]. }
      assert (Hpos : dpos d1 = dpos d).
      { unfold dpos, d1. cbn [di_chunks di_ci di_ii].
        rewrite (firstn_S_snoc _ _ _ Ec), flatl_app, app_length. unfold flatl at 2. cbn [map concat fst snd].
        rewrite app_nil_r, map_length. lia. }
      specialize (IH d1 Hwf1). cbn [di_chunks di_ci] in IH. specialize (IH ltac:(unfold d1; cbn; lia)).
      destruct (data_next fuel d1) as [r d'].
      change (di_chunks d1) with (di_chunks d) in IH. rewrite Hpos in IH. exact IH.
  -
    destruct Hwf as [Hci Hii]. split; [reflexivity|]. split; [unfold wf_it; rewrite Ec; split; assumption|].
    assert (Hn : nth_error (flatl (di_chunks d)) (dpos d) = None).
    { apply nth_error_None. unfold dpos. rewrite Hci, Hii, firstn_all. lia. }
    rewrite Hn. split; reflexivity.
Qed.
