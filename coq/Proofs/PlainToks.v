(* Proofs/PlainToks.v — what an accepted expression is made of.
   Every token the checker consumes while it accepts an expression (or a
   variable reference with its subscripts) is an operand, an operator, a
   parenthesis or a comma: never a keyword, a colon, ELSE, INPUT ...
   ([exprtok]); and every token that a statement whose first token is not IF,
   DEF, ":" or ELSE consumes behind that first token is neither ELSE nor ":"
   ([plainT], [plain_head], [aplp_dispatch]). *)
From Coq Require Import List NArith ZArith Bool Lia.
From Abasic Require Import Model.Token Model.State Model.Eval Model.Analyzer Proofs.CheckSound.
Import ListNotations.
Local Open Scope nat_scope.

Definition exprtok (t : token) : bool :=
  match t with
  | TString _ | TNumber _ | TSymbol _ | TLeftParen | TRightParen | TComma
  | TPlus | TMinus | TMultiply | TDivide | TCaret
  | TEquals | TNotEquals | TLessThan | TLessThanOrEqualTo | TGreaterThan | TGreaterThanOrEqualTo
  | TAnd | TOr | TNot => true
  | _ => false
  end.

Definition line_of (s : interp) : list token :=
  match loc_line (loc s) with
  | None => immediate s
  | Some n => match toks_get n (st_toks s) with Some ts => ts | None => [] end
  end.

(* Tokens the interpreter's comparison identifies have the same constructor,
   and the token classes below look at the constructor only: by [token_tag]
   (Model/Token.v) 9 is ",", 11..26 the parentheses and the operators, 40..42
   names, strings and numbers; 29 is ELSE and 7 ":". *)
Lemma token_eqb_tag t u : token_eqb t u = true -> token_tag t = token_tag u.
Proof.
  intros H. destruct t;
    try (unfold token_eqb in H; apply andb_true_iff in H; destruct H as [H _]; now apply N.eqb_eq in H).
  all: destruct u; try reflexivity; discriminate H.
Qed.

Lemma exprtok_tag t :
  exprtok t = ((token_tag t =? 9) || (11 <=? token_tag t) && (token_tag t <=? 26)
               || (40 <=? token_tag t) && (token_tag t <=? 42))%N.
Proof. destruct t; reflexivity. Qed.

Lemma token_eqb_exprtok t u : token_eqb t u = true -> exprtok t = exprtok u.
Proof. intros H. now rewrite !exprtok_tag, (token_eqb_tag _ _ H). Qed.

Section Phi.
  (* the class of tokens: anything that contains the expression tokens and cannot
     tell two tokens apart that the interpreter's own token comparison identifies *)
  Variable phi : token -> bool.
  Hypothesis Hsub : forall t, exprtok t = true -> phi t = true.
  Hypothesis Hresp : forall t u, token_eqb t u = true -> phi t = phi u.

(* [s'] is [s] with the cursor moved forward over tokens of the class *)
Definition PL (s s' : interp) : Prop :=
  st_toks s' = st_toks s /\ immediate s' = immediate s /\ loc_line (loc s') = loc_line (loc s)
  /\ loc_idx (loc s) <= loc_idx (loc s')
  /\ forall q, loc_idx (loc s) <= q < loc_idx (loc s') -> exists t, nth_error (line_of s) q = Some t /\ phi t = true.

Lemma PL_refl s : PL s s.
Proof. repeat split; try reflexivity. intros q Hq. lia. Qed.

Lemma line_of_PL s s' : PL s s' -> line_of s' = line_of s.
Proof. intros (A1 & A2 & A3 & _). unfold line_of. rewrite A1, A2, A3. reflexivity. Qed.

Lemma PL_trans a b c : PL a b -> PL b c -> PL a c.
Proof.
  intros Hab Hbc. pose proof (line_of_PL _ _ Hab) as Hl.
  destruct Hab as (A1 & A2 & A3 & A4 & A5), Hbc as (B1 & B2 & B3 & B4 & B5).
  repeat split; try congruence; try lia.
  intros q Hq. destruct (Nat.lt_ge_cases q (loc_idx (loc b))) as [H|H].
  - apply A5. lia.
  - rewrite <- Hl. apply B5. lia.
Qed.

Lemma PL_same s s' : st_toks s' = st_toks s -> immediate s' = immediate s -> loc s' = loc s -> PL s s'.
Proof. intros H1 H2 H3. repeat split; try assumption; rewrite H3; try reflexivity. intros q Hq. lia. Qed.

Lemma PL_step s t : nth_error (line_of s) (loc_idx (loc s)) = Some t -> phi t = true ->
  PL s (set_loc (mkloc (loc_line (loc s)) (S (loc_idx (loc s)))) (set_reads (S (reads s)) s)).
Proof.
  intros Hn Ht. destruct s as [? ? ? [ln ix] ? ? ? ? ? ? ? ? ? ? ? ? ? ? ?]. cbn in *.
  repeat split; try reflexivity; cbn; try lia.
  intros q Hq. assert (q = ix) by lia. subst q. exists t. split; assumption.
Qed.

Definition mpl {A} (m : M A) : Prop := forall s x s', m s = (Ok x, s') -> PL s s'.

Lemma peek_spec s x s' : peek_next_token s = (Ok x, s') ->
  x = nth_error (line_of s) (loc_idx (loc s)) /\ s' = set_reads (S (reads s)) s.
Proof.
  unfold peek_next_token, cur_tokens, tokens_for_line, line_of, bind, get, modify, ret. cbn.
  destruct (loc_line (loc s)) as [n|]; [destruct (toks_get n (st_toks s))|]; intros E; try discriminate E;
    injection E as <- <-; split; reflexivity.
Qed.

Lemma mpl_peek : mpl peek_next_token.
Proof. intros s x s' E. destruct (peek_spec _ _ _ E) as [_ ->]. apply PL_same; destruct s; reflexivity. Qed.

Lemma mpl_peek_is t : mpl (peek_is t).
Proof.
  intros s x s' E. unfold peek_is, bind in E. destruct (peek_next_token s) as [[y|? ?|?| |] s1] eqn:Ep; try discriminate E.
  injection E as _ <-. exact (mpl_peek _ _ _ Ep).
Qed.

Lemma next_token_spec s x s' : next_token s = (Ok x, s') ->
  match x with
  | Some t => nth_error (line_of s) (loc_idx (loc s)) = Some t
              /\ s' = set_loc (mkloc (loc_line (loc s)) (S (loc_idx (loc s)))) (set_reads (S (reads s)) s)
  | None => s' = set_reads (S (reads s)) s
  end.
Proof.
  unfold next_token, bind. destruct (peek_next_token s) as [[y|? ?|?| |] s1] eqn:Ep; try discriminate.
  destruct (peek_spec _ _ _ Ep) as [-> ->].
  destruct (nth_error (line_of s) (loc_idx (loc s))) as [t|] eqn:Et.
  - unfold advance, modify, ret. cbn. intros E. injection E as <- <-. split; [reflexivity | destruct s; reflexivity].
  - unfold ret. intros E. injection E as <- <-. reflexivity.
Qed.

Lemma mpl_expect u : phi u = true -> mpl (expect_next_token u).
Proof.
  intros Hu s x s' E. unfold expect_next_token, next_unwrapped_token, bind in E.
  destruct (next_token s) as [[y|? ?|?| |] s1] eqn:En; try discriminate E.
  pose proof (next_token_spec _ _ _ En) as Hs. destruct y as [t|].
  - destruct Hs as [Ht ->]. unfold ret in E. destruct (token_eqb t u) eqn:Eq; [|discriminate E].
    injection E as _ <-. apply (PL_step s t Ht). rewrite (Hresp _ _ Eq). exact Hu.
  - cbn in E. discriminate E.
Qed.

Lemma mpl_accept u : phi u = true -> mpl (accept_next_token u).
Proof.
  intros Hu s x s' E. unfold accept_next_token, bind in E.
  destruct (peek_next_token s) as [[y|? ?|?| |] s1] eqn:Ep; try discriminate E.
  destruct (peek_spec _ _ _ Ep) as [-> ->].
  destruct (nth_error (line_of s) (loc_idx (loc s))) as [t|] eqn:Et.
  - destruct (token_eqb t u) eqn:Eq.
    + unfold advance, modify, ret in E. cbn in E. injection E as _ <-.
      replace (set_loc _ _) with (set_loc (mkloc (loc_line (loc s)) (S (loc_idx (loc s)))) (set_reads (S (reads s)) s))
        by (destruct s; reflexivity).
      apply (PL_step s t Et). rewrite (Hresp _ _ Eq). exact Hu.
    + injection E as _ <-. apply PL_same; destruct s; reflexivity.
  - injection E as _ <-. apply PL_same; destruct s; reflexivity.
Qed.

Lemma mpl_try {B} (g : token -> option B) : (forall t b, g t = Some b -> phi t = true) -> mpl (try_next_token g).
Proof.
  intros Hg s x s' E. unfold try_next_token, bind in E.
  destruct (peek_next_token s) as [[y|? ?|?| |] s1] eqn:Ep; try discriminate E.
  destruct (peek_spec _ _ _ Ep) as [-> ->].
  destruct (nth_error (line_of s) (loc_idx (loc s))) as [t|] eqn:Et.
  - destruct (g t) as [b|] eqn:Eg.
    + unfold advance, modify, ret in E. cbn in E. injection E as _ <-.
      replace (set_loc _ _) with (set_loc (mkloc (loc_line (loc s)) (S (loc_idx (loc s)))) (set_reads (S (reads s)) s))
        by (destruct s; reflexivity).
      apply (PL_step s t Et). exact (Hg t b Eg).
    + injection E as _ <-. apply PL_same; destruct s; reflexivity.
  - injection E as _ <-. apply PL_same; destruct s; reflexivity.
Qed.

Lemma unary_exprtok t b : unary_of_token t = Some b -> phi t = true.
Proof. intros H. apply Hsub. destruct t; cbn in *; try discriminate H; reflexivity. Qed.
Lemma muldiv_exprtok t b : muldiv_of_token t = Some b -> phi t = true.
Proof. intros H. apply Hsub. destruct t; cbn in *; try discriminate H; reflexivity. Qed.
Lemma addsub_exprtok t b : addsub_of_token t = Some b -> phi t = true.
Proof. intros H. apply Hsub. destruct t; cbn in *; try discriminate H; reflexivity. Qed.
Lemma eq_exprtok t b : eq_of_token t = Some b -> phi t = true.
Proof. intros H. apply Hsub. destruct t; cbn in *; try discriminate H; reflexivity. Qed.

Definition apl {A} (a : MA A) : Prop := forall st x st', a st = (Ok x, st') -> PL (fst st) (fst st').

Lemma apl_ret {A} (x : A) : apl (aret x).
Proof. intros st y st' E. injection E as _ <-. apply PL_refl. Qed.
Lemma apl_fail {A} e : apl (@afail A e).
Proof. intros st y st' E. discriminate E. Qed.
Lemma apl_log sym l w : apl (log_access sym l w).
Proof. intros st y st' E. unfold log_access in E. injection E as _ <-. apply PL_refl. Qed.
Lemma apl_lift {A} (m : M A) : mpl m -> apl (lift m).
Proof.
  intros H st x st' E. unfold lift in E. destruct (m (fst st)) as [r p] eqn:Em. injection E as -> <-. exact (H _ _ _ Em).
Qed.
Lemma apl_bind {A B} (m : MA A) (f : A -> MA B) : apl m -> (forall x, apl (f x)) -> apl (abind m f).
Proof.
  intros Hm Hf st y st' E. unfold abind in E. destruct (m st) as [[x|? ?|?| |] st1] eqn:Em; try discriminate E.
  eapply PL_trans; [exact (Hm _ _ _ Em) | exact (Hf x _ _ _ E)].
Qed.
Lemma apl_repeat {S R} n (body : S -> MA (S + R)) : (forall acc, apl (body acc)) -> forall acc, apl (arepeat n body acc).
Proof.
  intros Hb. induction n as [|n IH]; intros acc; cbn [arepeat]; [intros st y st' E; discriminate E|].
  apply apl_bind; [apply Hb|]. intros [a|r]; [apply IH | apply apl_ret].
Qed.
Lemma apl_get {A} (f : interp -> A) : apl (lift (get f)).
Proof. apply apl_lift. intros s x s' E. injection E as _ <-. apply PL_refl. Qed.
Lemma apl_check t e : apl (check t e).
Proof. unfold check. destruct (vtype_eqb t e); [apply apl_ret | apply apl_fail]. Qed.
Lemma apl_prev_loc : apl prev_loc.
Proof. unfold prev_loc, aget_loc. apply apl_bind; [apply apl_get | intro; apply apl_ret]. Qed.

Lemma mpl_reset_data : mpl reset_data_cursor.
Proof. intros s x s' E. injection E as _ <-. apply PL_same; reflexivity. Qed.

End Phi.

(* [side] settles which token a step expects (Hresp, and that the token is in the class);
   the [idtac;] that opens a leaf keeps it from running before it is passed on *)
Ltac apl_step side leaf :=
  lazymatch goal with
  | |- apl _ (aret _) => apply apl_ret
  | |- apl _ (afail _) => apply apl_fail
  | |- apl _ (log_access _ _ _) => apply apl_log
  | |- apl _ (check _ _) => apply apl_check
  | |- apl _ (check_number _) => apply apl_check
  | |- apl _ prev_loc => apply apl_prev_loc
  | |- apl _ (lift (get _)) => apply apl_get
  | |- apl _ (lift (peek_is _)) => apply apl_lift, mpl_peek_is
  | |- apl _ (lift peek_next_token) => apply apl_lift, mpl_peek
  | |- apl _ (lift (expect_next_token _)) => apply apl_lift, mpl_expect; side
  | |- apl _ (lift (accept_next_token _)) => apply apl_lift, mpl_accept; side
  | |- apl _ (lift reset_data_cursor) => apply apl_lift, mpl_reset_data
  | |- apl _ (abind _ _) => apply apl_bind; [| intro]
  | |- apl _ (arepeat _ _ _) => apply apl_repeat; intro
  | |- apl _ (match ?x with _ => _ end) => destruct x
  | |- apl _ (if ?b then _ else _) => destruct b
  | |- apl _ _ => solve [leaf]
  end.
Ltac apl_walk side leaf := repeat (apl_step side leaf).

Section PhiExpr.
  Variable phi : token -> bool.
  Hypothesis Hsub : forall t, exprtok t = true -> phi t = true.
  Hypothesis Hresp : forall t u, token_eqb t u = true -> phi t = phi u.
  Local Notation apl := (apl phi).
  Local Notation PL := (PL phi).

  Ltac ewalk leaf := apl_walk ltac:(first [exact Hresp | apply Hsub; reflexivity]) leaf.

Section APlainExpr.
  Variable fuel : nat.
  Variable rec : MA vtype.
  Hypothesis Hrec : apl rec.

  Ltac leaf := idtac; lazymatch goal with |- apl rec => exact Hrec end.

  Lemma apl_array_index : apl (an_array_index fuel rec).
  Proof. unfold an_array_index. ewalk leaf. Qed.

  Lemma apl_unary_arg : apl (an_unary_number_function_arg rec).
  Proof. unfold an_unary_number_function_arg. ewalk leaf. Qed.

  Lemma apl_check_arguments args : forall i n, apl (an_check_arguments rec args i n).
  Proof.
    induction args as [|a args IH]; intros i n; cbn [an_check_arguments]; [apply apl_ret|].
    ewalk ltac:(idtac; lazymatch goal with |- apl (an_check_arguments _ _ _ _) => apply IH | _ => leaf end).
  Qed.

  Lemma apl_function_call name l : apl (an_function_call rec name l).
  Proof.
    unfold an_function_call, an_user_function_call.
    ewalk ltac:(idtac; lazymatch goal with
                          | |- apl (an_unary_number_function_arg _) => apply apl_unary_arg
                          | |- apl (an_check_arguments _ _ _ _) => apply apl_check_arguments
                          | _ => leaf end).
  Qed.

  (* by hand, as [apl_parse_lvalue] and [aplp_print] below: the first token is consumed before it is known to be of
     the class; that it is shows only in the branch taken on it, the others fail *)
  Lemma apl_term : apl (an_term fuel rec).
  Proof.
    intros st x st' E. unfold an_term in E. unfold abind at 1 in E. unfold lift at 1 in E.
    destruct (next_unwrapped_token (fst st)) as [[t|? ?|?| |] p1] eqn:En; try discriminate E.
    assert (H1 : phi t = true -> PL (fst st) p1).
    { intros Ht. unfold next_unwrapped_token, bind in En.
      destruct (next_token (fst st)) as [[y|? ?|?| |] s1] eqn:En2; try discriminate En.
      pose proof (next_token_spec _ _ _ En2) as Hs. destruct y as [t0|]; [|cbn in En; discriminate En].
      destruct Hs as [Ht0 ->]. unfold ret in En. injection En as <- <-. exact (PL_step phi _ _ Ht0 Ht). }
    cbn [fst snd] in E.
    destruct t; try discriminate E.
    - eapply PL_trans; [apply H1; apply Hsub; reflexivity|].
      refine ((_ : apl (l <-- prev_loc ;; p <-- lift (peek_is TLeftParen) ;; _)) (p1, snd st) x st' E).
      ewalk ltac:(idtac; lazymatch goal with
                            | |- apl (an_function_call _ _ _) => apply apl_function_call
                            | |- apl (an_array_index _ _) => apply apl_array_index
                            | _ => leaf end).
    - unfold aret in E. injection E as _ <-. apply H1. apply Hsub. reflexivity.
    - unfold aret in E. injection E as _ <-. apply H1. apply Hsub. reflexivity.
  Qed.

  Lemma apl_paren : apl (an_paren fuel rec).
  Proof.
    unfold an_paren. ewalk ltac:(idtac; lazymatch goal with |- apl (an_term _ _) => apply apl_term | _ => leaf end).
  Qed.

  Lemma apl_unary : apl (an_unary fuel rec).
  Proof.
    unfold an_unary. apply apl_bind; [apply apl_lift, mpl_try, unary_exprtok, Hsub|]. intro.
    ewalk ltac:(idtac; lazymatch goal with |- apl (an_paren _ _) => apply apl_paren | _ => leaf end).
  Qed.

  Lemma apl_tier {O} (get_op : MA (option O)) operand step :
    apl get_op -> apl operand -> (forall a b, apl (step a b)) -> apl (an_tier fuel get_op operand step).
  Proof.
    intros H1 H2 H3. unfold an_tier.
    ewalk ltac:(first [exact H1 | exact H2 | apply H3]).
  Qed.

  Lemma apl_accept_as t : phi t = true -> apl (an_accept_as t).
  Proof. intros Ht. unfold an_accept_as. apply apl_bind; [apply apl_lift, mpl_accept; [exact Hresp | exact Ht] | intro; apply apl_ret]. Qed.

  Lemma apl_or : apl (an_or fuel rec).
  Proof.
    unfold an_or, an_and, an_equality, an_addsub, an_muldiv, an_exponent.
    apply apl_tier; [apply apl_accept_as; apply Hsub; reflexivity | | intros; apply apl_ret].
    apply apl_tier; [apply apl_accept_as; apply Hsub; reflexivity | | intros; apply apl_ret].
    apply apl_tier; [apply apl_lift, mpl_try, eq_exprtok, Hsub | | intros; ewalk leaf].
    apply apl_tier; [apply apl_lift, mpl_try, addsub_exprtok, Hsub | | intros; unfold both_numbers; ewalk leaf].
    apply apl_tier; [apply apl_lift, mpl_try, muldiv_exprtok, Hsub | | intros; unfold both_numbers; ewalk leaf].
    apply apl_tier; [apply apl_accept_as; apply Hsub; reflexivity | apply apl_unary | intros; unfold both_numbers; ewalk leaf].
  Qed.
End APlainExpr.

Theorem apl_analyze_expression fuel : forall n, apl (analyze_expression fuel n).
Proof.
  induction fuel as [|k IH]; intros n; cbn [analyze_expression]; [intros st x st' E; discriminate E|].
  destruct (Nat.eqb n max_nesting); [apply apl_fail|]. apply apl_or, IH.
Qed.

Lemma apl_optional_index fuel nest : apl (an_optional_array_index fuel nest).
Proof.
  unfold an_optional_array_index, aexpr.
  ewalk ltac:(idtac; lazymatch goal with |- apl (an_array_index _ _) => apply apl_array_index, apl_analyze_expression end).
Qed.

Lemma apl_parse_lvalue fuel nest : apl (an_parse_lvalue fuel nest).
Proof.
  intros st x st' E. unfold an_parse_lvalue in E. unfold abind at 1 in E. unfold lift at 1 in E.
  destruct (next_token (fst st)) as [[t|? ?|?| |] p1] eqn:En; try discriminate E. cbn [fst snd] in E.
  pose proof (next_token_spec _ _ _ En) as Hs.
  destruct t as [t|]; [|discriminate E]. destruct Hs as [Ht ->].
  destruct t; try discriminate E.
  eapply PL_trans; [apply (PL_step phi _ _ Ht); apply Hsub; reflexivity|].
  refine ((_ : apl (l <-- prev_loc ;; ar <-- an_optional_array_index fuel nest ;; _)) (_, snd st) x st' E).
  ewalk ltac:(idtac; lazymatch goal with |- apl (an_optional_array_index _ _) => apply apl_optional_index end).
Qed.

End PhiExpr.

(* statements: everything a non-branching statement consumes is neither ELSE nor ":" *)
Definition plainT (t : token) : bool := match t with TElse | TColon => false | _ => true end.

Lemma plainT_sub t : exprtok t = true -> plainT t = true.
Proof. destruct t; cbn; intros H; try reflexivity; discriminate H. Qed.
Lemma plainT_tag t : plainT t = negb ((token_tag t =? 29) || (token_tag t =? 7))%N.
Proof. destruct t; reflexivity. Qed.

Lemma plainT_resp t u : token_eqb t u = true -> plainT t = plainT u.
Proof. intros H. now rewrite !plainT_tag, (token_eqb_tag _ _ H). Qed.

Notation PLp := (PL plainT).
Notation aplp := (apl plainT).

Ltac pwalk leaf := apl_walk ltac:(first [exact plainT_resp | reflexivity]) leaf.

Lemma apl_next_token_then {A} (k : option token -> MA A) :
  (forall t, aplp (k (Some t))) -> fails (k (Some TElse)) -> fails (k (Some TColon)) ->
  aplp (k None) ->
  aplp (t <-- lift next_token ;; k t).
Proof.
  intros Hk Helse Hcolon Hnone st x st' E. unfold abind at 1 in E. unfold lift at 1 in E.
  assert (Hbad : forall t, plainT t = false -> fails (k (Some t)))
    by (intros t Hp; destruct t; try discriminate Hp; assumption).
  destruct (next_token (fst st)) as [[t|? ?|?| |] p1] eqn:En; try discriminate E. cbn [fst snd] in E.
  pose proof (next_token_spec _ _ _ En) as Hs. destruct t as [t|].
  - destruct Hs as [Ht ->]. destruct (plainT t) eqn:Ep.
    + eapply PL_trans; [apply (PL_step plainT _ _ Ht Ep)|]. exact (Hk t _ _ _ E).
    + exfalso. pose proof (Hbad t Ep (set_loc (mkloc (loc_line (loc (fst st))) (S (loc_idx (loc (fst st))))) (set_reads (S (reads (fst st))) (fst st)), snd st)) as Hb.
      rewrite E in Hb. exact Hb.
  - subst p1. eapply PL_trans; [|exact (Hnone _ _ _ E)]. apply PL_same; destruct (fst st); reflexivity.
Qed.

Lemma aplp_head {A} (k : option token -> MA A) e1 e2 e3 :
  (forall t, aplp (k (Some t))) -> k (Some TElse) = afail e1 -> k (Some TColon) = afail e2 -> k None = afail e3 ->
  aplp (t <-- lift next_token ;; k t).
Proof.
  intros Hk E1 E2 E3. apply apl_next_token_then; [exact Hk | | | rewrite E3; apply apl_fail];
    intros st; rewrite ?E1, ?E2; exact I.
Qed.

Section PlainStmt.
  Variable fuel nest : nat.

  Ltac sleaf :=
    idtac;
    lazymatch goal with
    | |- apl _ (aexpr _ _) => apply (apl_analyze_expression plainT plainT_sub plainT_resp)
    | |- apl _ (analyze_expression _ _) => apply (apl_analyze_expression plainT plainT_sub plainT_resp)
    | |- apl _ (an_optional_array_index _ _) => apply (apl_optional_index plainT plainT_sub plainT_resp)
    | |- apl _ (an_parse_lvalue _ _) => apply (apl_parse_lvalue plainT plainT_sub plainT_resp)
    end.

  Lemma aplp_assign lv t : aplp (an_assign lv t).
  Proof. unfold an_assign. pwalk sleaf. Qed.

  Lemma aplp_assignment sym : aplp (an_assignment fuel nest sym).
  Proof.
    unfold an_assignment.
    pwalk ltac:(idtac; lazymatch goal with |- apl _ (an_assign _ _) => apply aplp_assign | _ => sleaf end).
  Qed.

  Lemma aplp_let : aplp (an_let fuel nest).
  Proof.
    unfold an_let. eapply aplp_head; try reflexivity.
    intros t. destruct t; try apply apl_fail. apply aplp_assignment.
  Qed.

  Lemma aplp_dim : aplp (an_dim fuel nest).
  Proof. unfold an_dim. pwalk sleaf. Qed.

  Lemma aplp_input : aplp (an_input fuel nest).
  Proof. unfold an_input. pwalk sleaf. Qed.

  Lemma aplp_read : aplp (an_read fuel nest).
  Proof.
    unfold an_read.
    pwalk ltac:(idtac; lazymatch goal with |- apl _ (an_assign _ _) => apply aplp_assign | _ => sleaf end).
  Qed.

  Lemma aplp_for : aplp (an_for fuel nest).
  Proof.
    unfold an_for. eapply aplp_head; try reflexivity.
    intros t. destruct t; try apply apl_fail. pwalk sleaf.
  Qed.

  Lemma aplp_next : aplp an_next.
  Proof.
    unfold an_next. eapply aplp_head; try reflexivity.
    intros t. destruct t; try apply apl_fail. pwalk sleaf.
  Qed.

  Lemma aplp_goto_or_gosub : aplp an_goto_or_gosub.
  Proof.
    unfold an_goto_or_gosub. eapply aplp_head; try reflexivity.
    intros t. destruct t; try apply apl_fail. pwalk sleaf.
  Qed.

  (* PRINT: ";" and "," are consumed after they were seen *)
  Lemma aplp_print : aplp (an_print fuel nest).
  Proof.
    unfold an_print. apply apl_repeat. intros [] st x st' E.
    unfold abind at 1 in E. unfold lift at 1 in E.
    destruct (peek_next_token (fst st)) as [[t|? ?|?| |] p1] eqn:Ep; try discriminate E. cbn [fst snd] in E.
    destruct (peek_spec _ _ _ Ep) as [-> ->].
    set (s1 := set_reads (S (reads (fst st))) (fst st)) in *.
    assert (H1 : PLp (fst st) s1) by (apply PL_same; destruct (fst st); reflexivity).
    assert (Hsame : nth_error (line_of s1) (loc_idx (loc s1)) = nth_error (line_of (fst st)) (loc_idx (loc (fst st))))
      by (destruct (fst st); reflexivity).
    assert (Hnext : forall (y : unit + unit) st2, (lift next_token ;;;; aret (@inl unit unit tt)) (s1, snd st) = (Ok y, st2) ->
              forall t0, nth_error (line_of (fst st)) (loc_idx (loc (fst st))) = Some t0 -> plainT t0 = true -> PLp s1 (fst st2)).
    { intros y st2 E2 t0 Ht0 Hp0. unfold abind, lift in E2. cbn [fst snd] in E2.
      destruct (next_token s1) as [[u|? ?|?| |] p2] eqn:En; try discriminate E2.
      pose proof (next_token_spec _ _ _ En) as Hs. rewrite Hsame, Ht0 in Hs.
      destruct u as [u|]; [|unfold aret in E2; injection E2 as _ <-; subst p2; apply PL_same; destruct s1; reflexivity].
      destruct Hs as [Hu ->]. unfold aret in E2. injection E2 as _ <-. cbn [fst].
      apply (PL_step plainT s1 u); [rewrite Hsame, Ht0; exact Hu|]. injection Hu as <-. exact Hp0. }
    destruct (nth_error (line_of (fst st)) (loc_idx (loc (fst st)))) as [t|] eqn:Et.
    - destruct t;
        try (unfold aret in E; injection E as _ <-; exact H1);
        try (eapply PL_trans; [exact H1|]; exact (Hnext _ _ E _ eq_refl eq_refl));
        (eapply PL_trans; [exact H1|];
         refine ((_ : aplp (aexpr fuel nest ;;;; aret (@inl unit unit tt))) (s1, snd st) x st' E); pwalk sleaf).
    - unfold aret in E. injection E as _ <-. exact H1.
  Qed.

  Definition plain_head (t : option token) : bool :=
    match t with
    | Some (TIf | TDef | TColon | TElse) => false
    | _ => true
    end.

  Lemma aplp_dispatch arec t : plain_head t = true -> aplp (adispatch fuel nest arec t).
  Proof.
    intros H. destruct t as [t|]; [destruct t; try discriminate H|]; cbn [adispatch];
      first [ apply apl_ret | apply apl_fail | apply aplp_dim | apply aplp_input | apply aplp_print | apply aplp_goto_or_gosub | apply aplp_for
            | apply aplp_next | apply aplp_read | apply aplp_let | apply aplp_assignment
            | pwalk sleaf ].
  Qed.
End PlainStmt.
