(* Proofs/FlagsSim.v — property C17: tracing and warnings are transparent;
   and what other two-run and per-call arguments share with it: the two-run
   walk for any relation that is a congruence for the state's interface
   ([rel2R], [congruence], [r2_*]; Proofs/StoreExt.v is its other instance), one
   host call before rendering ([call_obs], [step_is_call_obs], used by
   BreakCont and C07), histories ([history_rel]).

   A two-run simulation: two interpreter states that agree on everything
   except the two flags and the Trace/Warning records waiting in the output
   queue ([sim]) stay so related under every primitive, evaluator and host
   call, and every such computation returns the same result in both runs
   ([respects]).  Lifted to [step] and to whole host-call histories, this says
   that the four flag configurations produce the same printed output, input
   requests, errors and final state; only Trace/Warning records differ. *)
From Coq Require Import List NArith Bool.
From Abasic Require Import Model.Bytes Model.Token Model.State Model.Eval Model.Interp Proofs.Monad Proofs.StoreProofs
     Proofs.Safety.
Import ListNotations.

(* Two runs related by an arbitrary relation [R] on states: equal results,
   related final states ([rel2R]; [respR] for one computation run twice).  The
   rules of the monad need nothing of [R].  If [R] is a congruence for the
   interface the evaluators use ([congruence]: what they read of the state is
   the same in related states, every update they make keeps states related)
   and the blocks that depend on a flag respect [R] ([flags_ok]), then every
   primitive of Model/State.v, every evaluator of Model/Eval.v and every host
   call of Model/Interp.v respects [R]: the lemmas [r2_*], one per definition.
   [sim] below and the [sim] of Proofs/StoreExt.v are the two instances. *)

Create HintDb r2 discriminated.

Section Rel.
  Variable R : interp -> interp -> Prop.

  Definition rel2R {A} (m1 m2 : M A) : Prop :=
    forall s t, R s t -> fst (m1 s) = fst (m2 t) /\ R (snd (m1 s)) (snd (m2 t)).

  Definition respR {A} (m : M A) : Prop := rel2R m m.

  (* an observation that related states share; an update that keeps states related *)
  Definition agrees {A} (f : interp -> A) : Prop := forall s t, R s t -> f s = f t.
  Definition lifts (f : interp -> interp) : Prop := forall s t, R s t -> R (f s) (f t).

  Lemma lifts_app f s t : lifts f -> R s t -> R (f s) (f t).
  Proof. intros Hf; apply Hf. Qed.

  (* ret, fail, fail_at, panic, out_of_fuel, oracle_miss, lift_res *)
  Lemma respR_pure {A} (r : res A) : respR (fun s => (r, s)).
  Proof. intros s t H; split; [reflexivity|exact H]. Qed.

  Lemma respR_get {A} (f : interp -> A) : agrees f -> respR (get f).
  Proof. intros Hf s t H; unfold get; cbn [fst snd]. split; [rewrite (Hf s t H); reflexivity|exact H]. Qed.

  Lemma respR_modify f : lifts f -> respR (modify f).
  Proof. intros Hf s t H; split; [reflexivity|apply Hf; exact H]. Qed.

  Lemma rel2R_bind {A B} (m1 m2 : M A) (f1 f2 : A -> M B) :
    rel2R m1 m2 -> (forall a, rel2R (f1 a) (f2 a)) -> rel2R (bind m1 f1) (bind m2 f2).
  Proof.
    intros Hm Hf s t H. destruct (Hm s t H) as [E S]. unfold bind.
    destruct (m1 s) as [[a|e l|p| |] s1]; destruct (m2 t) as [[a'|e' l'|p'| |] t1];
      cbn [fst snd] in E, S |- *; try discriminate E.
    - injection E as ->. apply Hf; exact S.
    - injection E as -> ->. split; [reflexivity|exact S].
    - injection E as ->. split; [reflexivity|exact S].
    - split; [reflexivity|exact S].
    - split; [reflexivity|exact S].
  Qed.

  Lemma respR_repeat {S T} n (body : S -> M (S + T)) :
    (forall acc, respR (body acc)) -> forall acc, respR (repeat_m n body acc).
  Proof.
    intros Hb. induction n as [|n IH]; intros acc; cbn [repeat_m].
    - apply respR_pure.
    - apply rel2R_bind; [apply Hb|]. intros [acc'|r]; [apply IH | apply respR_pure].
  Qed.

  Lemma respR_bind {A B} (m : M A) (f : A -> M B) : respR m -> (forall a, respR (f a)) -> respR (bind m f).
  Proof. apply rel2R_bind. Qed.

  (* what the evaluators read of the state; the program store, which they see through these
     lookups only; what they write.  The output queue is not among the reads (under [sim] below the
     two queues differ), so the one update whose value depends on it, appending, is a field of its
     own ([cg_push]) and not a read followed by [set_outputs] *)
  Record congruence : Prop := {
    cg_loc : agrees loc;
    cg_breakpoint : agrees breakpoint;
    cg_stack : agrees stack;
    cg_loops : agrees loops;
    cg_data_it : agrees data_it;
    cg_functions : agrees functions;
    cg_input : agrees input;
    cg_state : agrees state;
    cg_rng : agrees rng;
    cg_variables : agrees variables;
    cg_arrays : agrees arrays;
    cg_pow_oracle : agrees pow_oracle;
    cg_reads : agrees reads;
    cg_tokens_for_line : forall l, respR (tokens_for_line l);
    cg_store_has : forall n, agrees (store_has n);
    cg_store_after : forall n, agrees (store_after n);
    cg_store_first : agrees store_first;
    cg_data_chunks : agrees (fun s => data_chunks (st_keys s) (st_toks s));
    cg_list_lines : agrees (fun s => list_lines (st_keys s) (st_toks s));
    cg_set_immediate : forall v, lifts (set_immediate v);
    cg_set_loc : forall v, lifts (set_loc v);
    cg_set_breakpoint : forall v, lifts (set_breakpoint v);
    cg_set_stack : forall v, lifts (set_stack v);
    cg_set_loops : forall v, lifts (set_loops v);
    cg_set_data_it : forall v, lifts (set_data_it v);
    cg_set_functions : forall v, lifts (set_functions v);
    cg_set_input : forall v, lifts (set_input v);
    cg_set_state : forall v, lifts (set_state v);
    cg_set_rng : forall v, lifts (set_rng v);
    cg_set_variables : forall v, lifts (set_variables v);
    cg_set_arrays : forall v, lifts (set_arrays v);
    cg_set_reads : forall v, lifts (set_reads v);
    cg_store_set : forall n v, lifts (store_set n v);
    cg_push : forall l, lifts (fun s => set_outputs (outputs s ++ l) s) }.

  (* the five places where a flag is read: the two warnings of Model/State.v, the warning of a
     plain variable read in [expression_term], the trace block at the head of
     [evaluate_statement_body] (each with what follows it), TRACE / NOTRACE in [process_command] *)
  Record flags_ok : Prop := {
    fl_warn : forall msg, respR (warn msg);
    fl_maybe_warn : forall name, respR (maybe_warn_undeclared_array name);
    fl_variable : forall sym B (k : M B), respR k ->
      respR (w <- get enable_warnings ;;
             vs <- get variables ;;
             (if w && negb (alist_has sym vs)
              then warn (bs "Use of undeclared variable '" ++ sym ++ bs "'.")
              else ret tt) ;;;
             k);
    fl_traced : forall B (k : M B), respR k ->
      respR (tr <- get enable_tracing ;;
             (if tr then
                l <- get_line_number ;;
                match l with Some n => push_output (OTrace n) | None => ret tt end
              else ret tt) ;;;
             k);
    fl_set_tracing : forall b, lifts (fun s => set_flags (enable_warnings s) b s) }.

  Hypothesis C : congruence.

  Hint Resolve cg_loc cg_breakpoint cg_stack cg_loops cg_data_it cg_functions cg_input cg_state cg_rng
    cg_variables cg_arrays cg_pow_oracle cg_reads cg_tokens_for_line cg_store_has cg_store_after
    cg_store_first cg_data_chunks cg_list_lines cg_set_immediate cg_set_loc cg_set_breakpoint cg_set_stack
    cg_set_loops cg_set_data_it cg_set_functions cg_set_input cg_set_state cg_set_rng cg_set_variables
    cg_set_arrays cg_set_reads cg_store_set cg_push fl_warn fl_maybe_warn fl_set_tracing : r2.

  Ltac r2leaf := solve [auto with r2 nocore].

  (* [lifts f] for [f] made of setters whose arguments read the state: what the second state reads
     is what the first reads, then the setters lift one by one *)
  Ltac r2lift :=
    let H := fresh "H" in
    intros ?s ?t H; cbv beta zeta;
    rewrite <- ?(cg_reads C _ _ H), <- ?(cg_loc C _ _ H), <- ?(cg_breakpoint C _ _ H),
      <- ?(cg_variables C _ _ H), <- ?(cg_loops C _ _ H), <- ?(cg_stack C _ _ H),
      <- ?(cg_functions C _ _ H), <- ?(cg_arrays C _ _ H), <- ?(cg_rng C _ _ H),
      <- ?(cg_store_first C _ _ H);
    repeat match goal with |- context [match ?x with _ => _ end] => destruct x end;
    repeat (apply lifts_app; [r2leaf|]); exact H.

  (* one step of the walk, chosen by the head of the computation; a defined computation is a leaf,
     found in [r2] *)
  Ltac r2step :=
    lazymatch goal with
    | |- respR (ret _) => apply respR_pure
    | |- respR (fail _) => apply respR_pure
    | |- respR (fail_at _ _) => apply respR_pure
    | |- respR (panic _) => apply respR_pure
    | |- respR out_of_fuel => apply respR_pure
    | |- respR oracle_miss => apply respR_pure
    | |- respR (lift_res _) => apply respR_pure
    | |- respR (bind _ _) => apply respR_bind; [| intro]
    | |- respR (repeat_m _ _ _) => apply respR_repeat; intro
    | |- respR (get _) => apply respR_get; r2leaf
    | |- respR (modify _) => apply respR_modify; first [r2leaf | r2lift]
    | |- respR (fun s => (_, s)) => apply respR_pure
    | |- respR (if ?b then _ else _) => destruct b
    | |- respR (let '(_, _) := ?x in _) => destruct x
    | |- ?P (match ?x with _ => _ end) => case_scrutinee P x
    | |- respR _ => r2leaf
    end.

  Ltac walk := repeat r2step.
  Ltac uwalk := unfold_head; walk.

  Lemma r2_cur_tokens : respR cur_tokens. Proof. uwalk. Qed.
  Hint Resolve r2_cur_tokens : r2.
  Lemma r2_peek : respR peek_next_token. Proof. uwalk. Qed.
  Hint Resolve r2_peek : r2.
  Lemma r2_has_next : respR has_next_token. Proof. uwalk. Qed.
  Lemma r2_advance : respR advance. Proof. uwalk. Qed.
  Hint Resolve r2_has_next r2_advance : r2.
  Lemma r2_next_token : respR next_token. Proof. uwalk. Qed.
  Hint Resolve r2_next_token : r2.
  Lemma r2_next_unwrapped : respR next_unwrapped_token. Proof. uwalk. Qed.
  Hint Resolve r2_next_unwrapped : r2.
  Lemma r2_expect e : respR (expect_next_token e). Proof. uwalk. Qed.
  Lemma r2_accept e : respR (accept_next_token e). Proof. uwalk. Qed.
  Lemma r2_peek_is e : respR (peek_is e). Proof. uwalk. Qed.
  Lemma r2_try {A} (f : token -> option A) : respR (try_next_token f). Proof. uwalk. Qed.
  Lemma r2_discard : respR discard_remaining_tokens. Proof. uwalk. Qed.
  Hint Resolve r2_expect r2_accept r2_peek_is r2_try r2_discard : r2.
  Lemma r2_rewind_loop i e : respR (rewind_loop i e).
  Proof. induction i as [|i IH]; cbn [rewind_loop]; walk. Qed.
  Hint Resolve r2_rewind_loop : r2.
  Lemma r2_rewind e : respR (rewind_before_token e). Proof. uwalk. Qed.
  Lemma r2_get_line_number : respR get_line_number. Proof. uwalk. Qed.
  Lemma r2_set_imm ts : respR (set_and_goto_immediate_line ts). Proof. uwalk. Qed.
  Lemma r2_remove_loop sym : respR (remove_loop_with_name sym). Proof. uwalk. Qed.
  Hint Resolve r2_rewind r2_get_line_number r2_set_imm r2_remove_loop : r2.
  Lemma r2_program_break : respR program_break_at_current_location. Proof. uwalk. Qed.
  Lemma r2_continue_bp : respR continue_from_breakpoint. Proof. uwalk. Qed.
  Lemma r2_variables_set n v : respR (variables_set n v). Proof. uwalk. Qed.
  Lemma r2_variables_get n : respR (variables_get n). Proof. uwalk. Qed.
  Hint Resolve r2_program_break r2_continue_bp r2_variables_set r2_variables_get : r2.
  Lemma r2_start_loop sym a b c : respR (start_loop sym a b c). Proof. uwalk. Qed.
  Lemma r2_end_loop sym : respR (end_loop sym). Proof. uwalk. Qed.
  Lemma r2_reset_data : respR reset_data_cursor. Proof. uwalk. Qed.
  Lemma r2_program_end : respR program_end. Proof. uwalk. Qed.
  Hint Resolve r2_start_loop r2_end_loop r2_reset_data r2_program_end : r2.
  Lemma r2_reset_runtime : respR reset_runtime_state. Proof. uwalk. Qed.
  Hint Resolve r2_reset_runtime : r2.
  Lemma r2_run_from_first : respR run_from_first_numbered_line. Proof. uwalk. Qed.
  Lemma r2_goto n : respR (goto_line_number n). Proof. uwalk. Qed.
  Hint Resolve r2_run_from_first r2_goto : r2.
  Lemma r2_gosub n : respR (gosub_line_number n). Proof. uwalk. Qed.
  Lemma r2_return : respR return_to_last_gosub. Proof. uwalk. Qed.
  Lemma r2_define_function n a : respR (define_function n a). Proof. uwalk. Qed.
  Lemma r2_push_fn n b : respR (push_function_call n b). Proof. uwalk. Qed.
  Lemma r2_pop_fn : respR pop_function_call. Proof. uwalk. Qed.
  Lemma r2_find_var n : respR (find_variable_value_in_stack n). Proof. uwalk. Qed.

  Lemma r2_next_data : respR next_data_element.
  Proof.
    intros s t H. unfold next_data_element.
    rewrite <- (cg_data_it C s t H), <- (cg_data_chunks C s t H).
    destruct (data_it s) as [d|]; [|destruct (data_chunks (st_keys s) (st_toks s)) as [cs|e l|p| |]];
      try (split; [reflexivity|exact H]);
      destruct (data_next _ _) as [e d']; (split; [reflexivity|apply (cg_set_data_it C), H]).
  Qed.

  Lemma r2_is_else : respR is_else_of_then_clause. Proof. uwalk. Qed.
  Lemma r2_next_line : respR next_line. Proof. uwalk. Qed.
  Lemma r2_set_numbered_line n ts : respR (set_numbered_line n ts). Proof. uwalk. Qed.
  Lemma r2_arrays_create n i : respR (arrays_create n i). Proof. uwalk. Qed.
  Lemma r2_maybe_default n d : respR (maybe_create_default_array n d). Proof. uwalk. Qed.
  Hint Resolve r2_gosub r2_return r2_define_function r2_push_fn r2_pop_fn r2_find_var r2_next_data
    r2_is_else r2_next_line r2_set_numbered_line r2_arrays_create r2_maybe_default : r2.
  Lemma r2_arrays_get n i : respR (arrays_get n i). Proof. uwalk. Qed.
  Lemma r2_arrays_set n i v : respR (arrays_set n i v). Proof. uwalk. Qed.
  Lemma r2_rng_rnd x : respR (rng_rnd x). Proof. uwalk. Qed.
  Lemma r2_push_output o : respR (push_output o). Proof. uwalk. Qed.
  Hint Resolve r2_arrays_get r2_arrays_set r2_rng_rnd r2_push_output : r2.

  Lemma r2_eval_unary o v : respR (eval_unary o v). Proof. uwalk. Qed.
  Lemma r2_eval_addsub o a b : respR (eval_addsub o a b). Proof. uwalk. Qed.
  Lemma r2_eval_muldiv o a b : respR (eval_muldiv o a b). Proof. uwalk. Qed.
  Lemma r2_eval_eq o a b : respR (eval_eq o a b). Proof. uwalk. Qed.
  Lemma r2_eval_and a b : respR (eval_and a b). Proof. uwalk. Qed.
  Lemma r2_eval_or a b : respR (eval_or a b). Proof. uwalk. Qed.
  Lemma r2_eval_pow a b : respR (eval_pow a b). Proof. uwalk. Qed.
  Lemma r2_expect_number v : respR (expect_number v). Proof. uwalk. Qed.
  Hint Resolve r2_eval_unary r2_eval_addsub r2_eval_muldiv r2_eval_eq r2_eval_and r2_eval_or r2_eval_pow
    r2_expect_number : r2.

  (* a relation that compares the flags gets the flag-dependent blocks from the walk *)
  Lemma flags_agree :
    agrees enable_warnings -> agrees enable_tracing -> (forall w b, lifts (set_flags w b)) -> flags_ok.
  Proof.
    intros Hw Ht Hs. assert (W : forall msg, respR (warn msg)) by (intros; uwalk).
    split; [exact W | intros; uwalk | intros; walk | intros; walk |].
    intros b s t H. rewrite <- (Hw s t H). apply Hs, H.
  Qed.

  Lemma agrees_error_location e l : agrees (populate_error_location e l).
  Proof.
    intros s t H. unfold populate_error_location, get_data_location.
    rewrite (cg_loc C s t H), (cg_data_it C s t H). reflexivity.
  Qed.

  Lemma call_body_eq (rec : M value) s :
    call_body rec s =
    match rec s with
    | (Ok v, s1) => (pop_function_call ;;; ret v) s1
    | (Err e l, s1) =>
        (pop_function_call ;;; (fun s2 => (Err e (populate_error_location e l s1), s2))) s1
    | other => other
    end.
  Proof. unfold call_body. destruct (rec s) as [[v|e l|p| |] s1]; reflexivity. Qed.

  Lemma r2_call_body rec : respR rec -> respR (call_body rec).
  Proof.
    intros Hrec s t H. rewrite !call_body_eq. destruct (Hrec s t H) as [E S].
    destruct (rec s) as [[v|e l|p| |] s1]; destruct (rec t) as [[v'|e' l'|p'| |] t1];
      cbn [fst snd] in E, S; try discriminate E; try (split; [exact E|exact S]).
    - injection E as ->. apply rel2R_bind; [exact r2_pop_fn|intros _; apply respR_pure|exact S].
    - injection E as -> ->. rewrite (agrees_error_location e' l' s1 t1 S).
      apply rel2R_bind; [exact r2_pop_fn|intros _; apply respR_pure|exact S].
  Qed.

  Hypothesis FL : flags_ok.

  Section Expr.
    Variable fuel : nat.
    Variable rec : M value.
    Hypothesis Hrec : respR rec.

    Lemma r2_bind_arguments args : forall i n b, respR (bind_arguments rec args i n b).
    Proof. induction args as [|a args IH]; intros i n b; cbn [bind_arguments]; walk. Qed.
    Hint Resolve r2_bind_arguments r2_call_body : r2.
    Lemma r2_array_index : respR (evaluate_array_index fuel rec). Proof. uwalk. Qed.
    Lemma r2_unary_arg : respR (unary_number_function_arg rec). Proof. uwalk. Qed.
    Hint Resolve r2_array_index r2_unary_arg : r2.
    Lemma r2_user_function_call name : respR (user_function_call rec name). Proof. uwalk. Qed.
    Hint Resolve r2_user_function_call : r2.
    Lemma r2_function_call name : respR (function_call rec name). Proof. uwalk. Qed.
    Hint Resolve r2_function_call : r2.

    Lemma r2_expression_term : respR (expression_term fuel rec).
    Proof.
      unfold expression_term.
      repeat first [ match goal with |- respR (bind (get enable_warnings) _) => apply (fl_variable FL) end
                   | r2step ].
    Qed.
    Hint Resolve r2_expression_term : r2.
    Lemma r2_parenthesized : respR (parenthesized_expression fuel rec). Proof. uwalk. Qed.
    Hint Resolve r2_parenthesized : r2.
    Lemma r2_unary_operator : respR (unary_operator fuel rec). Proof. uwalk. Qed.

    Lemma r2_tier {O} (g : M (option O)) (operand : M value) (ap : O -> value -> value -> M value) :
      respR g -> respR operand -> (forall o a b, respR (ap o a b)) -> respR (tier fuel g operand ap).
    Proof. intros Hg Ho Ha. uwalk. Qed.

    Lemma r2_accept_as {O} t (o : O) : respR (accept_as t o). Proof. uwalk. Qed.

    Lemma r2_logical_or : respR (logical_or_expression fuel rec).
    Proof.
      apply (tiers_ind fuel rec (@respR value));
        [intros; apply r2_tier; first [apply r2_accept_as | assumption | intros; r2leaf].. | exact r2_unary_operator].
    Qed.
  End Expr.

  Theorem r2_evaluate_expression fuel : forall n, respR (evaluate_expression fuel n).
  Proof.
    induction fuel as [|k IH]; intros n; cbn [evaluate_expression]; [apply respR_pure|].
    destruct (Nat.eqb n max_nesting); [apply respR_pure|]. apply r2_logical_or, IH.
  Qed.
  Hint Resolve r2_evaluate_expression r2_array_index : r2.

  Section Stmt.
    Variable fuel : nat.
    Variable nest : nat.
    Variable rec : M unit.
    Hypothesis Hrec : respR rec.

    Lemma r2_expr : respR (expr fuel nest). Proof. apply r2_evaluate_expression. Qed.
    Hint Resolve r2_expr : r2.
    Lemma r2_optional_index : respR (parse_optional_array_index fuel nest). Proof. uwalk. Qed.
    Hint Resolve r2_optional_index : r2.
    Lemma r2_await : respR rewind_program_and_await_input. Proof. uwalk. Qed.
    Lemma r2_break : respR break_at_current_location. Proof. uwalk. Qed.
    Lemma r2_goto_stmt : respR evaluate_goto_statement. Proof. uwalk. Qed.
    Lemma r2_gosub_stmt : respR evaluate_gosub_statement. Proof. uwalk. Qed.
    Hint Resolve r2_await r2_break r2_goto_stmt r2_gosub_stmt : r2.
    Lemma r2_stmt_or_goto : respR (statement_or_goto_line_number rec). Proof. uwalk. Qed.
    Hint Resolve r2_stmt_or_goto : r2.
    Lemma r2_if : respR (evaluate_if_statement fuel nest rec). Proof. uwalk. Qed.
    Lemma r2_assign lv v : respR (assign_value lv v). Proof. uwalk. Qed.
    Hint Resolve r2_if r2_assign : r2.
    Lemma r2_assignment sym : respR (evaluate_assignment_statement fuel nest sym). Proof. uwalk. Qed.
    Hint Resolve r2_assignment : r2.
    Lemma r2_let : respR (evaluate_let_statement fuel nest). Proof. uwalk. Qed.
    Lemma r2_parse_lvalue : respR (parse_lvalue fuel nest). Proof. uwalk. Qed.
    Hint Resolve r2_let r2_parse_lvalue : r2.
    Lemma r2_read : respR (evaluate_read_statement fuel nest). Proof. uwalk. Qed.
    Lemma r2_take_input : respR take_input. Proof. uwalk. Qed.
    Hint Resolve r2_read r2_take_input : r2.
    Lemma r2_input : respR (evaluate_input_statement fuel nest). Proof. uwalk. Qed.
    Lemma r2_dim : respR (evaluate_dim_statement fuel nest). Proof. uwalk. Qed.
    Lemma r2_print : respR (evaluate_print_statement fuel nest). Proof. uwalk. Qed.
    Lemma r2_for : respR (evaluate_for_statement fuel nest). Proof. uwalk. Qed.
    Lemma r2_next_stmt : respR evaluate_next_statement. Proof. uwalk. Qed.
    Lemma r2_def : respR (evaluate_def_statement fuel). Proof. uwalk. Qed.
    Hint Resolve r2_input r2_dim r2_print r2_for r2_next_stmt r2_def : r2.

    Lemma r2_statement_body : respR (evaluate_statement_body fuel nest rec).
    Proof. unfold evaluate_statement_body. apply (fl_traced FL). walk. Qed.
  End Stmt.

  Theorem r2_evaluate_statement fuel : forall n, respR (evaluate_statement fuel n).
  Proof.
    induction fuel as [|k IH]; intros n; cbn [evaluate_statement]; [apply respR_pure|].
    destruct (Nat.eqb n max_nesting); [apply respR_pure|]. apply r2_statement_body, IH.
  Qed.
  Hint Resolve r2_evaluate_statement r2_break : r2.

  Theorem r2_run_next_statement fuel : respR (run_next_statement fuel).
  Proof. unfold run_next_statement, return_to_idle_state; walk. Qed.
  Hint Resolve r2_run_next_statement : r2.

  Lemma r2_list_lines : respR (fun s => (list_lines (st_keys s) (st_toks s), s)).
  Proof. intros s t H. split; [apply (cg_list_lines C), H|exact H]. Qed.

  Theorem r2_process_command fuel c : respR (process_command fuel c).
  Proof. destruct c; cbn [process_command]; walk. exact r2_list_lines. Qed.
  Hint Resolve r2_process_command : r2.

  Lemma postprocess_rel {A} (r1 r2 : res A * interp) :
    fst r1 = fst r2 -> R (snd r1) (snd r2) ->
    fst (postprocess r1) = fst (postprocess r2) /\ R (snd (postprocess r1)) (snd (postprocess r2)).
  Proof.
    destruct r1 as [[a|e l|p| |] s1]; destruct r2 as [[a'|e' l'|p'| |] t1];
      cbn [fst snd postprocess]; intros E S; try discriminate E;
      try (split; [exact E|exact S]).
    injection E as -> ->. rewrite (agrees_error_location e' l' s1 t1 S).
    split; [reflexivity|apply (cg_set_state C), S].
  Qed.

  Lemma r2_postprocess {A} (m : M A) : respR m -> respR (fun s => postprocess (m s)).
  Proof. intros Hm s t H. destruct (Hm s t H) as [E S]. apply postprocess_rel; assumption. Qed.

  Lemma r2_evaluate_impl fuel line : respR (evaluate_impl fuel line). Proof. uwalk. Qed.

  Theorem r2_start_evaluating fuel line : respR (start_evaluating fuel line).
  Proof. apply r2_postprocess, r2_evaluate_impl. Qed.

  Theorem r2_continue_evaluating fuel : respR (continue_evaluating fuel).
  Proof.
    intros s t H. unfold continue_evaluating. rewrite <- (cg_state C s t H).
    destruct (state s); try (split; [reflexivity|exact H]).
    apply (r2_postprocess _ (r2_run_next_statement fuel)), H.
  Qed.

  Theorem r2_provide_input text : respR (provide_input text).
  Proof.
    intros s t H. unfold provide_input. rewrite <- (cg_state C s t H).
    destruct (state s); cbn [fst snd]; try (split; [reflexivity|exact H]).
    split; [reflexivity|]. apply (cg_set_state C), (cg_set_input C), H.
  Qed.

  Theorem r2_host_break : respR host_break. Proof. exact r2_break. Qed.

  Theorem r2_randomize n : respR (randomize n). Proof. uwalk. Qed.

  Lemma agrees_legal op : agrees (fun s => legal s op).
  Proof. intros s t H. unfold legal. rewrite (cg_state C s t H). reflexivity. Qed.

  Lemma agrees_render_caret e l line : agrees (render_caret e l line).
  Proof.
    intros s t H. unfold render_caret, program_caret. destruct l as [l|]; [|reflexivity].
    destruct (cg_tokens_for_line C (loc_line l) s t H) as [-> _]. reflexivity.
  Qed.
End Rel.

Definition keep_output (o : output) : bool :=
  match o with OTrace _ | OWarning _ _ => false | _ => true end.

Definition erase (l : list output) : list output := filter keep_output l.

(* states equal up to the two flags and up to Trace/Warning records in the
   pending output *)
Definition sim (s t : interp) : Prop :=
  st_toks s = st_toks t /\ st_keys s = st_keys t /\ immediate s = immediate t /\ loc s = loc t
  /\ breakpoint s = breakpoint t /\ stack s = stack t /\ loops s = loops t /\ data_it s = data_it t
  /\ functions s = functions t /\ input s = input t /\ state s = state t /\ rng s = rng t
  /\ variables s = variables t /\ arrays s = arrays t /\ pow_oracle s = pow_oracle t /\ reads s = reads t
  /\ erase (outputs s) = erase (outputs t).

(* [respR sim] and [rel2R sim], written out; [rel2] is for where the two runs take different
   branches on a flag *)
Definition respects {A} (m : M A) : Prop :=
  forall s t, sim s t -> fst (m s) = fst (m t) /\ sim (snd (m s)) (snd (m t)).

Definition rel2 {A} (m1 m2 : M A) : Prop :=
  forall s t, sim s t -> fst (m1 s) = fst (m2 t) /\ sim (snd (m1 s)) (snd (m2 t)).

Lemma respects_rel2 {A} (m : M A) : respects m <-> rel2 m m.
Proof. split; intros H; exact H. Qed.

Ltac sim_fields :=
  cbn [st_toks st_keys immediate loc breakpoint stack loops data_it functions input outputs state
       rng variables arrays enable_warnings enable_tracing pow_oracle reads
       set_store set_immediate set_loc set_breakpoint set_stack set_loops set_data_it set_functions
       set_input set_outputs set_state set_rng set_variables set_arrays set_flags set_oracle set_reads].

Lemma sim_refl s : sim s s.
Proof. unfold sim; repeat split; reflexivity. Qed.

(* [sim s t] says that [t] is [s] with other flags and with an output queue
   that erases to the same.  In this form every compared observation of [t]
   reduces to that of [s], and a setter applied to both sides commutes with
   the two that differ. *)
Lemma sim_cases s t : sim s t ->
  exists w b o, t = set_flags w b (set_outputs o s) /\ erase (outputs s) = erase o.
Proof.
  intros H. exists (enable_warnings t), (enable_tracing t), (outputs t).
  destruct s, t; unfold sim in H; cbn in H. decompose [and] H; subst. split; [reflexivity|assumption].
Qed.

(* replace [t] by that form of it, given [H : sim s t] *)
Ltac sim_subst H :=
  let w := fresh "w" in let b := fresh "b" in let o := fresh "o" in let Ho := fresh "Ho" in
  destruct (sim_cases _ _ H) as (w & b & o & -> & Ho); sim_fields.

Lemma sim_sym s t : sim s t -> sim t s.
Proof.
  intros H; sim_subst H. unfold sim; sim_fields. repeat split; try reflexivity. symmetry; assumption.
Qed.

Lemma sim_trans s t u : sim s t -> sim t u -> sim s u.
Proof.
  intros H1 H2; sim_subst H1; sim_subst H2. cbn [outputs set_flags set_outputs] in *.
  unfold sim; sim_fields. repeat split; try reflexivity. congruence.
Qed.

Lemma sim_outputs s t : sim s t -> erase (outputs s) = erase (outputs t).
Proof. unfold sim; tauto. Qed.

(* goal [sim (f s) (f t)] for [f] built from setters, given [H : sim s t] *)
Ltac sim_solve H :=
  cbv beta zeta;
  unfold store_first, store_set, store_has, store_after, imm_reset;
  cbv beta zeta;
  sim_subst H;
  repeat match goal with |- context [match ?x with _ => _ end] => destruct x end;
  unfold sim, erase in *; sim_fields;
  repeat split;
  first [ reflexivity | assumption | rewrite !filter_app; f_equal; assumption ].

(* goal [f s = f t] for a compared observation [f] *)
Ltac sim_get H := sim_subst H; reflexivity.

Lemma sim_set_store a b s t : sim s t -> sim (set_store a b s) (set_store a b t).
Proof. intros H; sim_solve H. Qed.
Lemma sim_set_immediate v s t : sim s t -> sim (set_immediate v s) (set_immediate v t).
Proof. intros H; sim_solve H. Qed.
Lemma sim_set_loc v s t : sim s t -> sim (set_loc v s) (set_loc v t).
Proof. intros H; sim_solve H. Qed.
Lemma sim_set_breakpoint v s t : sim s t -> sim (set_breakpoint v s) (set_breakpoint v t).
Proof. intros H; sim_solve H. Qed.
Lemma sim_set_stack v s t : sim s t -> sim (set_stack v s) (set_stack v t).
Proof. intros H; sim_solve H. Qed.
Lemma sim_set_loops v s t : sim s t -> sim (set_loops v s) (set_loops v t).
Proof. intros H; sim_solve H. Qed.
Lemma sim_set_data_it v s t : sim s t -> sim (set_data_it v s) (set_data_it v t).
Proof. intros H; sim_solve H. Qed.
Lemma sim_set_functions v s t : sim s t -> sim (set_functions v s) (set_functions v t).
Proof. intros H; sim_solve H. Qed.
Lemma sim_set_input v s t : sim s t -> sim (set_input v s) (set_input v t).
Proof. intros H; sim_solve H. Qed.
Lemma sim_set_state v s t : sim s t -> sim (set_state v s) (set_state v t).
Proof. intros H; sim_solve H. Qed.
Lemma sim_set_rng v s t : sim s t -> sim (set_rng v s) (set_rng v t).
Proof. intros H; sim_solve H. Qed.
Lemma sim_set_variables v s t : sim s t -> sim (set_variables v s) (set_variables v t).
Proof. intros H; sim_solve H. Qed.
Lemma sim_set_arrays v s t : sim s t -> sim (set_arrays v s) (set_arrays v t).
Proof. intros H; sim_solve H. Qed.
Lemma sim_set_oracle v s t : sim s t -> sim (set_oracle v s) (set_oracle v t).
Proof. intros H; sim_solve H. Qed.
Lemma sim_set_reads v s t : sim s t -> sim (set_reads v s) (set_reads v t).
Proof. intros H; sim_solve H. Qed.
Lemma sim_store_set n v s t : sim s t -> sim (store_set n v s) (store_set n v t).
Proof. intros H; sim_solve H. Qed.

Lemma sim_set_flags w1 b1 w2 b2 s t : sim s t -> sim (set_flags w1 b1 s) (set_flags w2 b2 t).
Proof. intros H; sim_solve H. Qed.

Lemma sim_set_flags_l w b s : sim s (set_flags w b s).
Proof. unfold sim; sim_fields; repeat split; reflexivity. Qed.

Lemma sim_set_outputs a b s t : sim s t -> erase a = erase b -> sim (set_outputs a s) (set_outputs b t).
Proof.
  intros H Hab. sim_subst H. unfold sim; sim_fields. repeat split; first [reflexivity | exact Hab].
Qed.

Lemma sim_push_both l s t :
  sim s t -> sim (set_outputs (outputs s ++ l) s) (set_outputs (outputs t ++ l) t).
Proof.
  intros H. apply sim_set_outputs; [exact H|]. unfold erase. rewrite !filter_app. f_equal. exact (sim_outputs _ _ H).
Qed.

Lemma sim_push_noise l s : erase l = [] -> sim s (set_outputs (outputs s ++ l) s).
Proof.
  intros Hl. unfold sim; sim_fields. repeat split; try reflexivity.
  unfold erase in *. rewrite filter_app, Hl, app_nil_r. reflexivity.
Qed.

Lemma sim_push_dropped_r o s t :
  keep_output o = false -> sim s t -> sim s (set_outputs (outputs t ++ [o]) t).
Proof.
  intros Ho H. apply (sim_trans _ _ _ H), sim_push_noise. cbn. rewrite Ho. reflexivity.
Qed.

Lemma rel2_bind {A B} (m1 m2 : M A) (f1 f2 : A -> M B) :
  rel2 m1 m2 -> (forall a, rel2 (f1 a) (f2 a)) -> rel2 (bind m1 f1) (bind m2 f2).
Proof. exact (rel2R_bind sim m1 m2 f1 f2). Qed.

(* "noise": a computation that always succeeds and only moves the state
   within its [sim] class (it may append Trace/Warning records).  Any two
   noise computations are related, whichever branches they take. *)
Definition noise (m : M unit) : Prop := forall s, fst (m s) = Ok tt /\ sim s (snd (m s)).

Lemma noise_rel2 m1 m2 : noise m1 -> noise m2 -> rel2 m1 m2.
Proof.
  intros H1 H2 s t H. destruct (H1 s) as [E1 S1]. destruct (H2 t) as [E2 S2].
  split; [congruence|].
  eapply sim_trans; [apply sim_sym; exact S1|]. eapply sim_trans; [exact H|exact S2].
Qed.

Lemma noise_respects m : noise m -> respects m.
Proof. intros H; apply noise_rel2; exact H. Qed.

Lemma noise_ret : noise (ret tt).
Proof. intros s; split; [reflexivity|apply sim_refl]. Qed.

(* reading a flag: the continuation may be entered with different booleans *)
Lemma respects_get_warnings {B} (f : bool -> M B) :
  (forall w1 w2, rel2 (f w1) (f w2)) -> respects (bind (get enable_warnings) f).
Proof. intros Hf s t H. unfold bind, get. apply Hf; exact H. Qed.

Lemma respects_get_tracing {B} (f : bool -> M B) :
  (forall w1 w2, rel2 (f w1) (f w2)) -> respects (bind (get enable_tracing) f).
Proof. intros Hf s t H. unfold bind, get. apply Hf; exact H. Qed.

Lemma respects_tokens_for_line l : respects (tokens_for_line l).
Proof.
  intros s t H. unfold tokens_for_line. sim_subst H.
  destruct l as [n|]; [destruct (toks_get n (st_toks s))|]; split; first [reflexivity|exact H].
Qed.

Lemma sim_congruence : congruence sim.
Proof.
  refine {| cg_tokens_for_line := respects_tokens_for_line; cg_set_immediate := sim_set_immediate;
            cg_set_loc := sim_set_loc; cg_set_breakpoint := sim_set_breakpoint; cg_set_stack := sim_set_stack;
            cg_set_loops := sim_set_loops; cg_set_data_it := sim_set_data_it;
            cg_set_functions := sim_set_functions; cg_set_input := sim_set_input;
            cg_set_state := sim_set_state; cg_set_rng := sim_set_rng; cg_set_variables := sim_set_variables;
            cg_set_arrays := sim_set_arrays; cg_set_reads := sim_set_reads; cg_store_set := sim_store_set;
            cg_push := sim_push_both |};
    intros; intros s t H; sim_get H.
Qed.

Lemma noise_warn msg : noise (warn msg).
Proof.
  intros s. unfold warn, bind, get, get_line_number, push_output, modify, ret.
  destruct (enable_warnings s); cbn [fst snd].
  - split; [reflexivity|]. apply sim_push_noise. reflexivity.
  - split; [reflexivity|apply sim_refl].
Qed.

Lemma respects_warn msg : respects (warn msg).
Proof. apply noise_respects, noise_warn. Qed.

Lemma noise_if (b : bool) m : noise m -> noise (if b then m else ret tt).
Proof. intros H; destruct b; [exact H|apply noise_ret]. Qed.

Lemma noise_maybe_warn name : noise (maybe_warn_undeclared_array name).
Proof.
  intros s. unfold maybe_warn_undeclared_array.
  rewrite bind_get, bind_get. apply noise_if, noise_warn.
Qed.

Lemma respects_maybe_warn name : respects (maybe_warn_undeclared_array name).
Proof. apply noise_respects, noise_maybe_warn. Qed.

(* the trace block at the head of every statement is noise *)
Definition trace_block (tr : bool) : M unit :=
  if tr then
    l <- get_line_number ;;
    match l with Some n => push_output (OTrace n) | None => ret tt end
  else ret tt.

Lemma noise_trace_block tr : noise (trace_block tr).
Proof.
  intros s. unfold trace_block, get_line_number, push_output, bind, get, modify, ret.
  destruct tr; cbn [fst snd]; [|split; [reflexivity|apply sim_refl]].
  destruct (loc_line (loc s)) as [n|]; cbn [fst snd].
  - split; [reflexivity|]. apply sim_push_noise. reflexivity.
  - split; [reflexivity|apply sim_refl].
Qed.

(* the warning of a plain variable read and the trace block only decide whether a record that [sim]
   erases is appended before the flag-independent rest; TRACE / NOTRACE write only [enable_tracing],
   which [sim] does not compare *)
Lemma sim_flags : flags_ok sim.
Proof.
  split.
  - exact respects_warn.
  - exact respects_maybe_warn.
  - intros sym B k Hk. apply respects_get_warnings. intros w1 w2.
    apply rel2_bind; [exact (respR_get sim _ (cg_variables sim sim_congruence))|intros vs].
    apply rel2_bind; [apply noise_rel2; apply noise_if, noise_warn|intros _; exact Hk].
  - intros B k Hk. apply respects_get_tracing. intros tr1 tr2.
    apply rel2_bind; [|intros _; exact Hk].
    apply (noise_rel2 (trace_block tr1) (trace_block tr2)); apply noise_trace_block.
  - intros b s t H. apply sim_set_flags, H.
Qed.

(* Step level.  [step] renders a row of text; [call_obs] is [step] before
   rendering: the result, the drained output queue and the state. *)

Definition outputs_text (outs : list output) : bytes := join [59%N] (map canon_output outs).
Definition erased_outputs_text (outs : list output) : bytes :=
  join [59%N] (map canon_output (erase outs)).

Definition outcome_text (r : res unit) : bytes :=
  match r with
  | Ok _ => bs "ok"
  | Err e l => bs "err:" ++ debug_error e ++ [64%N]
               ++ (match l with None => bs "none" | Some l => show_location l end)
  | Panic p => bs "panic:" ++ show_panic p
  | OutOfFuel => bs "MODEL-OUT-OF-FUEL"
  | OracleMiss => bs "MODEL-ORACLE-MISS"
  end.

Definition caret_text (r : res unit) (line : option bytes) (s1 : interp) : bytes :=
  match r with
  | Err e l => match render_caret e l line s1 with
               | Ok ls => join [59%N] (map esc ls)
               | _ => bs "PANIC"
               end
  | _ => []
  end.

Definition msg_text (r : res unit) : bytes :=
  match r with Err e l => esc (display_error e l) | _ => [] end.

Definition render_row (r : res unit) (line : option bytes) (outs : list output) (s1 : interp) : row :=
  mkrow (outcome_text r) (show_state (state s1)) (outputs_text outs) (caret_text r line s1)
        (msg_text r) (show_nat (reads s1)) (canon_snapshot s1).

Lemma make_row_render r line s :
  make_row r line s = (render_row r line (outputs s) (set_outputs [] s), set_outputs [] s).
Proof. reflexivity. Qed.

Definition pack (x : res unit * interp) : option (res unit * list output * interp) :=
  let '(r, s1) := x in Some (r, outputs s1, set_outputs [] s1).

Definition call_obs (fuel : nat) (s : interp) (op : hostop)
  : option (res unit * list output * interp) :=
  if negb (legal s op) then None
  else
    let s0 := set_reads 0 s in
    match op with
    | HLine text => pack (start_evaluating fuel text s0)
    | HCont => pack (continue_evaluating fuel s0)
    | HReply text => pack (provide_input text s0)
    | HBreak => pack (host_break s0)
    | HRand seed => pack (randomize seed s0)
    | HReplace => pack (Ok tt, fresh (pow_oracle s))
    | HFlags _ _ => None
    | HNew => None
    end.

Definition silent_step (s : interp) (op : hostop) : interp :=
  if legal s op then
    match op with
    | HFlags w t => set_flags w t s
    | HNew => fresh (pow_oracle s)
    | _ => s
    end
  else s.

Theorem step_is_call_obs fuel s op :
  step fuel s op =
  match call_obs fuel s op with
  | Some (r, outs, s') => (Some (render_row r (line_of op) outs s'), s')
  | None => (None, silent_step s op)
  end.
Proof.
  unfold step, call_obs, silent_step. destruct (legal s op); cbn [negb]; [|reflexivity].
  destruct op as [text| |text| |seed| |w b|]; cbn [line_of].
  - destruct (start_evaluating fuel text (set_reads 0 s)) as [r s1]. rewrite make_row_render. reflexivity.
  - destruct (continue_evaluating fuel (set_reads 0 s)) as [r s1]. rewrite make_row_render. reflexivity.
  - destruct (provide_input text (set_reads 0 s)) as [r s1]. rewrite make_row_render. reflexivity.
  - destruct (host_break (set_reads 0 s)) as [r s1]. rewrite make_row_render. reflexivity.
  - destruct (randomize seed (set_reads 0 s)) as [r s1]. rewrite make_row_render. reflexivity.
  - rewrite make_row_render. reflexivity.
  - reflexivity.
  - reflexivity.
Qed.

(* One host call in two runs, for a reflexive congruence [R] under which the output queues agree
   after [er] and emptying the queue keeps states related. *)
Section Calls.
  Variable R : interp -> interp -> Prop.
  Variable er : list output -> list output.
  Hypothesis C : congruence R.
  Hypothesis FL : flags_ok R.
  Hypothesis Hrefl : forall s, R s s.
  Hypothesis Hout : agrees R (fun s => er (outputs s)).
  Hypothesis Hdrain : lifts R (set_outputs []).

  Definition obsR (a b : option (res unit * list output * interp)) : Prop :=
    match a, b with
    | Some (r1, o1, s1), Some (r2, o2, s2) => r1 = r2 /\ er o1 = er o2 /\ R s1 s2
    | None, None => True
    | _, _ => False
    end.

  Lemma pack_rel (m : M unit) s t : respR R m -> R s t -> obsR (pack (m s)) (pack (m t)).
  Proof.
    intros Hm H. destruct (Hm s t H) as [E S].
    destruct (m s) as [r1 s1]; destruct (m t) as [r2 t1]; cbn [fst snd pack obsR] in *.
    split; [exact E|]. split; [apply Hout, S|apply Hdrain, S].
  Qed.

  Theorem call_obs_rel fuel s t op : R s t -> obsR (call_obs fuel s op) (call_obs fuel t op).
  Proof.
    intros H. unfold call_obs. rewrite <- (agrees_legal R C op s t H), <- (cg_pow_oracle R C s t H).
    destruct (legal s op); cbn [negb]; [|exact I].
    pose proof (cg_set_reads R C 0 s t H) as H0.
    destruct op as [text| |text| |seed| |w b|]; try exact I.
    - apply pack_rel; [apply r2_start_evaluating; assumption|exact H0].
    - apply pack_rel; [apply r2_continue_evaluating; assumption|exact H0].
    - apply pack_rel; [apply r2_provide_input, C|exact H0].
    - apply pack_rel; [apply r2_host_break, C|exact H0].
    - apply pack_rel; [apply r2_randomize, C|exact H0].
    - apply (pack_rel (ret tt)); [apply respR_pure|apply Hrefl].
  Qed.
End Calls.

(* [obsR sim erase], written out *)
Definition obs_rel (a b : option (res unit * list output * interp)) : Prop :=
  match a, b with
  | Some (r1, o1, s1), Some (r2, o2, s2) => r1 = r2 /\ erase o1 = erase o2 /\ sim s1 s2
  | None, None => True
  | _, _ => False
  end.

(* the two runs perform the same operations, except that flag settings may
   carry different booleans *)
Inductive op_match : hostop -> hostop -> Prop :=
| om_same op : op_match op op
| om_flags w1 b1 w2 b2 : op_match (HFlags w1 b1) (HFlags w2 b2).

Definition ops_match : list hostop -> list hostop -> Prop := Forall2 op_match.

Lemma ops_match_refl ops : ops_match ops ops.
Proof. induction ops; constructor; [apply om_same|assumption]. Qed.

Theorem legal_sim s t op : sim s t -> legal s op = legal t op.
Proof. apply (agrees_legal sim sim_congruence op). Qed.

Lemma legal_match s t op1 op2 : sim s t -> op_match op1 op2 -> legal s op1 = legal t op2.
Proof. intros H [op|w1 b1 w2 b2]; [apply legal_sim; exact H|reflexivity]. Qed.

Lemma fresh_sim s t : sim s t -> fresh (pow_oracle s) = fresh (pow_oracle t).
Proof. intros H. sim_get H. Qed.

Theorem call_obs_sim fuel s t op :
  sim s t -> obs_rel (call_obs fuel s op) (call_obs fuel t op).
Proof.
  apply (call_obs_rel sim erase sim_congruence sim_flags sim_refl sim_outputs).
  intros s0 t0 H. apply sim_set_outputs; [exact H|reflexivity].
Qed.

Theorem call_obs_match fuel s t op1 op2 :
  sim s t -> op_match op1 op2 -> obs_rel (call_obs fuel s op1) (call_obs fuel t op2).
Proof.
  intros H [op|w1 b1 w2 b2]; [apply call_obs_sim; exact H|].
  unfold call_obs. cbn [legal negb]. exact I.
Qed.

Lemma silent_step_sim s t op1 op2 :
  sim s t -> op_match op1 op2 -> sim (silent_step s op1) (silent_step t op2).
Proof.
  intros H Hm. unfold silent_step. rewrite <- (legal_match s t op1 op2 H Hm).
  destruct (legal s op1); [|exact H].
  destruct Hm as [op|w1 b1 w2 b2].
  - destruct op as [text| |text| |seed| |w b|]; try exact H.
    rewrite <- (fresh_sim s t H). apply sim_refl.
  - apply sim_set_flags; exact H.
Qed.

(* the state after a step: related again, whatever flags were just set *)
Theorem step_state_match fuel s t op1 op2 :
  sim s t -> op_match op1 op2 -> sim (snd (step fuel s op1)) (snd (step fuel t op2)).
Proof.
  intros H Hm. rewrite !step_is_call_obs.
  pose proof (call_obs_match fuel s t op1 op2 H Hm) as Ho.
  destruct (call_obs fuel s op1) as [[[r1 o1] s1]|]; destruct (call_obs fuel t op2) as [[[r2 o2] t1]|];
    cbn [obs_rel snd] in *; try contradiction.
  - tauto.
  - apply silent_step_sim; assumption.
Qed.

Theorem step_state_sim fuel s t op :
  sim s t -> sim (snd (step fuel s op)) (snd (step fuel t op)).
Proof. intros H. apply step_state_match; [exact H|apply om_same]. Qed.

Theorem step_flags_sim fuel s t w1 b1 w2 b2 :
  sim s t -> sim (snd (step fuel s (HFlags w1 b1))) (snd (step fuel t (HFlags w2 b2))).
Proof. intros H. apply step_state_match; [exact H|apply om_flags]. Qed.

(* two rows agree on everything C17 talks about: outcome (result, error and
   its location), interpreter state (input requests), caret, message, reads,
   and the outputs once Trace/Warning records are erased *)
Definition row_agree (a b : row) : Prop :=
  r_outcome a = r_outcome b /\ r_state a = r_state b /\ r_caret a = r_caret b
  /\ r_msg a = r_msg b /\ r_reads a = r_reads b
  /\ exists o1 o2, r_outputs a = outputs_text o1 /\ r_outputs b = outputs_text o2
                   /\ erase o1 = erase o2.

Definition obs_agree (a b : option row) : Prop :=
  match a, b with
  | Some x, Some y => row_agree x y
  | None, None => True
  | _, _ => False
  end.

Lemma row_agree_erased_text a b :
  row_agree a b ->
  exists o1 o2, r_outputs a = outputs_text o1 /\ r_outputs b = outputs_text o2
                /\ erased_outputs_text o1 = erased_outputs_text o2.
Proof.
  intros (_ & _ & _ & _ & _ & o1 & o2 & Ha & Hb & He).
  exists o1, o2. repeat split; try assumption. unfold erased_outputs_text. rewrite He. reflexivity.
Qed.

Lemma render_row_agree r line o1 o2 s1 s2 :
  erase o1 = erase o2 -> sim s1 s2 -> row_agree (render_row r line o1 s1) (render_row r line o2 s2).
Proof.
  intros Ho H. unfold row_agree, render_row; cbn [r_outcome r_state r_caret r_msg r_reads r_outputs].
  repeat split.
  - f_equal. sim_get H.
  - unfold caret_text. destruct r as [u|e l|p| |]; try reflexivity.
    rewrite (agrees_render_caret sim sim_congruence e l line s1 s2 H). reflexivity.
  - f_equal. sim_get H.
  - exists o1, o2. repeat split. exact Ho.
Qed.

(* the snapshot text is the same too whenever the flags themselves are *)
Lemma canon_snapshot_sim s t :
  sim s t -> enable_warnings s = enable_warnings t -> enable_tracing s = enable_tracing t ->
  canon_snapshot s = canon_snapshot t.
Proof. intros H Hw Ht. sim_subst H. cbn in Hw, Ht. subst. reflexivity. Qed.

Theorem step_row_match fuel s t op1 op2 :
  sim s t -> op_match op1 op2 -> obs_agree (fst (step fuel s op1)) (fst (step fuel t op2)).
Proof.
  intros H Hm. rewrite !step_is_call_obs.
  pose proof (call_obs_match fuel s t op1 op2 H Hm) as Ho.
  assert (Hline : line_of op1 = line_of op2) by (destruct Hm; reflexivity).
  destruct (call_obs fuel s op1) as [[[r1 o1] s1]|]; destruct (call_obs fuel t op2) as [[[r2 o2] t1]|];
    cbn [obs_rel fst obs_agree] in *; try contradiction; [|exact I].
  destruct Ho as (-> & Hout & Hs). rewrite Hline. apply render_row_agree; assumption.
Qed.

Theorem step_row_sim fuel s t op :
  sim s t -> obs_agree (fst (step fuel s op)) (fst (step fuel t op)).
Proof. intros H. apply step_row_match; [exact H|apply om_same]. Qed.

Definition observe (fuel : nat) (s : interp) (ops : list hostop) : list (option row) :=
  run_ops fuel s ops.

Lemma history_rel (R : interp -> interp -> Prop) (Q : option row -> option row -> Prop)
      (P : hostop -> hostop -> Prop) fuel :
  (forall s t a b, R s t -> P a b ->
     Q (fst (step fuel s a)) (fst (step fuel t b)) /\ R (snd (step fuel s a)) (snd (step fuel t b))) ->
  forall ops1 ops2, Forall2 P ops1 ops2 -> forall s t, R s t ->
  Forall2 Q (run_ops fuel s ops1) (run_ops fuel t ops2)
  /\ R (run_state fuel s ops1) (run_state fuel t ops2).
Proof.
  intros Hstep ops1 ops2 Hm. induction Hm as [|a b r1 r2 Hab _ IH]; intros s t H; cbn [run_ops run_state].
  - split; [constructor|exact H].
  - destruct (Hstep s t a b H Hab) as [Hq Hr].
    destruct (step fuel s a), (step fuel t b); cbn [fst snd] in *.
    destruct (IH _ _ Hr). split; [constructor|]; assumption.
Qed.

Fixpoint observe_calls (fuel : nat) (s : interp) (ops : list hostop)
  : list (option (res unit * list output * interp)) :=
  match ops with
  | [] => []
  | op :: r => call_obs fuel s op :: observe_calls fuel (snd (step fuel s op)) r
  end.

Theorem C17_transparent_history : forall fuel ops1 ops2 s t,
  ops_match ops1 ops2 -> sim s t ->
  Forall2 obs_agree (observe fuel s ops1) (observe fuel t ops2)
  /\ sim (run_state fuel s ops1) (run_state fuel t ops2).
Proof.
  intros fuel ops1 ops2 s t Hm. revert s t. apply (history_rel sim obs_agree op_match); [|exact Hm].
  intros s t a b H Hab. split; [apply step_row_match|apply step_state_match]; assumption.
Qed.

Theorem C17_transparent_calls : forall fuel ops1 ops2 s t,
  ops_match ops1 ops2 -> sim s t ->
  Forall2 obs_rel (observe_calls fuel s ops1) (observe_calls fuel t ops2).
Proof.
  intros fuel ops1 ops2 s t Hm. revert s t.
  induction Hm as [|op1 op2 r1 r2 Hop Hr IH]; intros s t H; cbn [observe_calls]; constructor.
  - apply call_obs_match; assumption.
  - apply IH. apply step_state_match; assumption.
Qed.

(* The four configurations: one session, run from a fresh interpreter with
   any two initial flag settings. *)
Corollary C17_four_configurations fuel oracle w1 b1 w2 b2 ops :
  Forall2 obs_agree (observe fuel (fresh oracle) (HFlags w1 b1 :: ops))
                    (observe fuel (fresh oracle) (HFlags w2 b2 :: ops))
  /\ sim (run_state fuel (fresh oracle) (HFlags w1 b1 :: ops))
         (run_state fuel (fresh oracle) (HFlags w2 b2 :: ops)).
Proof.
  apply C17_transparent_history; [|apply sim_refl].
  constructor; [apply om_flags|apply ops_match_refl].
Qed.

(* a line that is the TRACE command ([b] = true) or the NOTRACE command, however spelled *)
Lemma start_evaluating_trace fuel line (b : bool) s :
  state s = Idle -> command_of line = Some (if b then CTrace else CNoTrace) ->
  start_evaluating fuel line s
  = (Ok tt, set_flags (enable_warnings (imm_reset [] s)) b (imm_reset [] s)).
Proof.
  intros Hidle Hc. unfold start_evaluating. rewrite (evaluate_impl_command fuel line _ s Hidle Hc).
  destruct b; reflexivity.
Qed.

Theorem trace_cmds_only_flag fuel s :
  state s = Idle ->
  let r1 := start_evaluating fuel (bs "TRACE") s in
  let r2 := start_evaluating fuel (bs "NOTRACE") s in
  fst r1 = Ok tt /\ fst r2 = Ok tt
  /\ sim (snd r1) (snd r2)
  /\ enable_tracing (snd r1) = true /\ enable_tracing (snd r2) = false
  /\ enable_warnings (snd r1) = enable_warnings s /\ enable_warnings (snd r2) = enable_warnings s.
Proof.
  intros Hidle. cbv zeta.
  rewrite (start_evaluating_trace fuel _ true s Hidle), (start_evaluating_trace fuel _ false s Hidle)
    by (vm_compute; reflexivity).
  cbn [fst snd].
  assert (Hw : enable_warnings (imm_reset [] s) = enable_warnings s).
  { unfold imm_reset. destruct (breakpoint s); reflexivity. }
  split; [reflexivity|]. split; [reflexivity|].
  split; [apply sim_set_flags, sim_refl|].
  repeat split; try reflexivity; exact Hw.
Qed.

(* Non-vacuity: a program reading an unset variable, in all four flag
   configurations.  The raw output queues differ (Trace and Warning records
   are really produced), their erasures coincide. *)

Definition demo_ops (w b : bool) : list hostop :=
  [HFlags w b; HLine (bs "10 PRINT X"); HLine (bs "RUN")].

Definition raw_outs (o : option (res unit * list output * interp)) : option (res unit * list output) :=
  match o with Some (r, outs, _) => Some (r, outs) | None => None end.

Definition erased_outs (o : option (res unit * list output * interp)) : option (res unit * list output) :=
  match o with Some (r, outs, _) => Some (r, erase outs) | None => None end.

Definition demo_run (w b : bool) := observe_calls default_fuel (fresh []) (demo_ops w b).

Example demo_traced_and_warned :
  map raw_outs (demo_run true true) =
  [None; Some (Ok tt, []);
   Some (Ok tt, [OTrace 10; OWarning (bs "Use of undeclared variable 'X'.") (Some 10%N);
                 OPrint (bs "0" ++ [10%N])])].
Proof. vm_compute. reflexivity. Qed.

Example demo_quiet :
  map raw_outs (demo_run false false) = [None; Some (Ok tt, []); Some (Ok tt, [OPrint (bs "0" ++ [10%N])])].
Proof. vm_compute. reflexivity. Qed.

Example demo_raw_outputs_differ :
  map raw_outs (demo_run true true) <> map raw_outs (demo_run false false)
  /\ map raw_outs (demo_run true false) <> map raw_outs (demo_run false false)
  /\ map raw_outs (demo_run false true) <> map raw_outs (demo_run false false)
  /\ map raw_outs (demo_run true false) <> map raw_outs (demo_run false true).
Proof. vm_compute. repeat split; intros E; discriminate E. Qed.

Example demo_erased_outputs_agree :
  map erased_outs (demo_run true true) = map erased_outs (demo_run false false)
  /\ map erased_outs (demo_run true false) = map erased_outs (demo_run false false)
  /\ map erased_outs (demo_run false true) = map erased_outs (demo_run false false).
Proof. vm_compute. repeat split. Qed.

(* the same on the rendered rows: the outputs column differs, the others
   compared by [row_agree] do not *)
Example demo_rows :
  let a := observe default_fuel (fresh []) (demo_ops true true) in
  let b := observe default_fuel (fresh []) (demo_ops false false) in
  map (option_map r_outputs) a <> map (option_map r_outputs) b
  /\ map (option_map (fun r => (r_outcome r, r_state r, r_caret r, r_msg r, r_reads r))) a
     = map (option_map (fun r => (r_outcome r, r_state r, r_caret r, r_msg r, r_reads r))) b.
Proof. vm_compute. split; [intros E; discriminate E|reflexivity]. Qed.

(* Every primitive, evaluator and host call respects [sim]: the walk of section [Rel] at
   [sim_congruence] and [sim_flags], one lemma per definition. *)

Lemma respects_cur_tokens : respects cur_tokens.
Proof. apply r2_cur_tokens, sim_congruence. Qed.

Lemma respects_peek : respects peek_next_token.
Proof. apply r2_peek, sim_congruence. Qed.

Lemma respects_has_next : respects has_next_token.
Proof. apply r2_has_next, sim_congruence. Qed.

Lemma respects_advance : respects advance.
Proof. apply r2_advance, sim_congruence. Qed.

Lemma respects_next_token : respects next_token.
Proof. apply r2_next_token, sim_congruence. Qed.

Lemma respects_next_unwrapped : respects next_unwrapped_token.
Proof. apply r2_next_unwrapped, sim_congruence. Qed.

Lemma respects_expect e : respects (expect_next_token e).
Proof. apply r2_expect, sim_congruence. Qed.

Lemma respects_accept e : respects (accept_next_token e).
Proof. apply r2_accept, sim_congruence. Qed.

Lemma respects_peek_is e : respects (peek_is e).
Proof. apply r2_peek_is, sim_congruence. Qed.

Lemma respects_try {A} (f : token -> option A) : respects (try_next_token f).
Proof. apply r2_try, sim_congruence. Qed.

Lemma respects_discard : respects discard_remaining_tokens.
Proof. apply r2_discard, sim_congruence. Qed.

Lemma respects_rewind_loop i e : respects (rewind_loop i e).
Proof. apply r2_rewind_loop, sim_congruence. Qed.

Lemma respects_rewind e : respects (rewind_before_token e).
Proof. apply r2_rewind, sim_congruence. Qed.

Lemma respects_get_line_number : respects get_line_number.
Proof. apply r2_get_line_number, sim_congruence. Qed.

Lemma respects_set_imm ts : respects (set_and_goto_immediate_line ts).
Proof. apply r2_set_imm, sim_congruence. Qed.

Lemma respects_remove_loop sym : respects (remove_loop_with_name sym).
Proof. apply r2_remove_loop, sim_congruence. Qed.

Lemma respects_program_break : respects program_break_at_current_location.
Proof. apply r2_program_break, sim_congruence. Qed.

Lemma respects_continue_bp : respects continue_from_breakpoint.
Proof. apply r2_continue_bp, sim_congruence. Qed.

Lemma respects_variables_set n v : respects (variables_set n v).
Proof. apply r2_variables_set, sim_congruence. Qed.

Lemma respects_variables_get n : respects (variables_get n).
Proof. apply r2_variables_get, sim_congruence. Qed.

Lemma respects_start_loop sym a b c : respects (start_loop sym a b c).
Proof. apply r2_start_loop, sim_congruence. Qed.

Lemma respects_end_loop sym : respects (end_loop sym).
Proof. apply r2_end_loop, sim_congruence. Qed.

Lemma respects_reset_data : respects reset_data_cursor.
Proof. apply r2_reset_data, sim_congruence. Qed.

Lemma respects_program_end : respects program_end.
Proof. apply r2_program_end, sim_congruence. Qed.

Lemma respects_reset_runtime : respects reset_runtime_state.
Proof. apply r2_reset_runtime, sim_congruence. Qed.

Lemma respects_run_from_first : respects run_from_first_numbered_line.
Proof. apply r2_run_from_first, sim_congruence. Qed.

Lemma respects_goto n : respects (goto_line_number n).
Proof. apply r2_goto, sim_congruence. Qed.

Lemma respects_gosub n : respects (gosub_line_number n).
Proof. apply r2_gosub, sim_congruence. Qed.

Lemma respects_return : respects return_to_last_gosub.
Proof. apply r2_return, sim_congruence. Qed.

Lemma respects_define_function n a : respects (define_function n a).
Proof. apply r2_define_function, sim_congruence. Qed.

Lemma respects_push_fn n b : respects (push_function_call n b).
Proof. apply r2_push_fn, sim_congruence. Qed.

Lemma respects_pop_fn : respects pop_function_call.
Proof. apply r2_pop_fn, sim_congruence. Qed.

Lemma respects_find_var n : respects (find_variable_value_in_stack n).
Proof. apply r2_find_var, sim_congruence. Qed.

Lemma respects_next_data : respects next_data_element.
Proof. apply r2_next_data, sim_congruence. Qed.

Lemma respects_is_else : respects is_else_of_then_clause.
Proof. apply r2_is_else, sim_congruence. Qed.

Lemma respects_next_line : respects next_line.
Proof. apply r2_next_line, sim_congruence. Qed.

Lemma respects_set_numbered_line n ts : respects (set_numbered_line n ts).
Proof. apply r2_set_numbered_line, sim_congruence. Qed.

Lemma respects_arrays_create n i : respects (arrays_create n i).
Proof. apply r2_arrays_create, sim_congruence. Qed.

Lemma respects_maybe_default n d : respects (maybe_create_default_array n d).
Proof. apply r2_maybe_default, sim_congruence. Qed.

Lemma respects_arrays_get n i : respects (arrays_get n i).
Proof. apply r2_arrays_get, sim_congruence. Qed.

Lemma respects_arrays_set n i v : respects (arrays_set n i v).
Proof. apply r2_arrays_set, sim_congruence. Qed.

Lemma respects_rng_rnd x : respects (rng_rnd x).
Proof. apply r2_rng_rnd, sim_congruence. Qed.

Lemma respects_push_output o : respects (push_output o).
Proof. apply r2_push_output, sim_congruence. Qed.

Lemma respects_eval_unary o v : respects (eval_unary o v).
Proof. apply r2_eval_unary. Qed.
Lemma respects_eval_addsub o a b : respects (eval_addsub o a b).
Proof. apply r2_eval_addsub. Qed.
Lemma respects_eval_muldiv o a b : respects (eval_muldiv o a b).
Proof. apply r2_eval_muldiv. Qed.
Lemma respects_eval_eq o a b : respects (eval_eq o a b).
Proof. apply r2_eval_eq. Qed.
Lemma respects_eval_and a b : respects (eval_and a b).
Proof. apply r2_eval_and. Qed.
Lemma respects_eval_or a b : respects (eval_or a b).
Proof. apply r2_eval_or. Qed.
Lemma respects_eval_pow a b : respects (eval_pow a b).
Proof. apply r2_eval_pow, sim_congruence. Qed.
Lemma respects_expect_number v : respects (expect_number v).
Proof. apply r2_expect_number. Qed.

Section Expr.
  Variable fuel : nat.
  Variable rec : M value.
  Hypothesis Hrec : respects rec.

  Lemma respects_bind_arguments args : forall i n b, respects (bind_arguments rec args i n b).
  Proof. apply (r2_bind_arguments _ sim_congruence), Hrec. Qed.

  Lemma respects_call_body : respects (call_body rec).
  Proof. apply (r2_call_body _ sim_congruence), Hrec. Qed.

  Lemma respects_array_index : respects (evaluate_array_index fuel rec).
  Proof. apply (r2_array_index _ sim_congruence), Hrec. Qed.

  Lemma respects_unary_arg : respects (unary_number_function_arg rec).
  Proof. apply (r2_unary_arg _ sim_congruence), Hrec. Qed.

  Lemma respects_user_function_call name : respects (user_function_call rec name).
  Proof. apply (r2_user_function_call _ sim_congruence), Hrec. Qed.

  Lemma respects_function_call name : respects (function_call rec name).
  Proof. apply (r2_function_call _ sim_congruence), Hrec. Qed.

  Lemma respects_expression_term : respects (expression_term fuel rec).
  Proof. apply (r2_expression_term _ sim_congruence sim_flags), Hrec. Qed.

  Lemma respects_parenthesized : respects (parenthesized_expression fuel rec).
  Proof. apply (r2_parenthesized _ sim_congruence sim_flags), Hrec. Qed.

  Lemma respects_unary_operator : respects (unary_operator fuel rec).
  Proof. apply (r2_unary_operator _ sim_congruence sim_flags), Hrec. Qed.

  Lemma respects_tier {O} (g : M (option O)) (operand : M value) (ap : O -> value -> value -> M value) :
    respects g -> respects operand -> (forall o a b, respects (ap o a b)) ->
    respects (tier fuel g operand ap).
  Proof. apply r2_tier. Qed.

  Lemma respects_accept_as {O} t (o : O) : respects (accept_as t o).
  Proof. apply r2_accept_as, sim_congruence. Qed.

  Lemma respects_logical_or : respects (logical_or_expression fuel rec).
  Proof. apply (r2_logical_or _ sim_congruence sim_flags), Hrec. Qed.
End Expr.

Theorem respects_evaluate_expression fuel : forall n, respects (evaluate_expression fuel n).
Proof. apply (r2_evaluate_expression _ sim_congruence sim_flags). Qed.

Section Stmt.
  Variable fuel : nat.
  Variable nest : nat.
  Variable rec : M unit.
  Hypothesis Hrec : respects rec.

  Lemma respects_expr : respects (expr fuel nest).
  Proof. apply (r2_expr _ sim_congruence sim_flags). Qed.

  Lemma respects_optional_index : respects (parse_optional_array_index fuel nest).
  Proof. apply (r2_optional_index _ sim_congruence sim_flags). Qed.

  Lemma respects_await : respects rewind_program_and_await_input.
  Proof. apply r2_await, sim_congruence. Qed.

  Lemma respects_break : respects break_at_current_location.
  Proof. apply r2_break, sim_congruence. Qed.

  Lemma respects_goto_stmt : respects evaluate_goto_statement.
  Proof. apply r2_goto_stmt, sim_congruence. Qed.

  Lemma respects_gosub_stmt : respects evaluate_gosub_statement.
  Proof. apply r2_gosub_stmt, sim_congruence. Qed.

  Lemma respects_stmt_or_goto : respects (statement_or_goto_line_number rec).
  Proof. apply (r2_stmt_or_goto _ sim_congruence), Hrec. Qed.

  Lemma respects_if : respects (evaluate_if_statement fuel nest rec).
  Proof. apply (r2_if _ sim_congruence sim_flags), Hrec. Qed.

  Lemma respects_assign lv v : respects (assign_value lv v).
  Proof. apply (r2_assign _ sim_congruence sim_flags). Qed.

  Lemma respects_assignment sym : respects (evaluate_assignment_statement fuel nest sym).
  Proof. apply (r2_assignment _ sim_congruence sim_flags). Qed.

  Lemma respects_let : respects (evaluate_let_statement fuel nest).
  Proof. apply (r2_let _ sim_congruence sim_flags). Qed.

  Lemma respects_parse_lvalue : respects (parse_lvalue fuel nest).
  Proof. apply (r2_parse_lvalue _ sim_congruence sim_flags). Qed.

  Lemma respects_read : respects (evaluate_read_statement fuel nest).
  Proof. apply (r2_read _ sim_congruence sim_flags). Qed.

  Lemma respects_take_input : respects take_input.
  Proof. apply r2_take_input, sim_congruence. Qed.

  Lemma respects_input : respects (evaluate_input_statement fuel nest).
  Proof. apply (r2_input _ sim_congruence sim_flags). Qed.

  Lemma respects_dim : respects (evaluate_dim_statement fuel nest).
  Proof. apply (r2_dim _ sim_congruence sim_flags). Qed.

  Lemma respects_print : respects (evaluate_print_statement fuel nest).
  Proof. apply (r2_print _ sim_congruence sim_flags). Qed.

  Lemma respects_for : respects (evaluate_for_statement fuel nest).
  Proof. apply (r2_for _ sim_congruence sim_flags). Qed.

  Lemma respects_next_stmt : respects evaluate_next_statement.
  Proof. apply r2_next_stmt, sim_congruence. Qed.

  Lemma respects_def : respects (evaluate_def_statement fuel).
  Proof. apply r2_def, sim_congruence. Qed.

  Lemma respects_statement_body : respects (evaluate_statement_body fuel nest rec).
  Proof. apply (r2_statement_body _ sim_congruence sim_flags), Hrec. Qed.
End Stmt.

Theorem respects_evaluate_statement fuel : forall n, respects (evaluate_statement fuel n).
Proof. apply (r2_evaluate_statement _ sim_congruence sim_flags). Qed.

Theorem respects_run_next_statement fuel : respects (run_next_statement fuel).
Proof. apply (r2_run_next_statement _ sim_congruence sim_flags). Qed.

Theorem respects_process_command fuel c : respects (process_command fuel c).
Proof. apply (r2_process_command _ sim_congruence sim_flags). Qed.

Lemma postprocess_sim {A} (r1 r2 : res A * interp) :
  fst r1 = fst r2 -> sim (snd r1) (snd r2) ->
  fst (postprocess r1) = fst (postprocess r2) /\ sim (snd (postprocess r1)) (snd (postprocess r2)).
Proof. apply postprocess_rel, sim_congruence. Qed.

Lemma respects_postprocess {A} (m : M A) : respects m -> respects (fun s => postprocess (m s)).
Proof. apply r2_postprocess, sim_congruence. Qed.

Lemma respects_evaluate_impl fuel line : respects (evaluate_impl fuel line).
Proof. apply (r2_evaluate_impl _ sim_congruence sim_flags). Qed.

Theorem respects_start_evaluating fuel line : respects (start_evaluating fuel line).
Proof. apply (r2_start_evaluating _ sim_congruence sim_flags). Qed.

Theorem respects_continue_evaluating fuel : respects (continue_evaluating fuel).
Proof. apply (r2_continue_evaluating _ sim_congruence sim_flags). Qed.

Theorem respects_provide_input text : respects (provide_input text).
Proof. apply r2_provide_input, sim_congruence. Qed.

Theorem respects_host_break : respects host_break.
Proof. apply r2_host_break, sim_congruence. Qed.

Theorem respects_randomize n : respects (randomize n).
Proof. apply r2_randomize, sim_congruence. Qed.

Print Assumptions respects_evaluate_expression.
Print Assumptions respects_evaluate_statement.
Print Assumptions respects_run_next_statement.
Print Assumptions respects_process_command.
Print Assumptions respects_start_evaluating.
Print Assumptions respects_continue_evaluating.
Print Assumptions respects_provide_input.
Print Assumptions respects_host_break.
Print Assumptions respects_randomize.
Print Assumptions legal_sim.
Print Assumptions step_is_call_obs.
Print Assumptions call_obs_match.
Print Assumptions step_state_match.
Print Assumptions step_row_match.
Print Assumptions C17_transparent_history.
Print Assumptions C17_transparent_calls.
Print Assumptions C17_four_configurations.
Print Assumptions trace_cmds_only_flag.
Print Assumptions demo_raw_outputs_differ.
Print Assumptions demo_erased_outputs_agree.
