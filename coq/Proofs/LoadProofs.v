(* C15: loading a file equals typing it in.  For a file whose lines are all
   numbered, non-empty and tokenizable ([wf_line]), pass 1 of the analyzer
   stores exactly what entering the lines one by one stores, and the two
   interpreter states are equal; the analysis' walk changes only cursor-like
   fields (AnalyzerFrame) and into_interpreter resets those, so the loaded
   interpreter is the typed-in one but for the hook counter, whatever the
   analysis found (the --skip-check path uses the same loader).  Second half:
   the command line applies its options to whichever interpreter it uses. *)
From Coq Require Import List NArith ZArith Bool.
From Abasic Require Import Model.Bytes Model.Lexer Model.State Model.Interp Model.Analyzer
     Proofs.StoreProofs Proofs.ResetProofs Proofs.AnalyzerFrame Proofs.AnalyzerProofs.
Import ListNotations.
Local Open Scope nat_scope.

Definition wf_line (line : bytes) : Prop :=
  exists n toks, edit_of line = Some (n, toks) /\ toks <> [].

(* a state in which nothing refers into the program and no call is in progress *)
Definition settled (s : interp) : Prop :=
  breakpoint s = None /\ stack s = [] /\ loops s = [] /\ data_it s = None /\ functions s = []
  /\ immediate s = [] /\ loc s = imm0 /\ reads s = 0 /\ outputs s = [] /\ state s = Idle.

Lemma settled_init : settled init_interp.
Proof. unfold settled, init_interp. cbn. repeat split. Qed.

Lemma edit_of_inv line n toks :
  edit_of line = Some (n, toks) ->
  command_of line = None /\ exists e ts, parse_line_number line = Some (n, e)
                                        /\ tokenize line e = TokOk ts /\ map fst ts = toks.
Proof.
  unfold edit_of. destruct (command_of line); [discriminate|].
  destruct (parse_line_number line) as [[n' e]|]; [|discriminate].
  destruct (tokenize line e) as [ts|ts err] eqn:Et; [|discriminate].
  intros H; inversion H; subst. split; [reflexivity|]. exists e, ts. repeat split; assumption.
Qed.

Lemma set_numbered_line_settled n toks s :
  settled s -> snd (set_numbered_line n toks s) = store_set n toks s /\ settled (store_set n toks s).
Proof.
  intros (H1 & H2 & H3 & H4 & H5 & H6 & H7 & H8 & H9 & H10).
  destruct s as [tk ks im lc bp st lp di fs inp outs stt rg vs ars w tr orc rd].
  cbn in H1, H2, H3, H4, H5, H6, H7, H8, H9, H10. subst.
  split; [destruct toks; reflexivity | destruct toks; repeat split].
Qed.

Lemma step_line_settled fuel s line n toks :
  settled s -> edit_of line = Some (n, toks) ->
  snd (step fuel s (HLine line)) = store_set n toks s.
Proof.
  intros Hs He. pose proof Hs as (H1 & H2 & H3 & H4 & H5 & H6 & H7 & H8 & H9 & H10).
  rewrite step_line, (start_edit fuel (set_reads 0 s) line n toks H10 He) by exact H10.
  destruct s as [tk ks im lc bp st lp di fs inp outs stt rg vs ars w tr orc rd]; cbn in *; subst.
  destruct toks; reflexivity.
Qed.

Lemma pass1_line_prog i line p n toks :
  edit_of line = Some (n, toks) -> toks <> [] ->
  p_prog (pass1_line i line p) = snd (set_numbered_line n toks (p_prog p)).
Proof.
  intros He Hne. destruct (edit_of_inv line n toks He) as (Hc & e & ts & Hp & Ht & Hm).
  destruct (pass1_line_case i line p) as (prog & msgs & binds & lr & lt & C & ->). cbn [p_prog].
  destruct C as [El | _ Ep | n' e' _ Ep Et | n' e' ts' _ Ep Et _ | n' e' ts' err _ Ep Et];
    [subst line; discriminate Hp | rewrite Hp in Ep .. ]; try discriminate Ep;
    injection Ep as <- <-; rewrite Ht in Et; try discriminate Et; injection Et as Ets.
  - exfalso. apply Hne. rewrite <- Hm, Ets. reflexivity.
  - rewrite <- Ets, Hm. reflexivity.
Qed.

Theorem pass1_is_typing fuel : forall lines i p s,
  Forall wf_line lines -> settled s -> p_prog p = s ->
  p_prog (pass1_lines i lines p) = run_state fuel s (map HLine lines)
  /\ settled (run_state fuel s (map HLine lines)).
Proof.
  induction lines as [|line lines IH]; intros i p s Hwf Hs Hp; cbn [pass1_lines map run_state].
  - split; assumption.
  - inversion Hwf as [|? ? (n & toks & He & Hne) Hwf']; subst.
    destruct (set_numbered_line_settled n toks (p_prog p) Hs) as [Hsn Hst].
    apply IH; [exact Hwf'| |].
    + rewrite (step_line_settled fuel (p_prog p) line n toks Hs He). exact Hst.
    + rewrite (pass1_line_prog i line p n toks He Hne), Hsn.
      symmetry. apply step_line_settled; assumption.
Qed.

Definition rt_reset (s : interp) : interp := snd (reset_runtime_state s).

Lemma rt_reset_eq s :
  rt_reset s = mkinterp (st_toks s) (st_keys s) [] imm0 None [] [] None [] (input s) (outputs s) (state s)
                        (rng s) (variables s) (arrays s) (enable_warnings s) (enable_tracing s)
                        (pow_oracle s) (reads s).
Proof.
  unfold rt_reset, reset_runtime_state, reset_data_cursor, program_end. rewrite set_imm_is_modify.
  unfold modify, bind, imm_reset. cbn. destruct s; reflexivity.
Qed.

(* of AF's fifteen equations the four on the immediate line, the breakpoint, the
   stack and the loops (H3 .. H6) are not needed: rt_reset overwrites those fields *)
Lemma rt_reset_AF a b : AF a b -> set_reads 0 (rt_reset b) = set_reads 0 (rt_reset a).
Proof.
  intros (H1 & H2 & H3 & H4 & H5 & H6 & H7 & H8 & H9 & H10 & H11 & H12 & H13 & H14 & H15).
  rewrite !rt_reset_eq. rewrite H1, H2, H7, H8, H9, H10, H11, H12, H13, H14, H15. reflexivity.
Qed.

Lemma rt_reset_run_from_first s :
  set_reads 0 (rt_reset (snd (run_from_first_numbered_line s))) = set_reads 0 (rt_reset s).
Proof.
  rewrite !rt_reset_eq.
  unfold run_from_first_numbered_line, reset_runtime_state, reset_data_cursor, program_end.
  rewrite set_imm_is_modify. unfold modify, bind, imm_reset. cbn [snd fst].
  match goal with |- context [store_first ?x] => destruct (store_first x) end; destruct s; reflexivity.
Qed.

Lemma rt_reset_settled s : settled s -> set_reads 0 (rt_reset s) = set_reads 0 s.
Proof.
  intros (H1 & H2 & H3 & H4 & H5 & H6 & H7 & H8 & H9 & H10). rewrite rt_reset_eq.
  destruct s; cbn in *; subst. reflexivity.
Qed.

Lemma an_program_AF fuel text :
  AF (snd (run_from_first_numbered_line (p_prog (pass1_of text)))) (an_program (analyze fuel text)).
Proof.
  destruct (analyze_walk fuel text) as (n & r & msgs & st & Ew & _ & _ & _ & Ea & _).
  rewrite Ea. exact (af_walk_lines_eq fuel _ n _ _ [] r msgs st Ew).
Qed.

Theorem load_equals_typing fuel fuel' text :
  Forall wf_line (split_lines text) ->
  set_reads 0 (into_interpreter (analyze fuel text))
  = set_reads 0 (run_state fuel' init_interp (map HLine (split_lines text))).
Proof.
  intros Hwf.
  destruct (pass1_is_typing fuel' (split_lines text) 0 (mkpass1 init_interp [] (mkmap [] []) []) init_interp
              Hwf settled_init eq_refl) as [Hp Hs].
  fold (pass1_of text) in Hp.
  unfold into_interpreter. fold (rt_reset (an_program (analyze fuel text))).
  rewrite (rt_reset_AF _ _ (an_program_AF fuel text)).
  rewrite rt_reset_run_from_first, Hp. apply rt_reset_settled, Hs.
Qed.

(* StdioInterpreter::new / load_source_file (abasic-cli): the interpreter the
   session talks to is [configure w t seed] applied to a fresh interpreter
   (interactive / piped mode), resp. to the interpreter loaded from the file
   (file mode: into_interpreter, then configure_interpreter). *)

Definition configure (w t : bool) (seed : N) (s : interp) : interp :=
  set_rng (rng_new seed) (set_flags w t s).

Definition cli_file_mode (w t : bool) (seed : N) (fuel : nat) (text : bytes) : interp :=
  configure w t seed (into_interpreter (analyze fuel text)).

Definition cli_piped_mode (w t : bool) (seed : N) (fuel : nat) (lines : list bytes) : interp :=
  run_state fuel (configure w t seed init_interp) (map HLine lines).

Lemma store_set_configure w t seed n toks s :
  store_set n toks (configure w t seed s) = configure w t seed (store_set n toks s).
Proof. unfold store_set, configure. destruct toks; destruct s; reflexivity. Qed.

Lemma typing_commutes_configure fuel w t seed : forall lines s,
  Forall wf_line lines -> settled s ->
  run_state fuel (configure w t seed s) (map HLine lines)
  = configure w t seed (run_state fuel s (map HLine lines)).
Proof.
  induction lines as [|line lines IH]; intros s Hwf Hs; cbn [map run_state]; [reflexivity|].
  inversion Hwf as [|? ? (n & toks & He & Hne) Hwf']; subst.
  rewrite (step_line_settled fuel (configure w t seed s) line n toks Hs He).
  rewrite (step_line_settled fuel s line n toks Hs He).
  rewrite store_set_configure. apply IH; [exact Hwf'|].
  exact (proj2 (set_numbered_line_settled n toks s Hs)).
Qed.

Lemma configure_reads w t seed s : set_reads 0 (configure w t seed s) = configure w t seed (set_reads 0 s).
Proof. destruct s; reflexivity. Qed.

Theorem cli_modes_agree w t seed fuel fuel' text :
  Forall wf_line (split_lines text) ->
  set_reads 0 (cli_file_mode w t seed fuel text)
  = set_reads 0 (cli_piped_mode w t seed fuel' (split_lines text))
  /\ enable_warnings (cli_file_mode w t seed fuel text) = w
  /\ enable_tracing (cli_file_mode w t seed fuel text) = t
  /\ rng (cli_file_mode w t seed fuel text) = rng_new seed.
Proof.
  intros Hwf. split; [|repeat split].
  unfold cli_file_mode, cli_piped_mode.
  rewrite (typing_commutes_configure fuel' w t seed (split_lines text) init_interp Hwf settled_init).
  rewrite !configure_reads. f_equal. apply load_equals_typing, Hwf.
Qed.

(* the hook counter is reset at the start of every host call, so the two
   interpreters behave identically from then on, whatever the calls *)
Theorem same_behaviour fuel s1 s2 ops :
  set_reads 0 s1 = set_reads 0 s2 -> run_ops fuel s1 ops = run_ops fuel s2 ops.
Proof.
  intros H. revert s1 s2 H. induction ops as [|op ops IH]; intros s1 s2 H; cbn [run_ops]; [reflexivity|].
  destruct (step_reads fuel s1 s2 op H) as [E1 E2].
  destruct (step fuel s1 op) as [rw1 s1'], (step fuel s2 op) as [rw2 s2']. cbn [fst snd] in *. subst rw2.
  f_equal. apply IH, E2.
Qed.
