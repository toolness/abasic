(* Proofs/StoreExt.v — the interpreter sees the program store only through
   lookups (C04: order of entry is irrelevant; C10: interpreters holding the
   same program as a map answer RUN and every later call alike; C14: a reloaded
   listing behaves identically).

   An instance of the two-run walk of Proofs/FlagsSim.v: two interpreter states
   that agree on everything except the internal ORDER of the stored lines —
   every line number looks up the same tokens in both, the sorted key lists are
   equal ([sim]) — are related by a congruence for the state's interface
   ([sim_congruence], [sim_flags]), so they stay so related under every
   primitive, evaluator and host call, and every such computation returns the
   same result in both runs ([respects]).  [sim], [respects], [rel2], [erase] and
   the lemmas named after them are this file's own and hide those of
   FlagsSim.v, of which the walk and the step-level definitions are used. *)
From Coq Require Import List NArith Bool.
From Abasic Require Import Model.Bytes Model.Token Model.State Model.Eval Model.Interp Proofs.StoreProofs Proofs.FlagsSim.
Import ListNotations.

(* nothing is erased here: the two runs produce identical output queues.  The identity stands
   where FlagsSim.v has its [erase], so that [sim], [sim_set_outputs] and the instance of
   [call_obs_rel] have the shape they have there *)
Definition erase (l : list output) : list output := l.

(* states equal up to the internal order of the stored lines *)
Definition sim (s t : interp) : Prop :=
  (forall k, toks_get k (st_toks s) = toks_get k (st_toks t))
  /\ st_keys s = st_keys t /\ immediate s = immediate t /\ loc s = loc t
  /\ breakpoint s = breakpoint t /\ stack s = stack t /\ loops s = loops t /\ data_it s = data_it t
  /\ functions s = functions t /\ input s = input t /\ state s = state t /\ rng s = rng t
  /\ variables s = variables t /\ arrays s = arrays t /\ pow_oracle s = pow_oracle t /\ reads s = reads t
  /\ enable_warnings s = enable_warnings t /\ enable_tracing s = enable_tracing t
  /\ erase (outputs s) = erase (outputs t).

Lemma erase_app a b : erase (a ++ b) = erase a ++ erase b.
Proof. reflexivity. Qed.

(* [respR sim] and [rel2R sim], written out *)
Definition respects {A} (m : M A) : Prop :=
  forall s t, sim s t -> fst (m s) = fst (m t) /\ sim (snd (m s)) (snd (m t)).

Definition rel2 {A} (m1 m2 : M A) : Prop :=
  forall s t, sim s t -> fst (m1 s) = fst (m2 t) /\ sim (snd (m1 s)) (snd (m2 t)).

Lemma respects_rel2 {A} (m : M A) : respects m <-> rel2 m m.
Proof. split; intros H; exact H. Qed.

Lemma sim_refl s : sim s s.
Proof. unfold sim; repeat split; reflexivity. Qed.

(* [sim s t] says that [t] is [s] with a token table that looks up the same *)
Lemma sim_cases s t : sim s t ->
  exists T, t = set_store T (st_keys s) s /\ forall k, toks_get k (st_toks s) = toks_get k T.
Proof.
  intros H. exists (st_toks t).
  destruct s, t; unfold sim, erase in H; cbn in H. decompose [and] H; subst. split; [reflexivity|assumption].
Qed.

(* ... and every such [t] is related to [s] *)
Lemma sim_store s T : (forall k, toks_get k (st_toks s) = toks_get k T) -> sim s (set_store T (st_keys s) s).
Proof. intros H. unfold sim; sim_fields. repeat split. exact H. Qed.

(* replace [t] by that form of it, given [H : sim s t] *)
Ltac sim_subst H :=
  let T := fresh "T" in let HT := fresh "HT" in
  destruct (sim_cases _ _ H) as (T & -> & HT); sim_fields.

Lemma sim_sym s t : sim s t -> sim t s.
Proof.
  intros H; sim_subst H. unfold sim; sim_fields. repeat split; try reflexivity. intros k; symmetry; apply HT.
Qed.

Lemma sim_trans s t u : sim s t -> sim t u -> sim s u.
Proof.
  intros H1 H2; sim_subst H1; sim_subst H2. cbn [st_toks set_store] in *.
  unfold sim; sim_fields. repeat split; try reflexivity. intros k. rewrite HT. apply HT0.
Qed.

Lemma sim_st_toks s t : sim s t -> forall k, toks_get k (st_toks s) = toks_get k (st_toks t). Proof. unfold sim; tauto. Qed.
Lemma sim_st_keys s t : sim s t -> st_keys s = st_keys t. Proof. unfold sim; tauto. Qed.

(* lookups after an edit depend on the earlier lookups only *)
Lemma teq_remove n a b : (forall k, toks_get k a = toks_get k b) ->
  forall k, toks_get k (toks_remove n a) = toks_get k (toks_remove n b).
Proof.
  intros H k. destruct (N.eq_dec k n) as [->|Hne].
  - rewrite !toks_get_remove_same. reflexivity.
  - rewrite !toks_get_remove_other by exact Hne. apply H.
Qed.

Lemma teq_set n v a b : (forall k, toks_get k a = toks_get k b) ->
  forall k, toks_get k (toks_set n v a) = toks_get k (toks_set n v b).
Proof. intros H k. rewrite !toks_get_set. destruct (N.eqb n k); [reflexivity | apply H]. Qed.

Lemma data_chunks_ext keys a b : (forall k, toks_get k a = toks_get k b) -> data_chunks keys a = data_chunks keys b.
Proof. intros H. induction keys as [|n r IH]; cbn [data_chunks]; [reflexivity|]. rewrite (H n), IH. reflexivity. Qed.

(* goal [sim (f s) (f t)] for [f] built from setters, given [H : sim s t] *)
Ltac sim_solve H :=
  cbv beta zeta;
  unfold store_first, store_set, store_has, store_after, imm_reset;
  cbv beta zeta;
  sim_subst H;
  repeat match goal with |- context [match ?x with _ => _ end] => destruct x end;
  unfold sim; sim_fields;
  repeat split;
  first [ reflexivity | assumption | apply teq_set; assumption | apply teq_remove; assumption ].

(* goal [f s = f t] for a compared observation [f] *)
Ltac sim_get H :=
  sim_subst H; unfold store_has; sim_fields;
  match goal with HT : forall k, _ = toks_get k _ |- _ => rewrite <- ?HT end; reflexivity.

Lemma sim_set_store a b s t : sim s t -> sim (set_store a b s) (set_store a b t).
Proof. intros H; sim_solve H. Qed.
Lemma sim_set_immediate v s t : sim s t -> sim (set_immediate v s) (set_immediate v t).
Proof. intros H; sim_solve H. Qed.
Lemma sim_set_loc v s t : sim s t -> sim (set_loc v s) (set_loc v t).
Proof. intros H; sim_solve H. Qed.
Lemma sim_set_breakpoint v s t : sim s t -> sim (set_breakpoint v s) (set_breakpoint v t).
Proof. intros H; sim_solve H. Qed.
Lemma sim_set_stack v s t : sim s t -> sim (set_stack v s) (set_stack v t).
Proof. intros H; sim_solve H. Qed.
Lemma sim_set_loops v s t : sim s t -> sim (set_loops v s) (set_loops v t).
Proof. intros H; sim_solve H. Qed.
Lemma sim_set_data_it v s t : sim s t -> sim (set_data_it v s) (set_data_it v t).
Proof. intros H; sim_solve H. Qed.
Lemma sim_set_functions v s t : sim s t -> sim (set_functions v s) (set_functions v t).
Proof. intros H; sim_solve H. Qed.
Lemma sim_set_input v s t : sim s t -> sim (set_input v s) (set_input v t).
Proof. intros H; sim_solve H. Qed.
Lemma sim_set_state v s t : sim s t -> sim (set_state v s) (set_state v t).
Proof. intros H; sim_solve H. Qed.
Lemma sim_set_rng v s t : sim s t -> sim (set_rng v s) (set_rng v t).
Proof. intros H; sim_solve H. Qed.
Lemma sim_set_variables v s t : sim s t -> sim (set_variables v s) (set_variables v t).
Proof. intros H; sim_solve H. Qed.
Lemma sim_set_arrays v s t : sim s t -> sim (set_arrays v s) (set_arrays v t).
Proof. intros H; sim_solve H. Qed.
Lemma sim_set_oracle v s t : sim s t -> sim (set_oracle v s) (set_oracle v t).
Proof. intros H; sim_solve H. Qed.
Lemma sim_set_reads v s t : sim s t -> sim (set_reads v s) (set_reads v t).
Proof. intros H; sim_solve H. Qed.
Lemma sim_store_set n v s t : sim s t -> sim (store_set n v s) (store_set n v t).
Proof. intros H; sim_solve H. Qed.

Lemma sim_set_flags w b s t : sim s t -> sim (set_flags w b s) (set_flags w b t).
Proof. intros H; sim_solve H. Qed.

Lemma sim_set_outputs a b s t : sim s t -> erase a = erase b -> sim (set_outputs a s) (set_outputs b t).
Proof.
  intros H Hab. sim_subst H. unfold sim; sim_fields. repeat split; first [reflexivity | assumption].
Qed.

Lemma sim_push_both l s t :
  sim s t -> sim (set_outputs (outputs s ++ l) s) (set_outputs (outputs t ++ l) t).
Proof. intros H; sim_solve H. Qed.

Lemma respects_pure {A} (r : res A) : respects (fun s => (r, s)).
Proof. exact (respR_pure sim r). Qed.

Lemma respects_get {A} (f : interp -> A) :
  (forall s t, sim s t -> f s = f t) -> respects (get f).
Proof. exact (respR_get sim f). Qed.

Lemma respects_modify f :
  (forall s t, sim s t -> sim (f s) (f t)) -> respects (modify f).
Proof. exact (respR_modify sim f). Qed.

Lemma respects_bind {A B} (m : M A) (f : A -> M B) :
  respects m -> (forall a, respects (f a)) -> respects (bind m f).
Proof. exact (rel2R_bind sim m m f f). Qed.

Lemma respects_repeat {S T} n (body : S -> M (S + T)) :
  (forall acc, respects (body acc)) -> forall acc, respects (repeat_m n body acc).
Proof. exact (respR_repeat sim n body). Qed.

Lemma respects_tokens_for_line l : respects (tokens_for_line l).
Proof.
  intros s t H. unfold tokens_for_line. sim_subst H.
  destruct l as [n|]; [rewrite <- HT; destruct (toks_get n (st_toks s))|]; split; first [reflexivity|exact H].
Qed.

Lemma sim_data_chunks s t : sim s t -> data_chunks (st_keys s) (st_toks s) = data_chunks (st_keys t) (st_toks t).
Proof. intros H. rewrite (sim_st_keys s t H). apply data_chunks_ext, sim_st_toks, H. Qed.

Lemma sim_list_lines s t : sim s t -> list_lines (st_keys s) (st_toks s) = list_lines (st_keys t) (st_toks t).
Proof. intros H. rewrite (sim_st_keys s t H). apply list_lines_ext, sim_st_toks, H. Qed.

Lemma sim_congruence : congruence sim.
Proof.
  refine {| cg_tokens_for_line := respects_tokens_for_line; cg_data_chunks := sim_data_chunks;
            cg_list_lines := sim_list_lines; cg_set_immediate := sim_set_immediate;
            cg_set_loc := sim_set_loc; cg_set_breakpoint := sim_set_breakpoint; cg_set_stack := sim_set_stack;
            cg_set_loops := sim_set_loops; cg_set_data_it := sim_set_data_it;
            cg_set_functions := sim_set_functions; cg_set_input := sim_set_input;
            cg_set_state := sim_set_state; cg_set_rng := sim_set_rng; cg_set_variables := sim_set_variables;
            cg_set_arrays := sim_set_arrays; cg_set_reads := sim_set_reads; cg_store_set := sim_store_set;
            cg_push := sim_push_both |};
    intros; intros s t H; sim_get H.
Qed.

(* the flags are compared, so the two runs take the same branch at every flag read *)
Lemma sim_flags : flags_ok sim.
Proof. apply (flags_agree sim sim_congruence); [intros s t H; sim_get H..|exact sim_set_flags]. Qed.

(* Step and history level: every column of the row the harness compares —
   outcome (result, error and its location), interpreter state, the drained
   output queue, caret, message, reads — is the same in both runs; the
   snapshot column is not compared (it prints the store's internal key list). *)

Definition row_same (a b : row) : Prop :=
  r_outcome a = r_outcome b /\ r_state a = r_state b /\ r_outputs a = r_outputs b
  /\ r_caret a = r_caret b /\ r_msg a = r_msg b /\ r_reads a = r_reads b.

Definition orow_same (a b : option row) : Prop :=
  match a, b with
  | Some x, Some y => row_same x y
  | None, None => True
  | _, _ => False
  end.

Lemma row_same_refl a : row_same a a.
Proof. repeat split. Qed.

(* the row of a call that succeeds shows the state it leaves through these three fields only *)
Lemma ok_row_same u line s t : state s = state t -> outputs s = outputs t -> reads s = reads t ->
  row_same (fst (make_row (Ok u) line s)) (fst (make_row (Ok u) line t)).
Proof.
  intros Hs Ho Hr. rewrite !make_row_render. unfold row_same, render_row.
  cbn [fst r_outcome r_state r_outputs r_caret r_msg r_reads state reads set_outputs].
  rewrite Hs, Ho, Hr. repeat split.
Qed.

Lemma render_caret_sim e l line s t : sim s t -> render_caret e l line s = render_caret e l line t.
Proof. apply agrees_render_caret, sim_congruence. Qed.

Lemma render_row_same r line o s t : sim s t -> row_same (render_row r line o s) (render_row r line o t).
Proof.
  intros H. unfold row_same, render_row; cbn [r_outcome r_state r_outputs r_caret r_msg r_reads].
  repeat split.
  - f_equal. sim_get H.
  - unfold caret_text. destruct r as [u|e l|p| |]; try reflexivity.
    rewrite (render_caret_sim e l line s t H). reflexivity.
  - f_equal. sim_get H.
Qed.

Lemma make_row_sim r line s t : sim s t ->
  row_same (fst (make_row r line s)) (fst (make_row r line t))
  /\ sim (snd (make_row r line s)) (snd (make_row r line t)).
Proof.
  intros H. rewrite !make_row_render. cbn [fst snd].
  assert (H1 : sim (set_outputs [] s) (set_outputs [] t)) by (apply sim_set_outputs; [exact H | reflexivity]).
  split; [|exact H1]. replace (outputs t) with (outputs s) by sim_get H. apply render_row_same, H1.
Qed.

Theorem legal_sim s t op : sim s t -> legal s op = legal t op.
Proof. apply (agrees_legal sim sim_congruence op). Qed.

(* [FlagsSim.call_obs], the call before rendering, compared in full: equal results, equal drained
   queues, related states *)
Definition obs_same : option (res unit * list output * interp) -> option (res unit * list output * interp) -> Prop :=
  obsR sim erase.

Lemma sim_drain s t : sim s t -> sim (set_outputs [] s) (set_outputs [] t).
Proof. intros H. apply sim_set_outputs; [exact H|reflexivity]. Qed.

Lemma pack_sim (m : M unit) s t : respects m -> sim s t -> obs_same (pack (m s)) (pack (m t)).
Proof. apply (pack_rel sim erase); [intros s0 t0 H; sim_get H|exact sim_drain]. Qed.

Lemma fresh_sim s t : sim s t -> fresh (pow_oracle s) = fresh (pow_oracle t).
Proof. intros H. sim_get H. Qed.

Lemma call_obs_sim fuel s t op : sim s t -> obs_same (call_obs fuel s op) (call_obs fuel t op).
Proof.
  apply (call_obs_rel sim erase sim_congruence sim_flags sim_refl); [intros s0 t0 H; sim_get H|exact sim_drain].
Qed.

Theorem step_sim fuel s t op : sim s t ->
  orow_same (fst (step fuel s op)) (fst (step fuel t op)) /\ sim (snd (step fuel s op)) (snd (step fuel t op)).
Proof.
  intros H. rewrite !step_is_call_obs. pose proof (call_obs_sim fuel s t op H) as Ho.
  destruct (call_obs fuel s op) as [[[r1 o1] s1]|], (call_obs fuel t op) as [[[r2 o2] t1]|];
    unfold obs_same, obsR, erase in Ho; cbn [fst snd]; try contradiction.
  - destruct Ho as (-> & -> & Hs). split; [apply render_row_same|]; exact Hs.
  - split; [exact I|]. unfold silent_step. rewrite <- (legal_sim s t op H).
    destruct (legal s op); [|exact H].
    destruct op; try exact H; [apply sim_set_flags, H | rewrite <- (fresh_sim s t H); apply sim_refl].
Qed.

(* whole sessions: any two interpreters that differ only in the internal
   order of their stored lines answer every sequence of host operations with
   the same rows, and stay so related *)
Theorem history_sim fuel : forall ops s t, sim s t ->
  Forall2 orow_same (run_ops fuel s ops) (run_ops fuel t ops)
  /\ sim (run_state fuel s ops) (run_state fuel t ops).
Proof.
  intros ops. apply (history_rel sim orow_same eq).
  - intros s t a b H <-. apply step_sim, H.
  - induction ops; constructor; auto.
Qed.

(* Every primitive, evaluator and host call respects [sim]: the walk of FlagsSim.v at
   [sim_congruence] and [sim_flags], one lemma per definition. *)

Lemma respects_cur_tokens : respects cur_tokens.
Proof. apply r2_cur_tokens, sim_congruence. Qed.

Lemma respects_peek : respects peek_next_token.
Proof. apply r2_peek, sim_congruence. Qed.

Lemma respects_has_next : respects has_next_token.
Proof. apply r2_has_next, sim_congruence. Qed.

Lemma respects_advance : respects advance.
Proof. apply r2_advance, sim_congruence. Qed.

Lemma respects_next_token : respects next_token.
Proof. apply r2_next_token, sim_congruence. Qed.

Lemma respects_next_unwrapped : respects next_unwrapped_token.
Proof. apply r2_next_unwrapped, sim_congruence. Qed.

Lemma respects_expect e : respects (expect_next_token e).
Proof. apply r2_expect, sim_congruence. Qed.

Lemma respects_accept e : respects (accept_next_token e).
Proof. apply r2_accept, sim_congruence. Qed.

Lemma respects_peek_is e : respects (peek_is e).
Proof. apply r2_peek_is, sim_congruence. Qed.

Lemma respects_try {A} (f : token -> option A) : respects (try_next_token f).
Proof. apply r2_try, sim_congruence. Qed.

Lemma respects_discard : respects discard_remaining_tokens.
Proof. apply r2_discard, sim_congruence. Qed.

Lemma respects_rewind_loop i e : respects (rewind_loop i e).
Proof. apply r2_rewind_loop, sim_congruence. Qed.

Lemma respects_rewind e : respects (rewind_before_token e).
Proof. apply r2_rewind, sim_congruence. Qed.

Lemma respects_get_line_number : respects get_line_number.
Proof. apply r2_get_line_number, sim_congruence. Qed.

Lemma respects_set_imm ts : respects (set_and_goto_immediate_line ts).
Proof. apply r2_set_imm, sim_congruence. Qed.

Lemma respects_remove_loop sym : respects (remove_loop_with_name sym).
Proof. apply r2_remove_loop, sim_congruence. Qed.

Lemma respects_program_break : respects program_break_at_current_location.
Proof. apply r2_program_break, sim_congruence. Qed.

Lemma respects_continue_bp : respects continue_from_breakpoint.
Proof. apply r2_continue_bp, sim_congruence. Qed.

Lemma respects_variables_set n v : respects (variables_set n v).
Proof. apply r2_variables_set, sim_congruence. Qed.

Lemma respects_variables_get n : respects (variables_get n).
Proof. apply r2_variables_get, sim_congruence. Qed.

Lemma respects_start_loop sym a b c : respects (start_loop sym a b c).
Proof. apply r2_start_loop, sim_congruence. Qed.

Lemma respects_end_loop sym : respects (end_loop sym).
Proof. apply r2_end_loop, sim_congruence. Qed.

Lemma respects_reset_data : respects reset_data_cursor.
Proof. apply r2_reset_data, sim_congruence. Qed.

Lemma respects_program_end : respects program_end.
Proof. apply r2_program_end, sim_congruence. Qed.

Lemma respects_reset_runtime : respects reset_runtime_state.
Proof. apply r2_reset_runtime, sim_congruence. Qed.

Lemma respects_run_from_first : respects run_from_first_numbered_line.
Proof. apply r2_run_from_first, sim_congruence. Qed.

Lemma respects_goto n : respects (goto_line_number n).
Proof. apply r2_goto, sim_congruence. Qed.

Lemma respects_gosub n : respects (gosub_line_number n).
Proof. apply r2_gosub, sim_congruence. Qed.

Lemma respects_return : respects return_to_last_gosub.
Proof. apply r2_return, sim_congruence. Qed.

Lemma respects_define_function n a : respects (define_function n a).
Proof. apply r2_define_function, sim_congruence. Qed.

Lemma respects_push_fn n b : respects (push_function_call n b).
Proof. apply r2_push_fn, sim_congruence. Qed.

Lemma respects_pop_fn : respects pop_function_call.
Proof. apply r2_pop_fn, sim_congruence. Qed.

Lemma respects_find_var n : respects (find_variable_value_in_stack n).
Proof. apply r2_find_var, sim_congruence. Qed.

Lemma respects_next_data : respects next_data_element.
Proof. apply r2_next_data, sim_congruence. Qed.

Lemma respects_is_else : respects is_else_of_then_clause.
Proof. apply r2_is_else, sim_congruence. Qed.

Lemma respects_next_line : respects next_line.
Proof. apply r2_next_line, sim_congruence. Qed.

Lemma respects_set_numbered_line n ts : respects (set_numbered_line n ts).
Proof. apply r2_set_numbered_line, sim_congruence. Qed.

Lemma respects_arrays_create n i : respects (arrays_create n i).
Proof. apply r2_arrays_create, sim_congruence. Qed.

Lemma respects_maybe_default n d : respects (maybe_create_default_array n d).
Proof. apply r2_maybe_default, sim_congruence. Qed.

Lemma respects_arrays_get n i : respects (arrays_get n i).
Proof. apply r2_arrays_get, sim_congruence. Qed.

Lemma respects_arrays_set n i v : respects (arrays_set n i v).
Proof. apply r2_arrays_set, sim_congruence. Qed.

Lemma respects_rng_rnd x : respects (rng_rnd x).
Proof. apply r2_rng_rnd, sim_congruence. Qed.

Lemma respects_push_output o : respects (push_output o).
Proof. apply r2_push_output, sim_congruence. Qed.

Lemma respects_warn msg : respects (warn msg).
Proof. apply sim_flags. Qed.
Lemma respects_maybe_warn name : respects (maybe_warn_undeclared_array name).
Proof. apply sim_flags. Qed.
Lemma respects_eval_unary o v : respects (eval_unary o v).
Proof. apply r2_eval_unary. Qed.
Lemma respects_eval_addsub o a b : respects (eval_addsub o a b).
Proof. apply r2_eval_addsub. Qed.
Lemma respects_eval_muldiv o a b : respects (eval_muldiv o a b).
Proof. apply r2_eval_muldiv. Qed.
Lemma respects_eval_eq o a b : respects (eval_eq o a b).
Proof. apply r2_eval_eq. Qed.
Lemma respects_eval_and a b : respects (eval_and a b).
Proof. apply r2_eval_and. Qed.
Lemma respects_eval_or a b : respects (eval_or a b).
Proof. apply r2_eval_or. Qed.
Lemma respects_eval_pow a b : respects (eval_pow a b).
Proof. apply r2_eval_pow, sim_congruence. Qed.
Lemma respects_expect_number v : respects (expect_number v).
Proof. apply r2_expect_number. Qed.

Lemma populate_error_location_sim e l s t :
  sim s t -> populate_error_location e l s = populate_error_location e l t.
Proof. apply agrees_error_location, sim_congruence. Qed.
Section Expr.
  Variable fuel : nat.
  Variable rec : M value.
  Hypothesis Hrec : respects rec.

  Lemma respects_bind_arguments args : forall i n b, respects (bind_arguments rec args i n b).
  Proof. apply (r2_bind_arguments _ sim_congruence), Hrec. Qed.

  Lemma respects_call_body : respects (call_body rec).
  Proof. apply (r2_call_body _ sim_congruence), Hrec. Qed.

  Lemma respects_array_index : respects (evaluate_array_index fuel rec).
  Proof. apply (r2_array_index _ sim_congruence), Hrec. Qed.

  Lemma respects_unary_arg : respects (unary_number_function_arg rec).
  Proof. apply (r2_unary_arg _ sim_congruence), Hrec. Qed.

  Lemma respects_user_function_call name : respects (user_function_call rec name).
  Proof. apply (r2_user_function_call _ sim_congruence), Hrec. Qed.

  Lemma respects_function_call name : respects (function_call rec name).
  Proof. apply (r2_function_call _ sim_congruence), Hrec. Qed.

  Lemma respects_expression_term : respects (expression_term fuel rec).
  Proof. apply (r2_expression_term _ sim_congruence sim_flags), Hrec. Qed.

  Lemma respects_parenthesized : respects (parenthesized_expression fuel rec).
  Proof. apply (r2_parenthesized _ sim_congruence sim_flags), Hrec. Qed.

  Lemma respects_unary_operator : respects (unary_operator fuel rec).
  Proof. apply (r2_unary_operator _ sim_congruence sim_flags), Hrec. Qed.

  Lemma respects_tier {O} (g : M (option O)) (operand : M value) (ap : O -> value -> value -> M value) :
    respects g -> respects operand -> (forall o a b, respects (ap o a b)) ->
    respects (tier fuel g operand ap).
  Proof. apply r2_tier. Qed.

  Lemma respects_accept_as {O} t (o : O) : respects (accept_as t o).
  Proof. apply r2_accept_as, sim_congruence. Qed.

  Lemma respects_logical_or : respects (logical_or_expression fuel rec).
  Proof. apply (r2_logical_or _ sim_congruence sim_flags), Hrec. Qed.
End Expr.

Theorem respects_evaluate_expression fuel : forall n, respects (evaluate_expression fuel n).
Proof. apply (r2_evaluate_expression _ sim_congruence sim_flags). Qed.

Section Stmt.
  Variable fuel : nat.
  Variable nest : nat.
  Variable rec : M unit.
  Hypothesis Hrec : respects rec.

  Lemma respects_expr : respects (expr fuel nest).
  Proof. apply (r2_expr _ sim_congruence sim_flags). Qed.

  Lemma respects_optional_index : respects (parse_optional_array_index fuel nest).
  Proof. apply (r2_optional_index _ sim_congruence sim_flags). Qed.

  Lemma respects_await : respects rewind_program_and_await_input.
  Proof. apply r2_await, sim_congruence. Qed.

  Lemma respects_break : respects break_at_current_location.
  Proof. apply r2_break, sim_congruence. Qed.

  Lemma respects_goto_stmt : respects evaluate_goto_statement.
  Proof. apply r2_goto_stmt, sim_congruence. Qed.

  Lemma respects_gosub_stmt : respects evaluate_gosub_statement.
  Proof. apply r2_gosub_stmt, sim_congruence. Qed.

  Lemma respects_stmt_or_goto : respects (statement_or_goto_line_number rec).
  Proof. apply (r2_stmt_or_goto _ sim_congruence), Hrec. Qed.

  Lemma respects_if : respects (evaluate_if_statement fuel nest rec).
  Proof. apply (r2_if _ sim_congruence sim_flags), Hrec. Qed.

  Lemma respects_assign lv v : respects (assign_value lv v).
  Proof. apply (r2_assign _ sim_congruence sim_flags). Qed.

  Lemma respects_assignment sym : respects (evaluate_assignment_statement fuel nest sym).
  Proof. apply (r2_assignment _ sim_congruence sim_flags). Qed.

  Lemma respects_let : respects (evaluate_let_statement fuel nest).
  Proof. apply (r2_let _ sim_congruence sim_flags). Qed.

  Lemma respects_parse_lvalue : respects (parse_lvalue fuel nest).
  Proof. apply (r2_parse_lvalue _ sim_congruence sim_flags). Qed.

  Lemma respects_read : respects (evaluate_read_statement fuel nest).
  Proof. apply (r2_read _ sim_congruence sim_flags). Qed.

  Lemma respects_take_input : respects take_input.
  Proof. apply r2_take_input, sim_congruence. Qed.

  Lemma respects_input : respects (evaluate_input_statement fuel nest).
  Proof. apply (r2_input _ sim_congruence sim_flags). Qed.

  Lemma respects_dim : respects (evaluate_dim_statement fuel nest).
  Proof. apply (r2_dim _ sim_congruence sim_flags). Qed.

  Lemma respects_print : respects (evaluate_print_statement fuel nest).
  Proof. apply (r2_print _ sim_congruence sim_flags). Qed.

  Lemma respects_for : respects (evaluate_for_statement fuel nest).
  Proof. apply (r2_for _ sim_congruence sim_flags). Qed.

  Lemma respects_next_stmt : respects evaluate_next_statement.
  Proof. apply r2_next_stmt, sim_congruence. Qed.

  Lemma respects_def : respects (evaluate_def_statement fuel).
  Proof. apply r2_def, sim_congruence. Qed.

  Lemma respects_statement_body : respects (evaluate_statement_body fuel nest rec).
  Proof. apply (r2_statement_body _ sim_congruence sim_flags), Hrec. Qed.
End Stmt.

Theorem respects_evaluate_statement fuel : forall n, respects (evaluate_statement fuel n).
Proof. apply (r2_evaluate_statement _ sim_congruence sim_flags). Qed.

Theorem respects_run_next_statement fuel : respects (run_next_statement fuel).
Proof. apply (r2_run_next_statement _ sim_congruence sim_flags). Qed.

Lemma respects_list_lines :
  respects (fun s => (list_lines (st_keys s) (st_toks s), s)).
Proof. apply r2_list_lines, sim_congruence. Qed.
Theorem respects_process_command fuel c : respects (process_command fuel c).
Proof. apply (r2_process_command _ sim_congruence sim_flags). Qed.

Lemma postprocess_sim {A} (r1 r2 : res A * interp) :
  fst r1 = fst r2 -> sim (snd r1) (snd r2) ->
  fst (postprocess r1) = fst (postprocess r2) /\ sim (snd (postprocess r1)) (snd (postprocess r2)).
Proof. apply postprocess_rel, sim_congruence. Qed.
Lemma respects_postprocess {A} (m : M A) : respects m -> respects (fun s => postprocess (m s)).
Proof. apply r2_postprocess, sim_congruence. Qed.
Lemma respects_evaluate_impl fuel line : respects (evaluate_impl fuel line).
Proof. apply (r2_evaluate_impl _ sim_congruence sim_flags). Qed.

Theorem respects_start_evaluating fuel line : respects (start_evaluating fuel line).
Proof. apply (r2_start_evaluating _ sim_congruence sim_flags). Qed.

Theorem respects_continue_evaluating fuel : respects (continue_evaluating fuel).
Proof. apply (r2_continue_evaluating _ sim_congruence sim_flags). Qed.

Theorem respects_provide_input text : respects (provide_input text).
Proof. apply r2_provide_input, sim_congruence. Qed.

Theorem respects_host_break : respects host_break.
Proof. apply r2_host_break, sim_congruence. Qed.

Theorem respects_randomize n : respects (randomize n).
Proof. apply r2_randomize, sim_congruence. Qed.
