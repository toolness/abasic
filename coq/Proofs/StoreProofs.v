(* Proofs/StoreProofs.v — the program store (program_lines.rs) as a
   last-writer-wins map: invariant, refinement to an abstract map over all
   host-call histories ([run_state]: the state after a list of host calls),
   listing order, successor order.  Also, since [run_state] starts here, the first facts
   about a host call: what a typed line does from an idle state, by kind of line
   ([imm_reset], [evaluate_impl_command] / [_edit] / [_immediate], [evaluate_impl_idle]),
   through which the other files open [evaluate_impl]; [step_illegal], [step_reads]. *)
From Coq Require Import List NArith ZArith Bool Lia Sorted.
From Abasic Require Import Model.Bytes Model.Token Model.Lexer Model.State Model.Interp Proofs.Monad Proofs.Frames.
Import ListNotations.
Open Scope N_scope.

Lemma toks_get_remove_same n l : toks_get n (toks_remove n l) = None.
Proof.
  induction l as [|[k v] l IH]; cbn [toks_remove toks_get]; [reflexivity|].
  destruct (k =? n) eqn:E; [exact IH|]. cbn [toks_get]. rewrite E. exact IH.
Qed.

Lemma toks_get_remove_other n k l : k <> n -> toks_get k (toks_remove n l) = toks_get k l.
Proof.
  intros Hne. induction l as [|[k' v] l IH]; cbn [toks_remove toks_get]; [reflexivity|].
  destruct (k' =? n) eqn:E.
  - apply N.eqb_eq in E. subst k'. destruct (n =? k) eqn:E2; [apply N.eqb_eq in E2; congruence|exact IH].
  - cbn [toks_get]. destruct (k' =? k); [reflexivity|exact IH].
Qed.

Lemma toks_get_set n v k l :
  toks_get k (toks_set n v l) = if n =? k then Some v else toks_get k l.
Proof.
  unfold toks_set; cbn [toks_get]. destruct (n =? k) eqn:E; [reflexivity|].
  apply toks_get_remove_other. apply N.eqb_neq in E. congruence.
Qed.

Definition keys_sorted (l : list N) : Prop := StronglySorted N.lt l.

Lemma keys_insert_In n k l : In k (keys_insert n l) <-> k = n \/ In k l.
Proof.
  induction l as [|x l IH]; cbn [keys_insert].
  - cbn; intuition.
  - destruct (n <? x) eqn:E1; [cbn; intuition|].
    destruct (n =? x) eqn:E2.
    + apply N.eqb_eq in E2; subst; cbn; intuition.
    + cbn [In]. rewrite IH. intuition.
Qed.

Lemma keys_insert_sorted n l : keys_sorted l -> keys_sorted (keys_insert n l).
Proof.
  unfold keys_sorted. induction l as [|x l IH]; intros Hs; cbn [keys_insert].
  - repeat constructor.
  - inversion Hs as [|? ? Hs' Hall]; subst.
    destruct (n <? x) eqn:E1.
    + apply N.ltb_lt in E1. constructor; [exact Hs|].
      constructor; [exact E1|]. eapply Forall_impl; [|exact Hall]. intros; cbn in *; lia.
    + destruct (n =? x) eqn:E2; [exact Hs|].
      apply N.ltb_ge in E1. apply N.eqb_neq in E2.
      constructor; [apply IH; exact Hs'|].
      apply Forall_forall. intros k Hk. apply keys_insert_In in Hk.
      destruct Hk as [->|Hk]; [lia|]. rewrite Forall_forall in Hall. apply Hall; exact Hk.
Qed.

Lemma keys_remove_In n k l : keys_sorted l -> (In k (keys_remove n l) <-> k <> n /\ In k l).
Proof.
  unfold keys_sorted. induction l as [|x l IH]; intros Hs; cbn [keys_remove].
  - cbn; intuition.
  - inversion Hs as [|? ? Hs' Hall]; subst. rewrite Forall_forall in Hall.
    destruct (x =? n) eqn:E.
    + apply N.eqb_eq in E; subst. cbn [In]. split.
      * intros Hk. split; [specialize (Hall _ Hk); lia|auto].
      * intros [Hne [->|Hk]]; [congruence|exact Hk].
    + apply N.eqb_neq in E. cbn [In]. rewrite (IH Hs'). intuition; subst; auto.
Qed.

Lemma keys_remove_sorted n l : keys_sorted l -> keys_sorted (keys_remove n l).
Proof.
  unfold keys_sorted. induction l as [|x l IH]; intros Hs; cbn [keys_remove]; [constructor|].
  inversion Hs as [|? ? Hs' Hall]; subst.
  destruct (x =? n); [exact Hs'|].
  constructor; [apply IH; exact Hs'|].
  apply Forall_forall. intros k Hk. apply (keys_remove_In n k l Hs') in Hk.
  rewrite Forall_forall in Hall. apply Hall. tauto.
Qed.

Lemma sorted_same_members (l1 l2 : list N) :
  keys_sorted l1 -> keys_sorted l2 -> (forall k, In k l1 <-> In k l2) -> l1 = l2.
Proof.
  unfold keys_sorted. revert l2. induction l1 as [|a l1 IH]; intros l2 H1 H2 Hm.
  - destruct l2 as [|b l2]; [reflexivity|]. exfalso. apply (Hm b). left; reflexivity.
  - destruct l2 as [|b l2]; [exfalso; apply (Hm a); left; reflexivity|].
    inversion H1 as [|? ? S1 F1]; subst. inversion H2 as [|? ? S2 F2]; subst.
    rewrite Forall_forall in F1, F2.
    assert (a = b).
    { destruct (proj1 (Hm a) (or_introl eq_refl)) as [E|Hin]; [congruence|].
      destruct (proj2 (Hm b) (or_introl eq_refl)) as [E|Hin']; [congruence|].
      specialize (F1 _ Hin'). specialize (F2 _ Hin). lia. }
    subst b. f_equal. apply IH; try assumption.
    intros k. split; intros Hk.
    + destruct (proj1 (Hm k) (or_intror Hk)) as [E|H]; [|exact H]. subst k. specialize (F1 _ Hk). lia.
    + destruct (proj2 (Hm k) (or_intror Hk)) as [E|H]; [|exact H]. subst k. specialize (F2 _ Hk). lia.
Qed.

(* The store invariant: the set is strictly ascending, both indexes hold the
   same keys, and no stored line is empty. *)
Definition store_ok (s : interp) : Prop :=
  keys_sorted (st_keys s)
  /\ (forall n, In n (st_keys s) <-> toks_get n (st_toks s) <> None)
  /\ (forall n, toks_get n (st_toks s) <> Some []).

Lemma store_ok_init : store_ok init_interp.
Proof.
  unfold store_ok, init_interp; cbn. split; [constructor|]. split; [|congruence].
  intros n; split; [tauto|congruence].
Qed.

Lemma store_set_ok n v s : store_ok s -> store_ok (store_set n v s).
Proof.
  intros (Hs & Hk & He). unfold store_set, store_ok. destruct v as [|t v].
  - cbn [st_keys st_toks set_store]. split; [apply keys_remove_sorted; exact Hs|]. split.
    + intros k. rewrite (keys_remove_In n k _ Hs). destruct (N.eq_dec k n) as [->|Hne].
      * rewrite toks_get_remove_same. intuition.
      * rewrite (toks_get_remove_other n k _ Hne), Hk. intuition.
    + intros k. destruct (N.eq_dec k n) as [->|Hne].
      * rewrite toks_get_remove_same. congruence.
      * rewrite (toks_get_remove_other n k _ Hne). apply He.
  - cbn [st_keys st_toks set_store]. split; [apply keys_insert_sorted; exact Hs|]. split.
    + intros k. rewrite keys_insert_In, toks_get_set. destruct (n =? k) eqn:E.
      * apply N.eqb_eq in E. subst. intuition congruence.
      * apply N.eqb_neq in E. rewrite Hk. intuition congruence.
    + intros k. rewrite toks_get_set. destruct (n =? k); [congruence|apply He].
Qed.

(* the abstract specification: a map from line number to tokens *)
Definition amap := N -> option (list token).
Definition abs (s : interp) : amap := fun k => toks_get k (st_toks s).
Definition aempty : amap := fun _ => None.
Definition aupd (m : amap) (n : N) (v : list token) : amap :=
  fun k => if n =? k then (match v with [] => None | _ => Some v end) else m k.

Lemma abs_store_set n v s k : abs (store_set n v s) k = aupd (abs s) n v k.
Proof.
  unfold abs, aupd, store_set. destruct v as [|t v]; cbn [st_toks set_store].
  - destruct (n =? k) eqn:E.
    + apply N.eqb_eq in E; subst. apply toks_get_remove_same.
    + apply toks_get_remove_other. apply N.eqb_neq in E. congruence.
  - apply toks_get_set.
Qed.

(* What a submitted line means for the store (line-number parser + tokenizer;
   commands are recognised first). *)
Definition edit_of (line : bytes) : option (N * list token) :=
  match command_of line with
  | Some _ => None
  | None =>
      match parse_line_number line with
      | None => None
      | Some (n, e) =>
          match tokenize line e with
          | TokOk ts => Some (n, map fst ts)
          | TokErr _ _ => None
          end
      end
  end.

Definition spec_step (m : amap) (op : hostop) : amap :=
  match op with
  | HLine text => match edit_of text with Some (n, v) => aupd m n v | None => m end
  | HReplace | HNew => aempty
  | _ => m
  end.

(* under the invariant the map determines the key list *)
Lemma store_ok_keys s t : store_ok s -> store_ok t -> (forall k, abs s k = abs t k) -> st_keys s = st_keys t.
Proof.
  intros (S1 & K1 & _) (S2 & K2 & _) H. apply sorted_same_members; [exact S1 | exact S2 |].
  intros k. rewrite K1, K2. change (abs s k <> None <-> abs t k <> None). rewrite H. tauto.
Qed.

(* the evaluators never touch the store *)
Lemma rf_st_toks : runtime_frame st_toks. Proof. split; reflexivity. Qed.
Lemma rf_st_keys : runtime_frame st_keys. Proof. split; reflexivity. Qed.

Definition same_store (s s' : interp) : Prop := st_toks s' = st_toks s /\ st_keys s' = st_keys s.

Lemma same_store_preorder : preorder same_store.
Proof. split; unfold same_store; intros; intuition congruence. Qed.

(* no runtime setter touches the store either: [same_store] is an instance of the frame walk of Proofs/Frames.v *)
Lemma same_store_setters : setters_ok same_store.
Proof. split; [exact same_store_preorder | intros; split; reflexivity ..]. Qed.

Lemma same_store_run fuel : mrel same_store (run_next_statement fuel).
Proof. exact (fr_run_next_statement _ same_store_setters fuel). Qed.

Lemma same_store_modify f :
  (forall s, st_toks (f s) = st_toks s) -> (forall s, st_keys (f s) = st_keys s) ->
  mrel same_store (modify f).
Proof. intros H1 H2 s; split; cbn; auto. Qed.

Lemma same_store_process_command fuel c : mrel same_store (process_command fuel c).
Proof.
  (* LIST reads the store by [fun s => (list_lines .., s)]: no [modify], but [mrel] looks only at the state a run leaves, so the
     first leaf takes it with the identity for [f] *)
  destruct c; cbn [process_command];
    repeat mstep same_store_preorder ltac:(first
      [ apply same_store_modify; reflexivity
      | apply same_store_run
      | apply (fr_run_from_first _ same_store_setters)
      | apply (fr_continue_bp _ same_store_setters)
      | apply (fr_push_output _ same_store_setters) ]).
Qed.

Lemma set_numbered_line_store n ts s :
  st_toks (snd (set_numbered_line n ts s)) = st_toks (store_set n ts s)
  /\ st_keys (snd (set_numbered_line n ts s)) = st_keys (store_set n ts s).
Proof.
  split; [apply (keeps_set_numbered_line st_toks rf_st_toks) | apply (keeps_set_numbered_line st_keys rf_st_keys)].
Qed.

Lemma same_store_postprocess {A} (r : res A * interp) : same_store (snd r) (snd (postprocess r)).
Proof. destruct r as [[a|e l|p| |] s]; split; reflexivity. Qed.

(* the state [step] leaves behind a call that makes a row: the call's own, its outputs taken *)
Lemma row_state (x : res unit * interp) line :
  snd (let '(r, s1) := x in let '(rw, s2) := make_row r line s1 in (Some rw, s2)) = set_outputs [] (snd x).
Proof. destruct x. reflexivity. Qed.

Definition imm_reset (ts : list token) (s : interp) : interp :=
  set_loc imm0 (set_immediate ts (match breakpoint s with None => set_stack [] s | Some _ => s end)).

Lemma set_imm_is_modify ts : set_and_goto_immediate_line ts = modify (imm_reset ts).
Proof. reflexivity. Qed.

Lemma imm_reset_idem ts s : imm_reset ts (imm_reset [] s) = imm_reset ts s.
Proof. unfold imm_reset. destruct s; cbn. destruct breakpoint; reflexivity. Qed.

(* What a typed line does from an idle state, by the kind of line. *)
Lemma evaluate_impl_command fuel line c s :
  state s = Idle -> command_of line = Some c ->
  evaluate_impl fuel line s = process_command fuel c (imm_reset [] s).
Proof.
  intros Hidle Hc. unfold evaluate_impl.
  rewrite bind_get, Hidle, set_imm_is_modify, bind_modify, Hc. reflexivity.
Qed.

Lemma evaluate_impl_edit fuel line n v s :
  state s = Idle -> edit_of line = Some (n, v) ->
  evaluate_impl fuel line s = set_numbered_line n v (imm_reset [] s).
Proof.
  intros Hidle He. unfold evaluate_impl, edit_of in *.
  rewrite bind_get, Hidle, set_imm_is_modify, bind_modify.
  destruct (command_of line); [discriminate|].
  destruct (parse_line_number line) as [[n' k]|]; [|discriminate].
  destruct (tokenize line k); [|discriminate].
  injection He as <- <-. reflexivity.
Qed.

Lemma evaluate_impl_immediate fuel line ts s :
  state s = Idle -> command_of line = None -> parse_line_number line = None ->
  tokenize line 0 = TokOk ts ->
  evaluate_impl fuel line s = run_next_statement fuel (imm_reset (map fst ts) s).
Proof.
  intros Hidle Hc Hp Ht. unfold evaluate_impl.
  rewrite bind_get, Hidle, set_imm_is_modify, bind_modify, Hc, Hp, Ht.
  rewrite set_imm_is_modify, bind_modify, imm_reset_idem. reflexivity.
Qed.

Lemma evaluate_impl_busy fuel line s : state s <> Idle -> evaluate_impl fuel line s = (Panic PAssertState, s).
Proof. intros H. unfold evaluate_impl. rewrite bind_get. destruct (state s); [contradiction | reflexivity ..]. Qed.

(* ... as one case analysis; each case knows what made the line of its kind *)
Lemma evaluate_impl_idle (P : res unit * interp -> Prop) fuel line s :
  state s = Idle ->
  (forall c, command_of line = Some c -> P (process_command fuel c (imm_reset [] s))) ->
  (forall n ts, edit_of line = Some (n, ts) -> P (set_numbered_line n ts (imm_reset [] s))) ->
  (forall ts, command_of line = None -> parse_line_number line = None -> tokenize line 0 = TokOk ts ->
     P (run_next_statement fuel (imm_reset (map fst ts) s))) ->
  (forall ts e, command_of line = None ->
     tokenize line (match parse_line_number line with Some (_, k) => k | None => 0%nat end) = TokErr ts e ->
     P (Err (ESyntaxTok e) None, imm_reset [] s)) ->
  P (evaluate_impl fuel line s).
Proof.
  intros Hidle Hc He Hi Hx. unfold evaluate_impl, edit_of in *.
  rewrite bind_get, Hidle, set_imm_is_modify, bind_modify.
  destruct (command_of line) as [c|]; [apply Hc; reflexivity|].
  destruct (parse_line_number line) as [[n e]|].
  - destruct (tokenize line e) as [ts|ts x]; [apply He; reflexivity | apply (Hx ts); reflexivity].
  - destruct (tokenize line 0) as [ts|ts x]; [|apply (Hx ts); reflexivity].
    rewrite set_imm_is_modify, bind_modify, imm_reset_idem. apply Hi; reflexivity.
Qed.

Lemma imm_reset_same_store ts s : same_store s (imm_reset ts s).
Proof. unfold imm_reset, same_store. destruct (breakpoint s); split; reflexivity. Qed.

Lemma same_store_set_imm ts : mrel same_store (set_and_goto_immediate_line ts).
Proof. intros s. apply imm_reset_same_store. Qed.

Lemma evaluate_impl_store fuel line s :
  state s = Idle ->
  let s' := snd (evaluate_impl fuel line s) in
  match edit_of line with
  | Some (n, v) => st_toks s' = st_toks (store_set n v s) /\ st_keys s' = st_keys (store_set n v s)
  | None => same_store s s'
  end.
Proof.
  intros Hidle. cbn zeta. pose proof (imm_reset_same_store [] s) as H0. pose proof same_store_preorder as PO.
  apply (evaluate_impl_idle (fun x => match edit_of line with
           | Some (n, v) => st_toks (snd x) = st_toks (store_set n v s) /\ st_keys (snd x) = st_keys (store_set n v s)
           | None => same_store s (snd x) end)); [exact Hidle | ..]; unfold edit_of.
  - intros c ->. exact (po_trans _ PO _ _ _ H0 (same_store_process_command fuel c _)).
  - intros n v He. unfold edit_of in He. rewrite He.
    destruct (set_numbered_line_store n v (imm_reset [] s)) as [-> ->]. destruct H0 as [Ha Hb].
    unfold store_set. destruct v; cbn [st_toks st_keys set_store]; rewrite Ha, Hb; split; reflexivity.
  - intros ts -> -> _.
    exact (po_trans _ PO _ _ _ (imm_reset_same_store _ s) (same_store_run fuel _)).
  - intros ts e -> Ht. destruct (parse_line_number line) as [[n k]|]; try rewrite Ht; exact H0.
Qed.

Lemma same_store_abs s s' : same_store s s' -> forall k, abs s' k = abs s k.
Proof. intros [H _] k. unfold abs. rewrite H. reflexivity. Qed.

Lemma same_store_ok s s' : same_store s s' -> store_ok s -> store_ok s'.
Proof. intros [H1 H2]. unfold store_ok. rewrite H1, H2. tauto. Qed.

Lemma step_store fuel s op :
  legal s op = true ->
  let s' := snd (step fuel s op) in
  (forall k, abs s' k = spec_step (abs s) op k) /\ (store_ok s -> store_ok s').
Proof.
  intros Hlegal. cbn zeta.
  assert (Same : same_store s (snd (step fuel s op)) ->
                 (forall k, abs (snd (step fuel s op)) k = abs s k) /\ (store_ok s -> store_ok (snd (step fuel s op))))
    by (intros H; split; [apply same_store_abs | apply same_store_ok]; exact H).
  pose proof same_store_preorder as PO.
  assert (Out : forall s1, same_store s1 (set_outputs [] s1)) by (split; reflexivity).
  unfold step in *. rewrite Hlegal in *. cbn [negb] in *.
  destruct op as [text| |text| |seed| |w t|]; cbn [spec_step]; rewrite ?row_state in *.
  - (* HLine *)
    unfold legal in Hlegal. destruct (state s) eqn:Hst; try discriminate.
    pose proof (evaluate_impl_store fuel text (set_reads 0 s) Hst) as H. cbn zeta in H.
    pose proof (same_store_postprocess (evaluate_impl fuel text (set_reads 0 s))) as [Hp1 Hp2].
    pose proof (Out (snd (start_evaluating fuel text (set_reads 0 s)))) as [Hm1 Hm2].
    unfold start_evaluating in *.
    destruct (edit_of text) as [[n v]|].
    + destruct H as [Ha Hb]. split.
      * intros k. unfold abs at 1. rewrite Hm1, Hp1, Ha. apply (abs_store_set n v (set_reads 0 s)).
      * intros Hok. pose proof (store_set_ok n v (set_reads 0 s) Hok) as Hok'.
        unfold store_ok in *. rewrite Hm1, Hm2, Hp1, Hp2, Ha, Hb. exact Hok'.
    + apply Same. destruct H as [Ha Hb]. split; [rewrite Hm1, Hp1, Ha|rewrite Hm2, Hp2, Hb]; reflexivity.
  - (* HCont *)
    apply Same. eapply (po_trans _ PO); [|apply Out].
    unfold continue_evaluating. destruct (state (set_reads 0 s)); try (split; reflexivity).
    eapply (po_trans _ PO); [apply (same_store_run fuel (set_reads 0 s)) | apply same_store_postprocess].
  - (* HReply *)
    apply Same. eapply (po_trans _ PO); [|apply Out].
    unfold provide_input. destruct (state (set_reads 0 s)); split; reflexivity.
  - (* HBreak *)
    apply Same. eapply (po_trans _ PO); [|apply Out].
    exact (fr_break _ same_store_setters (set_reads 0 s)).
  - (* HRand *) apply Same. split; reflexivity.
  - (* HReplace *) split; [intros; reflexivity|]. intros _. apply store_ok_init.
  - (* HFlags *) apply Same. split; reflexivity.
  - (* HNew *) split; [intros; reflexivity|]. intros _. apply store_ok_init.
Qed.

Fixpoint run_state (fuel : nat) (s : interp) (ops : list hostop) : interp :=
  match ops with
  | [] => s
  | op :: r => run_state fuel (snd (step fuel s op)) r
  end.

(* the abstract run skips calls the protocol does not allow (the interpreter
   is not called for them) *)
Fixpoint spec_run (fuel : nat) (s : interp) (m : amap) (ops : list hostop) : amap :=
  match ops with
  | [] => m
  | op :: r =>
      spec_run fuel (snd (step fuel s op)) (if legal s op then spec_step m op else m) r
  end.

Lemma step_illegal fuel s op : legal s op = false -> snd (step fuel s op) = s.
Proof. intros H. unfold step. rewrite H. reflexivity. Qed.

(* a call reads the hook counter only to reset it *)
Lemma step_reads fuel s t op : set_reads 0 s = set_reads 0 t ->
  fst (step fuel s op) = fst (step fuel t op)
  /\ set_reads 0 (snd (step fuel s op)) = set_reads 0 (snd (step fuel t op)).
Proof.
  intros H. unfold step, legal.
  rewrite (f_equal state H : state s = state t), (f_equal pow_oracle H : pow_oracle s = pow_oracle t).
  destruct op as [| | | | | |w b|]; destruct (state t); cbn [negb]; rewrite ?H;
    first [ split; [reflexivity | exact H] | split; reflexivity | idtac ].
  all: split; [reflexivity|]; cbn [snd];
    change (set_reads 0 (set_flags w b s)) with (set_flags w b (set_reads 0 s));
    change (set_reads 0 (set_flags w b t)) with (set_flags w b (set_reads 0 t)); rewrite H; reflexivity.
Qed.

Theorem store_refines_spec fuel ops : forall s m,
  (forall k, abs s k = m k) ->
  forall k, abs (run_state fuel s ops) k = spec_run fuel s m ops k.
Proof.
  induction ops as [|op ops IH]; intros s m Hm k; cbn [run_state spec_run]; [apply Hm|].
  apply IH. intros k'. destruct (legal s op) eqn:Hl.
  - destruct (step_store fuel s op Hl) as [H _]. rewrite H.
    destruct op; cbn [spec_step]; try apply Hm; try reflexivity.
    destruct (edit_of text) as [[n v]|]; [|apply Hm].
    unfold aupd. rewrite Hm. reflexivity.
  - rewrite (step_illegal _ _ _ Hl). apply Hm.
Qed.

Theorem store_ok_reachable fuel ops : forall s, store_ok s -> store_ok (run_state fuel s ops).
Proof.
  induction ops as [|op ops IH]; intros s Hok; cbn [run_state]; [exact Hok|].
  apply IH. destruct (legal s op) eqn:Hl.
  - apply (step_store fuel s op Hl); exact Hok.
  - rewrite (step_illegal _ _ _ Hl). exact Hok.
Qed.

Lemma keys_after_spec n l : keys_sorted l ->
  match keys_after n l with
  | Some m => In m l /\ n < m /\ forall k, In k l -> n < k -> m <= k
  | None => forall k, In k l -> k <= n
  end.
Proof.
  unfold keys_sorted. induction l as [|x l IH]; intros Hs; cbn [keys_after].
  - intros k [].
  - inversion Hs as [|? ? Hs' Hall]; subst. rewrite Forall_forall in Hall.
    destruct (n <? x) eqn:E.
    + apply N.ltb_lt in E. split; [left; reflexivity|]. split; [exact E|].
      intros k [->|Hk] _; [lia|]. specialize (Hall _ Hk). lia.
    + apply N.ltb_ge in E. specialize (IH Hs'). destruct (keys_after n l) as [m|].
      * destruct IH as (Hin & Hlt & Hleast). split; [right; exact Hin|]. split; [exact Hlt|].
        intros k [->|Hk] Hnk; [lia|apply Hleast; assumption].
      * intros k [->|Hk]; [exact E|apply IH; exact Hk].
Qed.

Lemma store_first_spec s : store_ok s ->
  match store_first s with
  | Some m => In m (st_keys s) /\ forall k, In k (st_keys s) -> m <= k
  | None => st_keys s = []
  end.
Proof.
  intros (Hs & _ & _). unfold store_first, keys_sorted in *. destruct (st_keys s) as [|x l]; cbn; [reflexivity|].
  inversion Hs as [|? ? Hs' Hall]; subst. rewrite Forall_forall in Hall.
  split; [left; reflexivity|]. intros k [->|Hk]; [lia|]. specialize (Hall _ Hk). lia.
Qed.

(* LIST never hits the unwrap and prints the bindings in ascending key order *)
Lemma list_lines_ok keys toks :
  (forall n, In n keys -> toks_get n toks <> None) ->
  exists ls, list_lines keys toks = Ok ls
    /\ ls = map (fun n => show_N n ++ [32] ++
                  show_listing (match toks_get n toks with Some ts => ts | None => [] end) ++ [10]) keys.
Proof.
  induction keys as [|n keys IH]; intros H; cbn [list_lines map].
  - eexists; split; reflexivity.
  - destruct (toks_get n toks) as [ts|] eqn:E; [|exfalso; apply (H n); [left; reflexivity|exact E]].
    destruct IH as (ls & Hl & Heq); [intros k Hk; apply H; right; exact Hk|].
    rewrite Hl. eexists; split; [reflexivity|]. rewrite Heq. reflexivity.
Qed.

Lemma list_lines_ext keys t1 t2 :
  (forall k, toks_get k t1 = toks_get k t2) -> list_lines keys t1 = list_lines keys t2.
Proof.
  intros H. induction keys as [|n keys IH]; cbn [list_lines]; [reflexivity|].
  rewrite H, IH. reflexivity.
Qed.

Theorem list_output_ordered s : store_ok s ->
  exists ls, list_lines (st_keys s) (st_toks s) = Ok ls
    /\ length ls = length (st_keys s) /\ keys_sorted (st_keys s).
Proof.
  intros (Hs & Hk & _).
  destruct (list_lines_ok (st_keys s) (st_toks s)) as (ls & Hl & Heq).
  - intros n Hn. apply Hk; exact Hn.
  - exists ls. split; [exact Hl|]. split; [rewrite Heq; apply map_length|exact Hs].
Qed.

Lemma parse_line_number_range line n e : parse_line_number line = Some (n, e) -> n <= U64_MAX.
Proof.
  unfold parse_line_number. destruct (digit_run _); [discriminate|].
  destruct (_ <=? U64_MAX) eqn:E; [|discriminate]. intros H; inversion H; subst. apply N.leb_le; exact E.
Qed.
