(* Proofs/RunInv.v — the invariant of a program started by RUN (used by C07).

   [J s]: the immediate line is empty, no breakpoint is pending, the cursor is
   on a numbered line, every GOSUB / function frame returns to a numbered line
   and every FOR loop restarts on a numbered line.  "No breakpoint" is part
   of it because CONT clears the breakpoint: only then is the state that
   break-then-CONT resumes from the interrupted one (BreakCont.resume_state).

   The state RUN starts its turn from satisfies J, or E when the program is empty
   (clean_J_or_E); every evaluator keeps J, except that STOP and END move the
   cursor to the empty immediate line ([E]) — after which the same host call
   always ends Idle.  Hence a turn from J or E that returns a value ends in J
   or Idle (turn_keeps_J), and while a program started by RUN is Running or
   AwaitingInput, J holds at every turn boundary (BreakCont.Inv_turn). *)
From Coq Require Import List NArith ZArith Bool.
From Abasic Require Import Model.Num Model.Token Model.State Model.Eval Model.Interp Proofs.Monad Proofs.Caps
     Proofs.Safety Proofs.ResetProofs Proofs.InputProofs.
Import ListNotations.
Local Open Scope nat_scope.

Definition numbered (l : location) : Prop := loc_line l <> None.

Record J (s : interp) : Prop := {
  j_imm : immediate s = [];
  j_bp : breakpoint s = None;
  j_loc : numbered (loc s);
  j_stack : Forall (fun fr => numbered (fr_ret fr)) (stack s);
  j_loops : Forall (fun lp => numbered (lp_loc lp)) (loops s) }.

(* the cursor is on the empty immediate line *)
Definition E (s : interp) : Prop := loc_line (loc s) = None /\ immediate s = [].

(* [RJ] is a relation on states: the outcome is there, unread, so that the walk uses Safety's
   [orel] rules and walker like the relations that do read it; [orel RJ m] is
   [mrel (inv_rel J) m] by conversion ([rj_call_body] uses that).  The same holds of [SJ], [RE]
   below and of TurnProofs' [RQ], [R1], [SQ]. *)
Definition RJ (s : interp) (r : res unit) (s' : interp) : Prop := J s -> J s'.

Lemma RJ_ocat : ocat RJ.
Proof. split; unfold RJ; auto. Qed.

Lemma J_ext s s' :
  immediate s' = immediate s -> breakpoint s' = breakpoint s -> loc_line (loc s') = loc_line (loc s) ->
  stack s' = stack s -> loops s' = loops s -> J s -> J s'.
Proof.
  intros H1 H2 H3 H4 H5 [A1 A2 A3 A4 A5].
  split; unfold numbered in *; rewrite ?H1, ?H2, ?H3, ?H4, ?H5; assumption.
Qed.

Lemma J_set_reads r s : J s -> J (set_reads r s).
Proof. apply J_ext; reflexivity. Qed.
Lemma J_set_outputs o s : J s -> J (set_outputs o s).
Proof. apply J_ext; reflexivity. Qed.

Lemma J_numbered s : J s -> exists n, loc_line (loc s) = Some n.
Proof. intros HJ. pose proof (j_loc _ HJ) as H. unfold numbered in H. destruct (loc_line (loc s)); [eauto|congruence]. Qed.

Lemma rj_modify_frame f :
  (forall s, immediate (f s) = immediate s /\ breakpoint (f s) = breakpoint s
             /\ loc_line (loc (f s)) = loc_line (loc s) /\ stack (f s) = stack s /\ loops (f s) = loops s) ->
  orel RJ (modify f).
Proof.
  intros H. apply orel_modify. intros s. destruct (H s) as (H1 & H2 & H3 & H4 & H5).
  unfold RJ. apply J_ext; assumption.
Qed.

Lemma rj_same {A} (m : M A) : (forall s, snd (m s) = s) -> orel RJ m.
Proof. intros H s HJ. rewrite H. exact HJ. Qed.

Ltac rj_frame := apply rj_modify_frame; intros; repeat split; reflexivity.

Lemma rj_tokens_for_line l : orel RJ (tokens_for_line l).
Proof. apply rj_same, same_tokens_for_line. Qed.

Lemma rj_lift_res {A} (r : res A) : orel RJ (lift_res r).
Proof. apply rj_same. reflexivity. Qed.

Lemma rj_panic {A} p : orel RJ (@panic A p).
Proof. apply rj_same. reflexivity. Qed.

Create HintDb rjdb discriminated.
#[local] Hint Resolve rj_tokens_for_line rj_lift_res rj_panic : rjdb.

Ltac rj_leaf := first [ solve [ auto 1 with rjdb nocore ] | solve [ rj_frame ] ].
Ltac rj_walk := orel_walk RJ_ocat rj_leaf.

Lemma rj_cur_tokens : orel RJ cur_tokens. Proof. unfold cur_tokens; rj_walk. Qed.
#[local] Hint Resolve rj_cur_tokens : rjdb.
Lemma rj_peek : orel RJ peek_next_token. Proof. unfold peek_next_token; rj_walk. Qed.
#[local] Hint Resolve rj_peek : rjdb.
Lemma rj_has_next : orel RJ has_next_token. Proof. unfold has_next_token; rj_walk. Qed.
Lemma rj_advance : orel RJ advance. Proof. unfold advance; rj_walk. Qed.
#[local] Hint Resolve rj_has_next rj_advance : rjdb.
Lemma rj_next_token : orel RJ next_token. Proof. unfold next_token; rj_walk. Qed.
#[local] Hint Resolve rj_next_token : rjdb.
Lemma rj_next_unwrapped : orel RJ next_unwrapped_token. Proof. unfold next_unwrapped_token; rj_walk. Qed.
#[local] Hint Resolve rj_next_unwrapped : rjdb.
Lemma rj_expect t : orel RJ (expect_next_token t). Proof. unfold expect_next_token; rj_walk. Qed.
Lemma rj_accept t : orel RJ (accept_next_token t). Proof. unfold accept_next_token; rj_walk. Qed.
Lemma rj_peek_is t : orel RJ (peek_is t). Proof. unfold peek_is; rj_walk. Qed.
Lemma rj_try {B} (g : token -> option B) : orel RJ (try_next_token g). Proof. unfold try_next_token; rj_walk. Qed.
#[local] Hint Resolve rj_expect rj_accept rj_peek_is rj_try : rjdb.
Lemma rj_discard : orel RJ discard_remaining_tokens. Proof. unfold discard_remaining_tokens; rj_walk. Qed.
Lemma rj_rewind_loop i e : orel RJ (rewind_loop i e).
Proof. induction i as [|i IH]; cbn [rewind_loop]; rj_walk. Qed.
#[local] Hint Resolve rj_discard rj_rewind_loop : rjdb.
Lemma rj_rewind e : orel RJ (rewind_before_token e). Proof. unfold rewind_before_token; rj_walk. Qed.
Lemma rj_get_line_number : orel RJ get_line_number. Proof. unfold get_line_number; rj_walk. Qed.
Lemma rj_is_else : orel RJ is_else_of_then_clause. Proof. unfold is_else_of_then_clause; rj_walk. Qed.
#[local] Hint Resolve rj_rewind rj_get_line_number rj_is_else : rjdb.

Lemma rj_variables_set n v : orel RJ (variables_set n v). Proof. unfold variables_set; rj_walk. Qed.
Lemma rj_variables_get n : orel RJ (variables_get n). Proof. unfold variables_get; rj_walk. Qed.
Lemma rj_find_var n : orel RJ (find_variable_value_in_stack n).
Proof. unfold find_variable_value_in_stack; rj_walk. Qed.
Lemma rj_reset_data : orel RJ reset_data_cursor. Proof. unfold reset_data_cursor; rj_walk. Qed.
Lemma rj_push_output o : orel RJ (push_output o). Proof. unfold push_output; rj_walk. Qed.
#[local] Hint Resolve rj_variables_set rj_variables_get rj_find_var rj_reset_data rj_push_output : rjdb.
Lemma rj_warn m : orel RJ (warn m). Proof. unfold warn; rj_walk. Qed.
#[local] Hint Resolve rj_warn : rjdb.
Lemma rj_maybe_warn n : orel RJ (maybe_warn_undeclared_array n).
Proof. unfold maybe_warn_undeclared_array; rj_walk. Qed.
Lemma rj_arrays_create n i : orel RJ (arrays_create n i). Proof. unfold arrays_create; rj_walk. Qed.
#[local] Hint Resolve rj_maybe_warn rj_arrays_create : rjdb.
Lemma rj_maybe_default n d : orel RJ (maybe_create_default_array n d).
Proof. unfold maybe_create_default_array; rj_walk. Qed.
#[local] Hint Resolve rj_maybe_default : rjdb.
Lemma rj_arrays_get n i : orel RJ (arrays_get n i). Proof. unfold arrays_get; rj_walk. Qed.
Lemma rj_arrays_set n i v : orel RJ (arrays_set n i v). Proof. unfold arrays_set; rj_walk. Qed.
Lemma rj_rng_rnd x : orel RJ (rng_rnd x). Proof. unfold rng_rnd; rj_walk. Qed.
#[local] Hint Resolve rj_arrays_get rj_arrays_set rj_rng_rnd : rjdb.

Lemma rj_next_data : orel RJ next_data_element.
Proof.
  intros s HJ. unfold next_data_element.
  assert (K : forall d, J (set_data_it d s)) by (intros d; revert HJ; apply J_ext; reflexivity).
  destruct (data_it s) as [d|].
  - destruct (data_next _ d); apply K.
  - destruct (data_chunks (st_keys s) (st_toks s)); try exact HJ. destruct (data_next _ _); apply K.
Qed.
#[local] Hint Resolve rj_next_data : rjdb.

Lemma rj_eval_unary o v : orel RJ (eval_unary o v). Proof. unfold eval_unary; rj_walk. Qed.
Lemma rj_eval_addsub o a b : orel RJ (eval_addsub o a b). Proof. unfold eval_addsub; rj_walk. Qed.
Lemma rj_eval_muldiv o a b : orel RJ (eval_muldiv o a b). Proof. unfold eval_muldiv; rj_walk. Qed.
Lemma rj_eval_eq o a b : orel RJ (eval_eq o a b). Proof. unfold eval_eq; rj_walk. Qed.
Lemma rj_eval_and a b : orel RJ (eval_and a b). Proof. unfold eval_and; rj_walk. Qed.
Lemma rj_eval_or a b : orel RJ (eval_or a b). Proof. unfold eval_or; rj_walk. Qed.
Lemma rj_eval_pow a b : orel RJ (eval_pow a b). Proof. unfold eval_pow; rj_walk. Qed.
Lemma rj_expect_number v : orel RJ (expect_number v). Proof. unfold expect_number; rj_walk. Qed.
#[local] Hint Resolve rj_eval_unary rj_eval_addsub rj_eval_muldiv rj_eval_eq rj_eval_and rj_eval_or
  rj_eval_pow rj_expect_number : rjdb.

Lemma J_drop_loop sym s : J s -> J (drop_loop sym s).
Proof.
  intros HJ. unfold drop_loop. destruct (find_loop_rev sym (loops s)); [|exact HJ].
  destruct HJ as [A1 A2 A3 A4 A5]. split; try assumption. apply Forall_firstn', A5.
Qed.

Lemma rj_remove_loop sym : orel RJ (remove_loop_with_name sym).
Proof. intros s HJ. rewrite remove_loop_eq. apply J_drop_loop, HJ. Qed.
#[local] Hint Resolve rj_remove_loop : rjdb.

Lemma J_push_loop li s : J s -> numbered (lp_loc li) -> J (set_loops (loops s ++ [li]) s).
Proof.
  intros [A1 A2 A3 A4 A5] Hl. split; try assumption.
  cbn. apply Forall_app; split; [exact A5 | constructor; [exact Hl | constructor]].
Qed.

Lemma rj_start_loop sym a b c : orel RJ (start_loop sym a b c).
Proof.
  intros s HJ. rewrite start_loop_eq. cbv zeta. pose proof (J_drop_loop sym s HJ) as H1.
  destruct (Nat.eqb _ stack_limit); [exact H1|].
  apply (rj_variables_set sym _ _), J_push_loop; [exact H1 | exact (j_loc _ H1)].
Qed.

Lemma rj_end_loop sym : orel RJ (end_loop sym).
Proof.
  intros s HJ. rewrite end_loop_eq. destruct (match alist_get sym _ with Some v => v | None => _ end); [exact HJ|].
  cbv zeta. pose proof (J_drop_loop sym s HJ) as H1.
  destruct (match find_loop_rev sym _ with Some i => _ | None => _ end) as [li|] eqn:El; [|exact H1].
  apply (rj_variables_set sym _ _).
  destruct (if f64_leb _ _ then _ else _); [|exact H1].
  assert (Hl : numbered (lp_loc li)).
  { pose proof (j_loops _ HJ) as Hall. rewrite Forall_forall in Hall. exact (Hall _ (proj1 (removed_loop_spec _ _ _ El))). }
  apply (J_push_loop li (set_loc _ _)); [|exact Hl]. destruct H1 as [A1 A2 A3 A4 A5]. split; assumption.
Qed.
#[local] Hint Resolve rj_start_loop rj_end_loop : rjdb.

Lemma J_no_bp s : J s -> J (set_breakpoint None s).
Proof. intros [A1 A2 A3 A4 A5]. split; try assumption; reflexivity. Qed.

Lemma J_goto n s : J s -> J (set_loc (mkloc (Some n) 0) (set_breakpoint None s)).
Proof. intros [A1 A2 A3 A4 A5]. split; try assumption; [reflexivity | discriminate]. Qed.

Lemma rj_goto n : orel RJ (goto_line_number n).
Proof. intros s HJ. rewrite goto_eq. destruct (store_has n s); [apply J_goto | apply J_no_bp]; exact HJ. Qed.
#[local] Hint Resolve rj_goto : rjdb.

Lemma J_push_stack fr s : J s -> numbered (fr_ret fr) -> J (set_stack (stack s ++ [fr]) s).
Proof.
  intros [A1 A2 A3 A4 A5] Hl. split; try assumption.
  cbn. apply Forall_app; split; [exact A4 | constructor; [exact Hl | constructor]].
Qed.

Lemma rj_gosub n : orel RJ (gosub_line_number n).
Proof.
  intros s HJ. rewrite gosub_eq. destruct (Nat.eqb _ stack_limit); [exact HJ|].
  destruct (store_has n s); [|apply J_no_bp, HJ].
  apply (J_push_stack (mkframe (loc s) []) (set_loc _ (set_breakpoint None s))); [apply J_goto, HJ | exact (j_loc _ HJ)].
Qed.

Lemma J_pop s fr rest : J s -> rev (stack s) = fr :: rest -> J (set_loc (fr_ret fr) (set_stack (rev rest) s)).
Proof.
  intros HJ E. destruct (Forall_rev_cons _ _ _ _ E (j_stack _ HJ)). destruct HJ as [A1 A2 A3 A4 A5]. split; assumption.
Qed.

Lemma rj_return : orel RJ return_to_last_gosub.
Proof.
  intros s HJ. rewrite return_eq. destruct (rev (stack s)) as [|fr rest] eqn:E; [apply J_no_bp, HJ|].
  exact (J_pop (set_breakpoint None s) fr rest (J_no_bp s HJ) E).
Qed.

Lemma rj_define_function name args : orel RJ (define_function name args).
Proof. unfold define_function; rj_walk. Qed.

Lemma rj_pop : orel RJ pop_function_call.
Proof. intros s HJ. rewrite Caps.pop_eq. destruct (rev (stack s)) as [|fr rest] eqn:E; [exact HJ | exact (J_pop s fr rest HJ E)]. Qed.

Lemma rj_push name b : orel RJ (push_function_call name b).
Proof.
  intros s HJ. rewrite Caps.push_eq. destruct (Nat.eqb _ stack_limit); [exact HJ|]. cbv zeta.
  pose proof (J_push_stack (mkframe (loc s) b) s HJ (j_loc _ HJ)) as H1.
  destruct (alist_get name (functions s)) as [d|]; [|exact H1].
  destruct H1 as [A1 A2 A3 A4 A5]; split; try assumption. discriminate.
Qed.
#[local] Hint Resolve rj_gosub rj_return rj_define_function rj_pop rj_push : rjdb.

Lemma rj_next_line : orel RJ next_line.
Proof.
  intros s HJ. rewrite next_line_cases. destruct (loc_line (loc s)) as [n|]; [|exact HJ].
  destruct (store_after n s) as [n'|]; [|exact HJ].
  destruct HJ as [A1 A2 A3 A4 A5]; split; try assumption. discriminate.
Qed.
#[local] Hint Resolve rj_next_line : rjdb.

Section ExprJ.
  Variable fuel : nat.
  Variable rec : M value.
  Hypothesis Hrec : orel RJ rec.

  Lemma rj_bind_arguments args : forall i n b, orel RJ (bind_arguments rec args i n b).
  Proof.
    induction args as [|a args IH]; intros i n b; cbn [bind_arguments];
      orel_walk RJ_ocat ltac:(first [ apply Hrec | apply IH | rj_leaf ]).
  Qed.

  Lemma rj_call_body : orel RJ (call_body rec).
  Proof. exact (mrel_call_body (inv_rel J) (inv_rel_preorder J) rec Hrec rj_pop). Qed.

  Lemma rj_user_function_call name : orel RJ (user_function_call rec name).
  Proof.
    unfold user_function_call.
    orel_walk RJ_ocat ltac:(first [ apply rj_bind_arguments | apply rj_call_body | rj_leaf ]).
  Qed.

  Lemma rj_array_index : orel RJ (evaluate_array_index fuel rec).
  Proof. unfold evaluate_array_index; orel_walk RJ_ocat ltac:(first [ apply Hrec | rj_leaf ]). Qed.

  Lemma rj_unary_arg : orel RJ (unary_number_function_arg rec).
  Proof. unfold unary_number_function_arg; orel_walk RJ_ocat ltac:(first [ apply Hrec | rj_leaf ]). Qed.

  Lemma rj_function_call name : orel RJ (function_call rec name).
  Proof.
    unfold function_call.
    orel_walk RJ_ocat ltac:(first [ apply rj_unary_arg | apply rj_user_function_call | rj_leaf ]).
  Qed.

  Lemma rj_unary : orel RJ (unary_operator fuel rec).
  Proof.
    unfold unary_operator, parenthesized_expression, expression_term.
    orel_walk RJ_ocat ltac:(first [ apply Hrec | apply rj_function_call | apply rj_array_index | rj_leaf ]).
  Qed.

  Lemma rj_accept_as {O} t (o : O) : orel RJ (accept_as t o).
  Proof. unfold accept_as; rj_walk. Qed.

  Lemma rj_tier {O} (get_op : M (option O)) operand apply :
    orel RJ get_op -> orel RJ operand -> (forall o a b, orel RJ (apply o a b)) ->
    orel RJ (tier fuel get_op operand apply).
  Proof.
    intros H1 H2 H3. unfold tier.
    orel_walk RJ_ocat ltac:(first [ apply H1 | apply H2 | apply H3 | rj_leaf ]).
  Qed.

  Lemma rj_logical_or : orel RJ (logical_or_expression fuel rec).
  Proof.
    apply (tiers_ind fuel rec (orel RJ));
      [intros; apply rj_tier; first [apply rj_accept_as | apply rj_try | assumption | intros; rj_leaf].. | exact rj_unary].
  Qed.
End ExprJ.

Lemma rj_evaluate_expression fuel : forall n, orel RJ (evaluate_expression fuel n).
Proof.
  induction fuel as [|k IH]; intros n; cbn [evaluate_expression].
  - apply (orel_out_of_fuel _ RJ_ocat).
  - destruct (Nat.eqb n max_nesting); [apply (orel_fail _ RJ_ocat)|].
    apply rj_logical_or; apply IH.
Qed.
#[local] Hint Resolve rj_evaluate_expression : rjdb.

(* Statements: J is kept, or the cursor ends on the empty immediate line.  [SJ] does not
   compose with itself (after [E] it promises nothing), so a sequence is walked with a relation
   that does on one side: [RJ] for what runs before the statement that may stop ([sj_bind_l]),
   [RE] -- J and E are each kept -- for the two probes that may still run behind it ([sj_bind_r]). *)

Definition SJ (s : interp) (r : res unit) (s' : interp) : Prop := J s -> J s' \/ E s'.

Lemma sj_of_rj {A} (m : M A) : orel RJ m -> orel SJ m.
Proof. intros H s HJ. left. apply H, HJ. Qed.

Lemma sj_bind_l {A B} (m : M A) (f : A -> M B) :
  orel RJ m -> (forall a, orel SJ (f a)) -> orel SJ (bind m f).
Proof. apply orel_bind3; unfold RJ, SJ; auto. Qed.

Definition RE (s : interp) (r : res unit) (s' : interp) : Prop := (J s -> J s') /\ (E s -> E s').

Lemma RE_ocat : ocat RE.
Proof. split; unfold RE; intuition. Qed.

Lemma sj_bind_r {A B} (m : M A) (f : A -> M B) :
  orel SJ m -> (forall a, orel RE (f a)) -> orel SJ (bind m f).
Proof. apply orel_bind3; unfold RE, SJ; tauto. Qed.

Lemma re_modify_frame f :
  (forall s, immediate (f s) = immediate s /\ breakpoint (f s) = breakpoint s
             /\ loc_line (loc (f s)) = loc_line (loc s) /\ stack (f s) = stack s /\ loops (f s) = loops s) ->
  orel RE (modify f).
Proof.
  intros H. apply orel_modify. intros s. destruct (H s) as (H1 & H2 & H3 & H4 & H5). split.
  - apply J_ext; assumption.
  - unfold E. rewrite H1, H3. auto.
Qed.

Lemma re_same {A} (m : M A) : (forall s, snd (m s) = s) -> orel RE m.
Proof. intros H s. rewrite H. split; auto. Qed.

Lemma re_tokens_for_line l : orel RE (tokens_for_line l).
Proof. apply re_same, same_tokens_for_line. Qed.

Ltac re_leaf := first [ solve [ apply re_tokens_for_line ]
                      | solve [ apply re_modify_frame; intros; repeat split; reflexivity ] ].

Lemma re_peek_is t : orel RE (peek_is t).
Proof. unfold peek_is, peek_next_token, cur_tokens; orel_walk RE_ocat re_leaf. Qed.
Lemma re_discard : orel RE discard_remaining_tokens.
Proof. unfold discard_remaining_tokens, cur_tokens; orel_walk RE_ocat re_leaf. Qed.

Lemma E_set_imm s : E (snd (set_and_goto_immediate_line [] s)).
Proof. unfold set_and_goto_immediate_line, modify, E. cbn. destruct (breakpoint s); split; reflexivity. Qed.

Lemma sj_program_end : orel SJ program_end.
Proof. intros s _. right. apply E_set_imm. Qed.

Lemma sj_break : orel SJ break_at_current_location.
Proof.
  intros s _. right. unfold break_at_current_location, program_break_at_current_location.
  rewrite bind_modify. unfold get_line_number. rewrite bind_assoc, bind_get, bind_ret.
  unfold push_output. rewrite bind_modify, bind_get, bind_modify. apply E_set_imm.
Qed.

Section StmtJ.
  Variable fuel nest : nat.
  Variable rec : M unit.
  Hypothesis Hrec : orel SJ rec.

  Ltac rjs_leaf := first [ apply rj_evaluate_expression | rj_leaf ].
  Ltac rjs_walk := orel_walk RJ_ocat rjs_leaf.

  Lemma rj_optional_index : orel RJ (parse_optional_array_index fuel nest).
  Proof. unfold parse_optional_array_index; orel_walk RJ_ocat ltac:(first [ apply rj_array_index; apply rj_evaluate_expression | rjs_leaf ]). Qed.

  Lemma rj_assign_value lv v : orel RJ (assign_value lv v).
  Proof. unfold assign_value; rjs_walk. Qed.

  Lemma rj_assignment sym : orel RJ (evaluate_assignment_statement fuel nest sym).
  Proof.
    unfold evaluate_assignment_statement.
    orel_walk RJ_ocat ltac:(first [ apply rj_optional_index | apply rj_assign_value | rjs_leaf ]).
  Qed.

  Lemma rj_let : orel RJ (evaluate_let_statement fuel nest).
  Proof. unfold evaluate_let_statement; orel_walk RJ_ocat ltac:(first [ apply rj_assignment | rjs_leaf ]). Qed.

  Lemma rj_parse_lvalue : orel RJ (parse_lvalue fuel nest).
  Proof. unfold parse_lvalue; orel_walk RJ_ocat ltac:(first [ apply rj_optional_index | rjs_leaf ]). Qed.

  Lemma rj_read : orel RJ (evaluate_read_statement fuel nest).
  Proof.
    unfold evaluate_read_statement.
    orel_walk RJ_ocat ltac:(first [ apply rj_parse_lvalue | apply rj_assign_value | rjs_leaf ]).
  Qed.

  Lemma rj_take_input : orel RJ take_input.
  Proof. unfold take_input; rjs_walk. Qed.

  Lemma rj_rewind_await : orel RJ rewind_program_and_await_input.
  Proof. unfold rewind_program_and_await_input; rjs_walk. Qed.

  Lemma rj_input : orel RJ (evaluate_input_statement fuel nest).
  Proof.
    unfold evaluate_input_statement.
    orel_walk RJ_ocat ltac:(first [ apply rj_take_input | apply rj_rewind_await | apply rj_parse_lvalue
                                  | apply rj_assign_value | rjs_leaf ]).
  Qed.

  Lemma rj_dim : orel RJ (evaluate_dim_statement fuel nest).
  Proof. unfold evaluate_dim_statement; orel_walk RJ_ocat ltac:(first [ apply rj_parse_lvalue | rjs_leaf ]). Qed.

  Lemma rj_print : orel RJ (evaluate_print_statement fuel nest).
  Proof. unfold evaluate_print_statement; rjs_walk. Qed.

  Lemma rj_for : orel RJ (evaluate_for_statement fuel nest).
  Proof. unfold evaluate_for_statement; rjs_walk. Qed.

  Lemma rj_next_stmt : orel RJ evaluate_next_statement.
  Proof. unfold evaluate_next_statement; rjs_walk. Qed.

  Lemma rj_def : orel RJ (evaluate_def_statement fuel).
  Proof. unfold evaluate_def_statement; rjs_walk. Qed.

  Lemma rj_goto_stmt : orel RJ evaluate_goto_statement.
  Proof. unfold evaluate_goto_statement; rjs_walk. Qed.

  Lemma rj_gosub_stmt : orel RJ evaluate_gosub_statement.
  Proof. unfold evaluate_gosub_statement; rjs_walk. Qed.

  Lemma sj_stmt_or_goto : orel SJ (statement_or_goto_line_number rec).
  Proof.
    unfold statement_or_goto_line_number. apply sj_bind_l; [rj_leaf|intros t].
    destruct t as [t|]; [destruct t|]; try exact Hrec. apply sj_of_rj, rj_goto_stmt.
  Qed.

  Lemma sj_clause : orel SJ (if_clause rec).
  Proof.
    unfold if_clause. apply sj_bind_r; [apply sj_stmt_or_goto|intros _].
    apply (orel_bind _ RE_ocat); [apply re_peek_is|intros e]. destruct e; [apply re_discard|apply (orel_ret _ RE_ocat)].
  Qed.

  Lemma sj_if : orel SJ (evaluate_if_statement fuel nest rec).
  Proof.
    eapply orel_ext; [intro; symmetry; apply if_eq|].
    apply sj_bind_l; [apply rj_evaluate_expression|intros c].
    apply sj_bind_l; [rj_leaf|intros _].
    apply sj_bind_l; [unfold else_scan_body; rj_walk | intros [|]; [apply sj_clause | apply sj_of_rj, (orel_ret _ RJ_ocat)]].
  Qed.
  Ltac arm :=
    first [ apply sj_break | apply sj_program_end | apply sj_if
          | apply sj_of_rj;
            first [ apply rj_dim | apply rj_print | apply rj_input | apply rj_goto_stmt | apply rj_gosub_stmt
                  | apply rj_for | apply rj_next_stmt | apply rj_def | apply rj_read | apply rj_let
                  | apply rj_assignment
                  | orel_walk RJ_ocat ltac:(first [ apply rj_evaluate_expression | rj_leaf ]) ] ].

  Lemma sj_statement_body : orel SJ (evaluate_statement_body fuel nest rec).
  Proof.
    unfold evaluate_statement_body.
    apply sj_bind_l; [apply (orel_get _ RJ_ocat)|intros tr].
    apply sj_bind_l; [rj_walk|intros _].
    apply sj_bind_l; [rj_leaf|intros t].
    (* most tokens start no statement: settle those arms first *)
    pose proof (sj_of_rj _ (orel_fail RJ RJ_ocat EUnexpectedToken) : orel SJ (@fail unit EUnexpectedToken)) as Hf.
    pose proof (sj_of_rj _ (orel_ret RJ RJ_ocat tt)) as Hr.
    destruct t as [t|]; [destruct t|]; first [exact Hf | exact Hr | arm].
  Qed.
End StmtJ.

Lemma sj_evaluate_statement fuel : forall n, orel SJ (evaluate_statement fuel n).
Proof.
  induction fuel as [|k IH]; intros n; cbn [evaluate_statement].
  - apply sj_of_rj, (orel_out_of_fuel _ RJ_ocat).
  - destruct (Nat.eqb n max_nesting); [apply sj_of_rj, (orel_fail _ RJ_ocat)|].
    apply sj_statement_body; apply IH.
Qed.

Lemma JE_ext s s' :
  immediate s' = immediate s -> breakpoint s' = breakpoint s -> loc_line (loc s') = loc_line (loc s) ->
  stack s' = stack s -> loops s' = loops s -> J s \/ E s -> J s' \/ E s'.
Proof.
  intros H1 H2 H3 H4 H5 [H|[Ha Hb]]; [left; revert H; apply J_ext; assumption | right; split; congruence].
Qed.

(* where the turn ends: on a numbered line, or Idle *)
Lemma turn_end_JE s : J s \/ E s -> J (turn_end s) \/ state (turn_end s) = Idle.
Proof.
  unfold turn_end. intros [HJ|[H1 H2]].
  - destruct (nth_error _ _); [left; revert HJ; apply J_ext; reflexivity|].
    destruct (match loc_line (loc s) with Some n => _ | None => None end); [left | right; reflexivity].
    destruct HJ as [A1 A2 A3 A4 A5]. split; try assumption. discriminate.
  - right. unfold cur_toks. rewrite H1, H2. destruct (loc_idx (loc s)); reflexivity.
Qed.

(* A turn from a J state (or from the empty immediate line) that returns a value
   ends in a J state or Idle.  (A turn that returns an error is made Idle by the
   caller's postprocess.) *)
Theorem turn_keeps_J fuel s :
  J s \/ E s ->
  match run_next_statement fuel s with
  | (Ok _, s') => J s' \/ state s' = Idle
  | _ => True
  end.
Proof.
  intros H. destruct (rns_cases fuel s) as [-> | (_ & p & ->)]; [|exact I].
  set (s1 := bump (set_state Running s)).
  assert (H1 : J s1 \/ E s1) by (revert H; apply JE_ext; reflexivity).
  rewrite bind_run.
  assert (H2 : match turn_statement fuel s s1 with (Ok _, s2) => J s2 \/ E s2 | _ => True end).
  { unfold turn_statement. destruct (nth_error _ _) eqn:Et; [|exact H1]. destruct H1 as [HJ|[Ha Hb]].
    - pose proof (sj_evaluate_statement fuel 0 s1 HJ) as K.
      destruct (evaluate_statement fuel 0 s1) as [[u|e l|p| |] s2]; cbn [fst snd forget] in K; auto.
    - (* nothing to run on the empty immediate line *)
      exfalso. change (nth_error (cur_toks s1) (loc_idx (loc s1)) = Some t) in Et. unfold cur_toks in Et.
      rewrite Ha, Hb in Et. destruct (loc_idx (loc s1)); discriminate. }
  destruct (turn_statement fuel s s1) as [[u|e l|p| |] s2]; try exact I.
  destruct (after_statement_cases s2) as [-> | (_ & p & ->)]; [apply turn_end_JE, H2 | exact I].
Qed.

Lemma clean_J_or_E s : J (clean s) \/ E (clean s).
Proof.
  unfold clean. destruct (store_first s) as [n|].
  - left. split; cbn; auto. discriminate.
  - right. split; reflexivity.
Qed.

