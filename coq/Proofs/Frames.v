(* Proofs/Frames.v — what running a primitive or an evaluator can do to the
   state: the frame walk, once for every preorder [R] that each runtime setter
   respects (walks for other relations are in the files that need them).
   [keeps f] is the instance for a projection no runtime setter touches. *)
From Coq Require Import List NArith ZArith Bool Lia.
From Abasic Require Import Model.Token Model.State Model.Eval Model.Interp Proofs.Monad.
Import ListNotations.

Definition keeps {A} (f : interp -> A) : interp -> interp -> Prop := fun s s' => f s' = f s.

Lemma keeps_preorder {A} (f : interp -> A) : preorder (keeps f).
Proof. split; unfold keeps; intros; congruence. Qed.

(* [autounfold with prims]: the primitives of State.v (and the few wrappers of Eval.v) down to
   [bind] / [get] / [modify], for the walks that choose their rules by syntax ([Monad.mstep] in
   Inspect, [Monad.mrel_walk] in Termination); the frame walk below unfolds one head at a time instead. *)
Create HintDb prims.
#[global] Hint Unfold
  cur_tokens peek_next_token has_next_token advance next_token next_unwrapped_token
  expect_next_token accept_next_token peek_is try_next_token discard_remaining_tokens
  rewind_before_token get_line_number set_and_goto_immediate_line remove_loop_with_name
  program_break_at_current_location continue_from_breakpoint variables_set variables_get
  start_loop end_loop reset_data_cursor program_end reset_runtime_state
  run_from_first_numbered_line goto_line_number gosub_line_number return_to_last_gosub
  define_function push_function_call pop_function_call find_variable_value_in_stack
  next_line arrays_create maybe_create_default_array arrays_get arrays_set rng_rnd
  push_output warn maybe_warn_undeclared_array
  expect_number accept_as
  rewind_program_and_await_input break_at_current_location return_to_idle_state
  is_else_of_then_clause : prims.

(* The evaluators only ever empty the immediate line (END, STOP, the end of the
   program); a direct-mode line is stored by the host call that receives it.
   A relation that some setter breaks is no instance and has its own lemmas about the
   primitives: among them WorkBound's [keeps reads] ([set_reads]) and [Z0] (also [set_loc],
   [set_functions]). *)
Record setters_ok (R : interp -> interp -> Prop) : Prop := {
  so_po : preorder R;
  so_immediate : forall s, R s (set_immediate [] s);
  so_loc : forall v s, R s (set_loc v s);
  so_breakpoint : forall v s, R s (set_breakpoint v s);
  so_stack : forall v s, R s (set_stack v s);
  so_loops : forall v s, R s (set_loops v s);
  so_data_it : forall v s, R s (set_data_it v s);
  so_functions : forall v s, R s (set_functions v s);
  so_input : forall v s, R s (set_input v s);
  so_outputs : forall v s, R s (set_outputs v s);
  so_state : forall v s, R s (set_state v s);
  so_rng : forall v s, R s (set_rng v s);
  so_variables : forall v s, R s (set_variables v s);
  so_arrays : forall v s, R s (set_arrays v s);
  so_reads : forall v s, R s (set_reads v s) }.

Create HintDb frdb discriminated.

Section Walk.
  Variable R : interp -> interp -> Prop.
  Hypothesis CL : setters_ok R.

  Let PO := so_po _ CL.

  (* Every lemma below is [uwalk]: unfold the head constant and walk its body.  A leaf is a lemma
     already in [frdb] (or a hypothesis of the section), except [modify f]: there every [match] in the
     body of [f] is destructed, and the setters that remain are peeled off, outermost first, each by its
     field of [CL], with [po_trans] in between ([setters]). *)
  Ltac setters :=
    repeat (eapply (po_trans _ PO);
            [| first [ apply (so_immediate _ CL) | apply (so_loc _ CL) | apply (so_breakpoint _ CL)
                     | apply (so_stack _ CL) | apply (so_loops _ CL) | apply (so_data_it _ CL)
                     | apply (so_functions _ CL) | apply (so_input _ CL) | apply (so_outputs _ CL)
                     | apply (so_state _ CL) | apply (so_rng _ CL) | apply (so_variables _ CL)
                     | apply (so_arrays _ CL) | apply (so_reads _ CL) ] ]);
    apply (po_refl _ PO).

  Ltac leaf :=
    idtac; lazymatch goal with
    | |- mrel _ (modify _) =>
        apply (mrel_modify R); intros ?s; cbv beta zeta;
        repeat match goal with |- context [match ?x with _ => _ end] => destruct x end;
        setters
    | |- _ => first [ assumption | solve [auto 1 with frdb nocore] ]
    end.

  Ltac walk := mrel_walk PO leaf.
  Ltac uwalk := unfold_head; walk.

  Lemma fr_tokens_for_line l : mrel R (tokens_for_line l).
  Proof. apply (mrel_same _ _ PO), same_tokens_for_line. Qed.
  Hint Resolve fr_tokens_for_line : frdb.

  Lemma fr_cur_tokens : mrel R cur_tokens. Proof. uwalk. Qed.
  Lemma fr_advance : mrel R advance. Proof. unfold advance; leaf. Qed.
  Hint Resolve fr_cur_tokens fr_advance : frdb.
  Lemma fr_peek : mrel R peek_next_token. Proof. uwalk. Qed.
  Hint Resolve fr_peek : frdb.
  Lemma fr_has_next : mrel R has_next_token. Proof. uwalk. Qed.
  Lemma fr_next_token : mrel R next_token. Proof. uwalk. Qed.
  Lemma fr_accept t : mrel R (accept_next_token t). Proof. uwalk. Qed.
  Lemma fr_peek_is t : mrel R (peek_is t). Proof. uwalk. Qed.
  Lemma fr_try {B} (g : token -> option B) : mrel R (try_next_token g). Proof. uwalk. Qed.
  Lemma fr_discard : mrel R discard_remaining_tokens. Proof. uwalk. Qed.
  Hint Resolve fr_has_next fr_next_token fr_accept fr_peek_is fr_try fr_discard : frdb.
  Lemma fr_next_unwrapped : mrel R next_unwrapped_token. Proof. uwalk. Qed.
  Hint Resolve fr_next_unwrapped : frdb.
  Lemma fr_expect t : mrel R (expect_next_token t). Proof. uwalk. Qed.

  Lemma fr_rewind_loop i t : mrel R (rewind_loop i t).
  Proof. induction i as [|i IH]; cbn [rewind_loop]; walk. Qed.
  Hint Resolve fr_expect fr_rewind_loop : frdb.

  Lemma fr_rewind t : mrel R (rewind_before_token t). Proof. uwalk. Qed.
  Lemma fr_get_line_number : mrel R get_line_number. Proof. uwalk. Qed.
  Lemma fr_set_imm : mrel R (set_and_goto_immediate_line []). Proof. unfold set_and_goto_immediate_line; leaf. Qed.
  Lemma fr_remove_loop sym : mrel R (remove_loop_with_name sym). Proof. uwalk. Qed.
  Lemma fr_variables_set n v : mrel R (variables_set n v). Proof. uwalk. Qed.
  Lemma fr_variables_get n : mrel R (variables_get n). Proof. uwalk. Qed.
  Lemma fr_reset_data : mrel R reset_data_cursor. Proof. unfold reset_data_cursor; leaf. Qed.
  Hint Resolve fr_rewind fr_get_line_number fr_set_imm fr_remove_loop fr_variables_set fr_variables_get
    fr_reset_data : frdb.
  Lemma fr_program_end : mrel R program_end. Proof. exact fr_set_imm. Qed.
  Hint Resolve fr_program_end : frdb.
  Lemma fr_program_break : mrel R program_break_at_current_location. Proof. uwalk. Qed.
  Lemma fr_continue_bp : mrel R continue_from_breakpoint. Proof. uwalk. Qed.
  Lemma fr_start_loop sym a b c : mrel R (start_loop sym a b c). Proof. uwalk. Qed.
  Lemma fr_end_loop sym : mrel R (end_loop sym). Proof. uwalk. Qed.
  Lemma fr_reset_runtime : mrel R reset_runtime_state. Proof. uwalk. Qed.
  Hint Resolve fr_program_break fr_continue_bp fr_start_loop fr_end_loop fr_reset_runtime : frdb.
  Lemma fr_run_from_first : mrel R run_from_first_numbered_line. Proof. uwalk. Qed.
  Lemma fr_goto n : mrel R (goto_line_number n). Proof. uwalk. Qed.
  Hint Resolve fr_run_from_first fr_goto : frdb.
  Lemma fr_gosub n : mrel R (gosub_line_number n). Proof. uwalk. Qed.
  Lemma fr_return : mrel R return_to_last_gosub. Proof. uwalk. Qed.
  Lemma fr_define_function n a : mrel R (define_function n a). Proof. uwalk. Qed.
  Lemma fr_push_fn n b : mrel R (push_function_call n b). Proof. uwalk. Qed.
  Lemma fr_pop_fn : mrel R pop_function_call. Proof. uwalk. Qed.
  Lemma fr_find_var n : mrel R (find_variable_value_in_stack n). Proof. uwalk. Qed.
  Lemma fr_next_line : mrel R next_line. Proof. uwalk. Qed.
  Lemma fr_arrays_create n i : mrel R (arrays_create n i). Proof. uwalk. Qed.
  Lemma fr_maybe_default n d : mrel R (maybe_create_default_array n d). Proof. uwalk. Qed.
  Lemma fr_rng_rnd x : mrel R (rng_rnd x). Proof. uwalk. Qed.
  Lemma fr_push_output o : mrel R (push_output o). Proof. unfold push_output; leaf. Qed.
  Hint Resolve fr_gosub fr_return fr_define_function fr_push_fn fr_pop_fn fr_find_var fr_next_line
    fr_arrays_create fr_maybe_default fr_rng_rnd fr_push_output : frdb.
  Lemma fr_arrays_get n i : mrel R (arrays_get n i). Proof. uwalk. Qed.
  Lemma fr_arrays_set n i v : mrel R (arrays_set n i v). Proof. uwalk. Qed.
  Lemma fr_warn m : mrel R (warn m). Proof. uwalk. Qed.
  Hint Resolve fr_arrays_get fr_arrays_set fr_warn : frdb.
  Lemma fr_maybe_warn n : mrel R (maybe_warn_undeclared_array n). Proof. uwalk. Qed.

  Lemma fr_next_data : mrel R next_data_element.
  Proof.
    intros s; unfold next_data_element.
    destruct (data_it s) as [d|].
    - destruct (data_next _ d); apply (so_data_it _ CL).
    - destruct (data_chunks (st_keys s) (st_toks s)); try apply (po_refl _ PO).
      destruct (data_next _ _); apply (so_data_it _ CL).
  Qed.
  Hint Resolve fr_maybe_warn fr_next_data : frdb.

  Lemma fr_eval_unary o v : mrel R (eval_unary o v). Proof. uwalk. Qed.
  Lemma fr_eval_addsub o a b : mrel R (eval_addsub o a b). Proof. uwalk. Qed.
  Lemma fr_eval_muldiv o a b : mrel R (eval_muldiv o a b). Proof. uwalk. Qed.
  Lemma fr_eval_eq o a b : mrel R (eval_eq o a b). Proof. uwalk. Qed.
  Lemma fr_eval_and a b : mrel R (eval_and a b). Proof. uwalk. Qed.
  Lemma fr_eval_or a b : mrel R (eval_or a b). Proof. uwalk. Qed.
  Lemma fr_eval_pow a b : mrel R (eval_pow a b). Proof. uwalk. Qed.
  Lemma fr_expect_number v : mrel R (expect_number v). Proof. uwalk. Qed.
  Lemma fr_accept_as {O} t (o : O) : mrel R (accept_as t o). Proof. uwalk. Qed.
  Lemma fr_is_else : mrel R is_else_of_then_clause. Proof. uwalk. Qed.
  Hint Resolve fr_eval_unary fr_eval_addsub fr_eval_muldiv fr_eval_eq fr_eval_and fr_eval_or fr_eval_pow
    fr_expect_number fr_accept_as fr_is_else : frdb.

  Section Expr.
    Variable fuel : nat.
    Variable rec : M value.
    Hypothesis Hrec : mrel R rec.

    Lemma fr_bind_arguments args : forall i n b, mrel R (bind_arguments rec args i n b).
    Proof. induction args as [|a args IH]; intros i n b; cbn [bind_arguments]; walk. Qed.

    Lemma fr_call_body : mrel R (call_body rec).
    Proof. apply (mrel_call_body _ PO); [exact Hrec | exact fr_pop_fn]. Qed.
    Hint Resolve fr_bind_arguments fr_call_body : frdb.

    Lemma fr_array_index : mrel R (evaluate_array_index fuel rec). Proof. uwalk. Qed.
    Lemma fr_unary_arg : mrel R (unary_number_function_arg rec). Proof. uwalk. Qed.
    Lemma fr_user_function_call name : mrel R (user_function_call rec name). Proof. uwalk. Qed.
    Hint Resolve fr_array_index fr_unary_arg fr_user_function_call : frdb.
    Lemma fr_function_call name : mrel R (function_call rec name). Proof. uwalk. Qed.
    Hint Resolve fr_function_call : frdb.
    Lemma fr_term : mrel R (expression_term fuel rec). Proof. uwalk. Qed.
    Hint Resolve fr_term : frdb.
    Lemma fr_paren : mrel R (parenthesized_expression fuel rec). Proof. uwalk. Qed.
    Hint Resolve fr_paren : frdb.
    Lemma fr_unary : mrel R (unary_operator fuel rec). Proof. uwalk. Qed.

    Lemma fr_tier {O} (g : M (option O)) (operand : M value) (ap : O -> value -> value -> M value) :
      mrel R g -> mrel R operand -> (forall o a b, mrel R (ap o a b)) ->
      mrel R (tier fuel g operand ap).
    Proof. intros Hg Ho Ha. uwalk. Qed.

    Lemma fr_logical_or : mrel R (logical_or_expression fuel rec).
    Proof.
      apply (tiers_ind fuel rec (mrel R));
        [intros; apply fr_tier; auto 1 with frdb nocore.. | exact fr_unary].
    Qed.
  End Expr.

  Lemma fr_evaluate_expression fuel : forall n, mrel R (evaluate_expression fuel n).
  Proof.
    induction fuel as [|k IH]; intros n; cbn [evaluate_expression].
    - apply (mrel_out_of_fuel _ PO).
    - destruct (Nat.eqb n max_nesting); [apply (mrel_fail _ PO)|].
      apply fr_logical_or; apply IH.
  Qed.

  Section Stmt.
    Variable fuel : nat.
    Variable nest : nat.
    Variable rec : M unit.
    Hypothesis Hrec : mrel R rec.

    Lemma fr_expr : mrel R (expr fuel nest).
    Proof. apply fr_evaluate_expression. Qed.
    Lemma fr_st_array_index : mrel R (evaluate_array_index fuel (expr fuel nest)).
    Proof. apply fr_array_index, fr_expr. Qed.
    Hint Resolve fr_expr fr_st_array_index : frdb.

    Lemma fr_optional_index : mrel R (parse_optional_array_index fuel nest). Proof. uwalk. Qed.
    Hint Resolve fr_optional_index : frdb.
    Lemma fr_parse_lvalue : mrel R (parse_lvalue fuel nest). Proof. uwalk. Qed.
    Lemma fr_assign lv v : mrel R (assign_value lv v). Proof. uwalk. Qed.
    Lemma fr_await : mrel R rewind_program_and_await_input. Proof. uwalk. Qed.
    Lemma fr_break : mrel R break_at_current_location. Proof. uwalk. Qed.
    Lemma fr_goto_stmt : mrel R evaluate_goto_statement. Proof. uwalk. Qed.
    Lemma fr_gosub_stmt : mrel R evaluate_gosub_statement. Proof. uwalk. Qed.
    Hint Resolve fr_parse_lvalue fr_assign fr_await fr_break fr_goto_stmt fr_gosub_stmt : frdb.
    Lemma fr_stmt_or_goto : mrel R (statement_or_goto_line_number rec). Proof. uwalk. Qed.
    Hint Resolve fr_stmt_or_goto : frdb.
    Lemma fr_if : mrel R (evaluate_if_statement fuel nest rec). Proof. uwalk. Qed.
    Lemma fr_assignment sym : mrel R (evaluate_assignment_statement fuel nest sym). Proof. uwalk. Qed.
    Hint Resolve fr_if fr_assignment : frdb.
    Lemma fr_let : mrel R (evaluate_let_statement fuel nest). Proof. uwalk. Qed.
    Lemma fr_read : mrel R (evaluate_read_statement fuel nest). Proof. uwalk. Qed.
    Lemma fr_take_input : mrel R take_input. Proof. uwalk. Qed.
    Hint Resolve fr_let fr_read fr_take_input : frdb.

    (* the extra leaf is for the error of [coerce_data] that INPUT hands on as a bare
       [fun s => (Err e l, s)] *)
    Lemma fr_input : mrel R (evaluate_input_statement fuel nest).
    Proof.
      unfold evaluate_input_statement.
      mrel_walk PO ltac:(first [ leaf | intros ?s0; apply (po_refl _ PO) ]).
    Qed.

    Lemma fr_dim : mrel R (evaluate_dim_statement fuel nest). Proof. uwalk. Qed.
    Lemma fr_print : mrel R (evaluate_print_statement fuel nest). Proof. uwalk. Qed.
    Lemma fr_for : mrel R (evaluate_for_statement fuel nest). Proof. uwalk. Qed.
    Lemma fr_next_stmt : mrel R evaluate_next_statement. Proof. uwalk. Qed.
    Lemma fr_def : mrel R (evaluate_def_statement fuel). Proof. uwalk. Qed.
    Hint Resolve fr_input fr_dim fr_print fr_for fr_next_stmt fr_def : frdb.

    Lemma fr_statement_body : mrel R (evaluate_statement_body fuel nest rec). Proof. uwalk. Qed.
  End Stmt.

  Lemma fr_evaluate_statement fuel : forall n, mrel R (evaluate_statement fuel n).
  Proof.
    induction fuel as [|k IH]; intros n; cbn [evaluate_statement].
    - apply (mrel_out_of_fuel _ PO).
    - destruct (Nat.eqb n max_nesting); [apply (mrel_fail _ PO)|].
      apply fr_statement_body; apply IH.
  Qed.
  Hint Resolve fr_evaluate_statement : frdb.

  Lemma fr_run_next_statement fuel : mrel R (run_next_statement fuel).
  Proof. unfold run_next_statement, return_to_idle_state; walk. Qed.
End Walk.

(* for [auto 2 with frdb], once [setters_ok R] is itself a hint *)
#[export] Hint Resolve fr_tokens_for_line fr_cur_tokens fr_advance fr_peek fr_has_next fr_next_token fr_accept
  fr_peek_is fr_try fr_discard fr_next_unwrapped fr_expect fr_rewind_loop fr_rewind fr_get_line_number
  fr_set_imm fr_remove_loop fr_variables_set fr_variables_get fr_reset_data fr_program_end fr_program_break
  fr_continue_bp fr_start_loop fr_end_loop fr_reset_runtime fr_run_from_first fr_goto fr_gosub fr_return
  fr_define_function fr_push_fn fr_pop_fn fr_find_var fr_next_line fr_arrays_create fr_maybe_default
  fr_rng_rnd fr_push_output fr_arrays_get fr_arrays_set fr_warn fr_maybe_warn fr_next_data fr_eval_unary
  fr_eval_addsub fr_eval_muldiv fr_eval_eq fr_eval_and fr_eval_or fr_eval_pow fr_expect_number fr_accept_as
  fr_is_else fr_evaluate_expression fr_take_input fr_await fr_break fr_evaluate_statement
  fr_run_next_statement : frdb.

Record runtime_frame {A} (f : interp -> A) : Prop := {
  rf_immediate : forall v s, f (set_immediate v s) = f s;
  rf_loc : forall v s, f (set_loc v s) = f s;
  rf_breakpoint : forall v s, f (set_breakpoint v s) = f s;
  rf_stack : forall v s, f (set_stack v s) = f s;
  rf_loops : forall v s, f (set_loops v s) = f s;
  rf_data_it : forall v s, f (set_data_it v s) = f s;
  rf_functions : forall v s, f (set_functions v s) = f s;
  rf_input : forall v s, f (set_input v s) = f s;
  rf_outputs : forall v s, f (set_outputs v s) = f s;
  rf_state : forall v s, f (set_state v s) = f s;
  rf_rng : forall v s, f (set_rng v s) = f s;
  rf_variables : forall v s, f (set_variables v s) = f s;
  rf_arrays : forall v s, f (set_arrays v s) = f s;
  rf_reads : forall v s, f (set_reads v s) = f s }.

Lemma keeps_setters_ok {A} (f : interp -> A) : runtime_frame f -> setters_ok (keeps f).
Proof. intros []; split; [apply keeps_preorder | unfold keeps; auto ..]. Qed.

Section RuntimeFrame.
  Context {A : Type} (f : interp -> A).
  Hypothesis RF : runtime_frame f.

  Let CL := keeps_setters_ok f RF.

  Definition keeps_stmt_or_goto := fr_stmt_or_goto _ CL.
  Definition keeps_evaluate_statement := fr_evaluate_statement _ CL.

  (* [set_numbered_line] is [store_set], then the resets *)
  Lemma keeps_set_numbered_line n ts s :
    f (snd (set_numbered_line n ts s)) = f (store_set n ts s).
  Proof. exact (fr_reset_runtime _ CL (store_set n ts s)). Qed.
End RuntimeFrame.
