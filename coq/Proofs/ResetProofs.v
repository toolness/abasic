(* Proofs/ResetProofs.v — RUN starts from a clean slate (C10); a successful
   edit invalidates every runtime reference, a rejected edit invalidates
   nothing (C11).  Also the calls that run a turn ([turn_from]), each with the
   explicit state the turn starts from, and the states the other calls leave,
   stated whole ([edited], [interrupted]): the later files read a host call
   through these. *)
From Coq Require Import List NArith ZArith Bool.
From Abasic Require Import Model.Bytes Model.Token Model.Lexer Model.State Model.Interp Proofs.Monad
     Proofs.StoreProofs.
Import ListNotations.

(* Everything RUN does before the first statement, as one explicit state:
   built from the store, the generator state, the two flags, the (model-only)
   oracle and counters, the not-yet-taken output and the state flag (Idle, when
   the call is made) -- nothing else. *)
Definition clean (s : interp) : interp :=
  mkinterp (st_toks s) (st_keys s) []
           (match store_first s with Some n => mkloc (Some n) 0 | None => imm0 end)
           None [] [] None [] None (outputs s) (state s) (rng s) [] []
           (enable_warnings s) (enable_tracing s) (pow_oracle s) (reads s).

(* the state CONT resumes from: the breakpoint becomes the cursor *)
Definition resumed (p : N * nat) (s : interp) : interp :=
  set_breakpoint None (set_loc (loc_of_numbered p) (set_immediate [] s)).

(* the state a numbered edit leaves: the new store, no runtime reference into the program *)
Definition edited (n : N) (v : list token) (s : interp) : interp :=
  mkinterp (st_toks (store_set n v s)) (st_keys (store_set n v s)) [] imm0 None [] [] None []
           (input s) (outputs s) (state s) (rng s) (variables s) (arrays s)
           (enable_warnings s) (enable_tracing s) (pow_oracle s) (reads s).

(* the state the host's break leaves (before the output is taken) *)
Definition interrupted (s : interp) : interp :=
  imm_reset [] (set_breakpoint (numbered_of (loc s))
    (set_outputs (outputs s ++ [OBreak (loc_line (loc s))]) (set_state Idle s))).

Lemma command_of_RUN : command_of (bs "RUN") = Some CRun.
Proof. vm_compute. reflexivity. Qed.

Lemma command_of_CONT : command_of (bs "CONT") = Some CCont.
Proof. vm_compute. reflexivity. Qed.

(* Stated whole and proved by [destruct s; reflexivity]: [cbn] over a chain of
   setters on an abstract state multiplies the term by 19, the number of fields,
   per setter. *)
Lemma process_command_RUN fuel s :
  process_command fuel CRun (imm_reset [] s) = run_next_statement fuel (clean s).
Proof. destruct s as [? K ? ? b]; destruct b, K; reflexivity. Qed.

Lemma process_command_CONT fuel s p : breakpoint s = Some p ->
  process_command fuel CCont (imm_reset [] s) = run_next_statement fuel (resumed p s).
Proof. destruct s as [? ? ? ? b]; cbn [breakpoint]; intros ->; reflexivity. Qed.

Lemma process_command_CONT_none fuel s : breakpoint s = None ->
  process_command fuel CCont (imm_reset [] s) = (Err ECannotContinue None, imm_reset [] s).
Proof. destruct s as [? ? ? ? b]; cbn [breakpoint]; intros ->; reflexivity. Qed.

Lemma set_numbered_line_edited n v s : set_numbered_line n v (imm_reset [] s) = (Ok tt, edited n v s).
Proof. destruct s as [? ? ? ? b]; destruct b, v; reflexivity. Qed.

Lemma host_break_eq s : host_break s = (Ok tt, interrupted s).
Proof. reflexivity. Qed.

Lemma outputs_imm_reset ts s : outputs (imm_reset ts s) = outputs s.
Proof. unfold imm_reset. destruct (breakpoint s); reflexivity. Qed.

Lemma state_imm_reset ts s : state (imm_reset ts s) = state s.
Proof. unfold imm_reset. destruct (breakpoint s); reflexivity. Qed.

Lemma evaluate_impl_RUN fuel s :
  state s = Idle ->
  evaluate_impl fuel (bs "RUN") s = run_next_statement fuel (clean s).
Proof.
  intros Hidle. rewrite (evaluate_impl_command fuel _ CRun s Hidle command_of_RUN). apply process_command_RUN.
Qed.

Section TurnCalls.
  Variable fuel : nat.

  (* [turn_from s op s1]: on [s] the call [op] is [run_next_statement] from [s1], then
     [postprocess] ([start_turn], [BreakCont.call_obs_turn]).  Whatever holds across a
     turn holds of these calls once it is checked at the four start states. *)
  Inductive turn_from (s : interp) : hostop -> interp -> Prop :=
  | tf_continue : state s = Running -> turn_from s HCont s
  | tf_run line : state s = Idle -> command_of line = Some CRun -> turn_from s (HLine line) (clean s)
  | tf_cont line p : state s = Idle -> command_of line = Some CCont -> breakpoint s = Some p ->
      turn_from s (HLine line) (resumed p s)
  | tf_immediate line ts : state s = Idle -> command_of line = None -> parse_line_number line = None ->
      tokenize line 0 = TokOk ts -> turn_from s (HLine line) (imm_reset (map fst ts) s).

  Lemma start_turn s line s1 : turn_from s (HLine line) s1 ->
    start_evaluating fuel line s = postprocess (run_next_statement fuel s1).
  Proof.
    unfold start_evaluating. intros H. f_equal. inversion H as [ | l Hi Hc | l p Hi Hc Hb | l ts Hi Hc Hp Ht]; subst.
    - rewrite (evaluate_impl_command fuel line CRun s Hi Hc). apply process_command_RUN.
    - rewrite (evaluate_impl_command fuel line CCont s Hi Hc). apply process_command_CONT, Hb.
    - apply evaluate_impl_immediate; assumption.
  Qed.

  Lemma start_edit s line n v : state s = Idle -> edit_of line = Some (n, v) ->
    start_evaluating fuel line s = (Ok tt, edited n v s).
  Proof.
    intros Hi He. unfold start_evaluating. rewrite (evaluate_impl_edit fuel line n v s Hi He), set_numbered_line_edited.
    reflexivity.
  Qed.

  (* a line that is no command but RUN or CONT runs a turn, or leaves the pending output alone *)
  Lemma start_turn_or_quiet s line :
    state s = Idle -> (forall c, command_of line = Some c -> c = CRun \/ c = CCont) ->
    (exists s1, turn_from s (HLine line) s1) \/ outputs (snd (start_evaluating fuel line s)) = outputs s.
  Proof.
    intros Hi Hq. pose proof (outputs_imm_reset [] s) as Ho. unfold start_evaluating.
    apply (evaluate_impl_idle (fun x => (exists s1, turn_from s (HLine line) s1) \/ outputs (snd (postprocess x)) = outputs s));
      [exact Hi | ..].
    - intros c Hc. destruct (Hq c Hc) as [-> | ->]; [left; eexists; apply tf_run; assumption|].
      destruct (breakpoint s) as [p|] eqn:Hb; [left; eexists; apply (tf_cont s line p); assumption | right].
      rewrite (process_command_CONT_none fuel s Hb). exact Ho.
    - intros n ts _. right. rewrite set_numbered_line_edited. reflexivity.
    - intros ts Hc Hp Ht. left. eexists. apply (tf_immediate s line ts); assumption.
    - intros ts e _ _. right. exact Ho.
  Qed.
End TurnCalls.

Lemma turn_from_outputs s op s1 : turn_from s op s1 -> outputs s1 = outputs s.
Proof. intros [ | | | ]; first [reflexivity | apply outputs_imm_reset]. Qed.

Lemma step_line fuel s line : state s = Idle ->
  step fuel s (HLine line) =
  (let '(r, s1) := start_evaluating fuel line (set_reads 0 s) in
   let '(rw, s2) := make_row r (Some line) s1 in (Some rw, s2)).
Proof. intros H. unfold step, legal. rewrite H. reflexivity. Qed.

(* the part of the state a RUN can depend on *)
Definition persistent_eq (s1 s2 : interp) : Prop :=
  st_toks s1 = st_toks s2 /\ st_keys s1 = st_keys s2 /\ rng s1 = rng s2
  /\ enable_warnings s1 = enable_warnings s2 /\ enable_tracing s1 = enable_tracing s2
  /\ pow_oracle s1 = pow_oracle s2.

Lemma clean_eq s1 s2 :
  persistent_eq s1 s2 -> state s1 = state s2 -> outputs s1 = outputs s2 -> reads s1 = reads s2 ->
  clean s1 = clean s2.
Proof.
  intros (H1 & H2 & H3 & H4 & H5 & H6) Hs Ho Hr. unfold clean, store_first.
  rewrite H1, H2, H3, H4, H5, H6, Hs, Ho, Hr. reflexivity.
Qed.

Lemma set_reads_persistent r s : persistent_eq (set_reads r s) s.
Proof. repeat split. Qed.

(* Two idle interpreters that hold the same program, generator state and
   flags (and whose pending output has been taken) answer RUN identically:
   same row, same complete resulting state -- whatever else their histories
   left behind (variables, arrays, loops, stack, functions, data cursor,
   breakpoint, pending reply, immediate line, cursor).  For every spelling of
   the command. *)
Theorem run_command_clean_slate : forall fuel line s1 s2,
  command_of line = Some CRun ->
  state s1 = Idle -> state s2 = Idle -> persistent_eq s1 s2 -> outputs s1 = outputs s2 ->
  step fuel s1 (HLine line) = step fuel s2 (HLine line).
Proof.
  intros fuel line s1 s2 Hc Hi1 Hi2 Hp Ho.
  rewrite !step_line, (start_turn fuel _ _ _ (tf_run (set_reads 0 s1) line Hi1 Hc)),
    (start_turn fuel _ _ _ (tf_run (set_reads 0 s2) line Hi2 Hc)) by assumption.
  rewrite (clean_eq (set_reads 0 s1) (set_reads 0 s2)); [reflexivity| | | |].
  - destruct Hp as (H1 & H2 & H3 & H4 & H5 & H6). repeat split; assumption.
  - cbn. congruence.
  - exact Ho.
  - reflexivity.
Qed.

Theorem run_clean_slate : forall fuel s1 s2,
  state s1 = Idle -> state s2 = Idle -> persistent_eq s1 s2 -> outputs s1 = outputs s2 ->
  step fuel s1 (HLine (bs "RUN")) = step fuel s2 (HLine (bs "RUN")).
Proof. intros fuel s1 s2. exact (run_command_clean_slate fuel _ s1 s2 command_of_RUN). Qed.

(* and every later call too: the two sessions stay identical *)
Theorem run_clean_slate_history : forall fuel ops s1 s2,
  state s1 = Idle -> state s2 = Idle -> persistent_eq s1 s2 -> outputs s1 = outputs s2 ->
  run_ops fuel s1 (HLine (bs "RUN") :: ops) = run_ops fuel s2 (HLine (bs "RUN") :: ops).
Proof.
  intros fuel ops s1 s2 Hi1 Hi2 Hp Ho. cbn [run_ops].
  rewrite (run_clean_slate fuel s1 s2 Hi1 Hi2 Hp Ho). reflexivity.
Qed.

(* [evaluate_impl] looks at an idle state only through [imm_reset [] s], which every line entry
   computes first *)
Lemma evaluate_impl_normal fuel line s :
  state s = Idle -> evaluate_impl fuel line (imm_reset [] s) = evaluate_impl fuel line s.
Proof.
  intros Hidle. unfold evaluate_impl. rewrite !bind_get, state_imm_reset, Hidle.
  rewrite set_imm_is_modify, !bind_modify, imm_reset_idem. reflexivity.
Qed.

Lemma set_state_same s : set_state (state s) s = s.
Proof. destruct s; reflexivity. Qed.

(* A rejected edit (tokenization error) returns the error and leaves exactly
   [imm_reset [] s], so no later line entry can tell that it happened. *)
Definition rejected (line : bytes) : Prop :=
  command_of line = None /\
  exists ts e, tokenize line (match parse_line_number line with Some (_, k) => k | None => 0 end) = TokErr ts e.

Theorem rejected_edit_state : forall fuel line s,
  state s = Idle -> rejected line ->
  exists e, start_evaluating fuel line s = (Err (ESyntaxTok e) (Some imm0), imm_reset [] s).
Proof.
  intros fuel line s Hidle (Hc & ts & e & Ht). exists e.
  unfold start_evaluating, evaluate_impl. rewrite bind_get, Hidle.
  rewrite set_imm_is_modify, bind_modify, Hc.
  assert (E : set_state Idle (imm_reset [] s) = imm_reset [] s)
    by (rewrite <- Hidle, <- (state_imm_reset [] s); apply set_state_same).
  destruct (parse_line_number line) as [[n k]|]; rewrite Ht; unfold fail, postprocess;
    cbn [populate_error_location]; rewrite E; f_equal; f_equal;
    unfold imm_reset; destruct (breakpoint s); reflexivity.
Qed.

Theorem rejected_edit_invisible : forall fuel line s,
  state s = Idle -> rejected line ->
  let s' := snd (start_evaluating fuel line s) in
  state s' = Idle
  /\ (forall fuel' line', start_evaluating fuel' line' s' = start_evaluating fuel' line' s)
  /\ st_toks s' = st_toks s /\ st_keys s' = st_keys s /\ breakpoint s' = breakpoint s
  /\ loops s' = loops s /\ functions s' = functions s /\ data_it s' = data_it s
  /\ variables s' = variables s /\ arrays s' = arrays s /\ rng s' = rng s /\ input s' = input s
  /\ (breakpoint s <> None -> stack s' = stack s).
Proof.
  intros fuel line s Hidle Hrej. cbn zeta.
  destruct (rejected_edit_state fuel line s Hidle Hrej) as [e He]. rewrite He. cbn [snd].
  split; [rewrite state_imm_reset; exact Hidle|]. split.
  - intros fuel' line'. unfold start_evaluating. rewrite evaluate_impl_normal by exact Hidle. reflexivity.
  - unfold imm_reset. destruct (breakpoint s) eqn:Hb; cbn; repeat split; try reflexivity; try congruence.
Qed.

(* A successful numbered edit: everything that refers into the program is
   dropped; variables and arrays are kept. *)
Theorem edit_invalidates : forall fuel line s n v,
  state s = Idle -> edit_of line = Some (n, v) ->
  let '(r, s') := start_evaluating fuel line s in
  r = Ok tt
  /\ breakpoint s' = None /\ stack s' = [] /\ loops s' = [] /\ functions s' = [] /\ data_it s' = None
  /\ loc s' = imm0 /\ immediate s' = [] /\ state s' = Idle
  /\ variables s' = variables s /\ arrays s' = arrays s /\ rng s' = rng s /\ input s' = input s
  /\ outputs s' = outputs s
  /\ st_toks s' = st_toks (store_set n v s) /\ st_keys s' = st_keys (store_set n v s).
Proof.
  intros fuel line s n v Hidle Hedit. rewrite (start_edit fuel s line n v Hidle Hedit).
  repeat split; try reflexivity. exact Hidle.
Qed.

Theorem cont_command_without_breakpoint : forall fuel line s,
  command_of line = Some CCont -> state s = Idle -> breakpoint s = None ->
  fst (start_evaluating fuel line s) = Err ECannotContinue (Some imm0).
Proof.
  intros fuel line s Hc Hidle Hbp. unfold start_evaluating.
  rewrite (evaluate_impl_command fuel line CCont s Hidle Hc), (process_command_CONT_none fuel s Hbp). reflexivity.
Qed.

Theorem cont_without_breakpoint : forall fuel s,
  state s = Idle -> breakpoint s = None ->
  fst (start_evaluating fuel (bs "CONT") s) = Err ECannotContinue (Some imm0).
Proof. intros fuel s. exact (cont_command_without_breakpoint fuel _ s command_of_CONT). Qed.

(* CONT after an edit cannot resume anything *)
Corollary cont_after_edit : forall fuel fuel' line s n v,
  state s = Idle -> edit_of line = Some (n, v) ->
  fst (start_evaluating fuel' (bs "CONT") (snd (start_evaluating fuel line s)))
  = Err ECannotContinue (Some imm0).
Proof.
  intros fuel fuel' line s n v Hidle Hedit. rewrite (start_edit fuel s line n v Hidle Hedit).
  apply cont_without_breakpoint; [exact Hidle | reflexivity].
Qed.
