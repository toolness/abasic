(* C03: whole-program simulation for a fragment of BASIC (scalar assignment, PRINT,
   GOTO, GOSUB/RETURN, FOR/NEXT, IF..THEN..ELSE, READ/DATA/RESTORE, REM, END over the
   expressions of C02): programs that loop, branch and need not terminate.

   [fragment_simulation]: for any reference program of the fragment and any legal token
   spelling of it stored in the model, after every number of reference steps (Ref/RefSem.v:
   one step per statement) there is a number of host calls (one per statement, colons as
   calls of their own, line advance inside the call) after which the model has printed the
   reference's output records and is at the corresponding place with the corresponding
   store; if the reference stops the model is idle; if it fails the model fails in the same
   call with the same error kind on the same line.  Calls are run with enough fuel: fuel
   stands for the termination of the Rust loops and is not part of the semantics.

   Two ways of speaking of the cursor meet here.  The step lemmas run a statement from ExprSem's
   normal form [at_idx s j r o] over a fixed [s] with [fst (cur_tokens s) = Ok toks], and say where
   the cursor is by the tokens that remain on the line ([at_rest]), never by the index [j]; the lemmas
   about a whole call (the ELSE probe behind an arm, the end of the turn, the colon) are stated for
   any state in Safety's words [line_exists], [cur_toks], [bump].  [Safety.cur_tokens_iff],
   [bump_is_at], [same_line_tokens] and [cur_tokens_line] cross from one to the other. *)
From Coq Require Import List ZArith Bool Lia Sorted.
From Abasic Require Import Model.Bytes Model.Num Model.Token Model.State Model.Eval Model.Interp Ref.RefSem Proofs.Monad Proofs.Safety Proofs.ResetProofs Proofs.InputProofs Proofs.ExprSem Proofs.DataSim Proofs.RefProofs Proofs.StmtSim.
Import ListNotations.
Local Open Scope nat_scope.

Definition line_target (x : f64) : N := Z.to_N (f64_to_u64_sat x).

Fixpoint read_toks (vs : list bytes) : list token :=
  match vs with
  | [] => []
  | [v] => [TSymbol v]
  | v :: r => TSymbol v :: TComma :: read_toks r
  end.

(* tokens the skipping loop of a false IF passes over *)
Definition plain_tok (t : token) : bool := negb (token_eqb t TColon || token_eqb t TElse).

(* the THEN arm of an IF that has an ELSE: a line number, or a statement that
   needs no return point of its own (GOSUB and FOR in that position would
   return to the ELSE token; a nested IF would claim the ELSE).  The other statements of [SRen]
   (`?`, the LET keyword, REM, RESTORE, READ) would go through in the same way; they are just not
   in the fragment at this place. *)
Inductive TRen (F d : nat) (rest : list token) : arm -> list token -> Prop :=
| TR_line n x : line_target x = n -> TRen F d rest (ALine n) [TNumber x]
| TR_let v e e' te : tr e = Some e' -> Renders 0 e' te -> S d + pdepth e' < max_nesting -> stops 0 rest = true ->
    xsize e <= F -> TRen F d rest (AStmt (SLet v [] e)) (TSymbol v :: TEquals :: te)
| TR_print items mitems ti : tr_items items = Some mitems -> IRenders rest mitems ti ->
    S d + idepth mitems < max_nesting -> isize items <= F -> TRen F d rest (AStmt (SPrint items)) (TPrint :: ti)
| TR_goto n x : line_target x = n -> TRen F d rest (AStmt (SGoto n)) [TGoto; TNumber x]
| TR_return : TRen F d rest (AStmt SReturn) [TReturn]
| TR_end : TRen F d rest (AStmt SEnd) [TEnd]
| TR_next v : TRen F d rest (AStmt (SNext v)) [TNext; TSymbol v].

(* [ts] spells [stmt] when followed by [rest], at nesting depth [d] (one more inside each
   IF..THEN clause); [F] is the reference's expression fuel: every expression must fit *)
Inductive SRen (F : nat) (d : nat) (rest : list token) : rstmt -> list token -> Prop :=
| SR_let v e e' te : tr e = Some e' -> Renders 0 e' te -> S d + pdepth e' < max_nesting -> stops 0 rest = true ->
    xsize e <= F ->
    SRen F d rest (SLet v [] e) (TSymbol v :: TEquals :: te)
| SR_print items mitems ti : tr_items items = Some mitems -> IRenders rest mitems ti ->
    S d + idepth mitems < max_nesting -> isize items <= F ->
    SRen F d rest (SPrint items) (TPrint :: ti)
| SR_print_q items mitems ti : tr_items items = Some mitems -> IRenders rest mitems ti ->
    S d + idepth mitems < max_nesting -> isize items <= F ->
    SRen F d rest (SPrint items) (TQuestionMark :: ti)
| SR_let_kw v e e' te : tr e = Some e' -> Renders 0 e' te -> S d + pdepth e' < max_nesting -> stops 0 rest = true ->
    xsize e <= F ->
    SRen F d rest (SLet v [] e) (TLet :: TSymbol v :: TEquals :: te)
| SR_goto n x : line_target x = n -> SRen F d rest (SGoto n) [TGoto; TNumber x]
| SR_gosub n x : line_target x = n -> SRen F d rest (SGosub n) [TGosub; TNumber x]
| SR_return : SRen F d rest SReturn [TReturn]
| SR_end : SRen F d rest SEnd [TEnd]
| SR_if c c' tc n x : tr c = Some c' -> Renders 0 c' tc -> S d + pdepth c' < max_nesting -> line_target x = n ->
    xsize c <= F ->
    SRen F d rest (SIf c (ALine n) None) (TIf :: tc ++ [TThen; TNumber x])
| SR_for v a a' ta b b' tb stp tstep :
    tr a = Some a' -> Renders 0 a' ta -> S d + pdepth a' < max_nesting -> xsize a <= F ->
    tr b = Some b' -> Renders 0 b' tb -> S d + pdepth b' < max_nesting -> xsize b <= F ->
    ((stp = None /\ tstep = []) \/
     (exists c c' tc, stp = Some c /\ tstep = TStep :: tc /\ tr c = Some c' /\ Renders 0 c' tc
                      /\ S d + pdepth c' < max_nesting /\ xsize c <= F)) ->
    SRen F d rest (SFor v a b stp) (TFor :: TSymbol v :: TEquals :: ta ++ TTo :: tb ++ tstep)
| SR_next v : SRen F d rest (SNext v) [TNext; TSymbol v]
| SR_rem b : SRen F d rest SRem [TRemark b]
| SR_data items : d = 0 -> SRen F d rest (SData items) [TData items]     (* only as a statement of the line *)
| SR_restore : SRen F d rest SRestore [TRestore]
| SR_read vs : vs <> [] -> SRen F d rest (SRead (map (fun v => (v, [])) vs)) (TRead :: read_toks vs)
| SR_if_stmt c c' tc stmt tn : tr c = Some c' -> Renders 0 c' tc -> S d + pdepth c' < max_nesting -> xsize c <= F ->
    Nat.eqb (S d) max_nesting = false -> SRen F (S d) rest stmt tn ->
    forallb plain_tok tn = true ->      (* no ELSE inside: it would be taken for this IF's *)
    SRen F d rest (SIf c (AStmt stmt) None) (TIf :: tc ++ TThen :: tn)
| SR_if_else_line c c' tc A ta n x : tr c = Some c' -> Renders 0 c' tc -> S d + pdepth c' < max_nesting -> xsize c <= F ->
    Nat.eqb (S d) max_nesting = false ->
    TRen F (S d) (TElse :: TNumber x :: rest) A ta -> line_target x = n ->
    SRen F d rest (SIf c A (Some (ALine n))) (TIf :: tc ++ TThen :: ta ++ TElse :: [TNumber x])
| SR_if_else_stmt c c' tc A ta B tb : tr c = Some c' -> Renders 0 c' tc -> S d + pdepth c' < max_nesting -> xsize c <= F ->
    Nat.eqb (S d) max_nesting = false ->
    TRen F (S d) (TElse :: tb ++ rest) A ta -> SRen F (S d) rest B tb ->
    SRen F d rest (SIf c A (Some (AStmt B))) (TIf :: tc ++ TThen :: ta ++ TElse :: tb).

Inductive LRen (F : nat) : list rstmt -> list token -> Prop :=
| LR_last s ts : SRen F 0 [] s ts -> LRen F [s] ts
| LR_cons s ts r tr : SRen F 0 (TColon :: tr) s ts -> LRen F r tr -> LRen F (s :: r) (ts ++ TColon :: tr).

Lemma SRen_nonempty F d rest s ts : SRen F d rest s ts -> exists t ts', ts = t :: ts' /\ t <> TElse /\ t <> TColon.
Proof. destruct 1; eexists _, _; (split; [reflexivity | split; discriminate]). Qed.

Lemma LRen_nonempty F stmts toks : LRen F stmts toks -> exists t toks', toks = t :: toks' /\ t <> TElse /\ t <> TColon.
Proof.
  destruct 1 as [s ts H|s ts r tr H _]; destruct (SRen_nonempty _ _ _ _ _ H) as (t & ts' & -> & Ht);
    eexists _, _; (split; [reflexivity | exact Ht]).
Qed.

Lemma find_line_ge p n : forall k i, find_line p n k = Some i -> k <= i.
Proof.
  induction p as [|[m stmts] p IH]; intros k i H; cbn [find_line] in H; [discriminate|].
  destruct (m =? n)%N; [inversion H; lia|]. apply IH in H. lia.
Qed.

Lemma find_line_nth p n : forall k i, find_line p n k = Some i ->
  exists stmts, nth_error p (i - k) = Some (n, stmts).
Proof.
  induction p as [|[m stmts] p IH]; intros k i H; cbn [find_line] in H; [discriminate|].
  destruct (N.eqb_spec m n) as [->|Hne].
  - inversion H; subst. rewrite Nat.sub_diag. exists stmts. reflexivity.
  - pose proof (find_line_ge _ _ _ _ H) as Hge. destruct (IH _ _ H) as (st' & Hn). exists st'.
    replace (i - k) with (S (i - S k)) by lia. exact Hn.
Qed.

Lemma find_line_none p n : forall k, find_line p n k = None <-> ~ In n (map fst p).
Proof.
  induction p as [|[m stmts] p IH]; intros k; cbn [find_line map fst In]; [tauto|].
  destruct (N.eqb_spec m n) as [->|Hne].
  - split; [discriminate | intros H; exfalso; apply H; left; reflexivity].
  - rewrite IH. tauto.
Qed.

Lemma keys_after_all_greater n l : Forall (fun k => (n < k)%N) l -> keys_after n l = hd_error l.
Proof.
  destruct l as [|x l]; [reflexivity|]. intros H. inversion H; subst. cbn [keys_after hd_error].
  destruct (N.ltb_spec n x); [reflexivity | lia].
Qed.

Lemma keys_after_nth l : StronglySorted N.lt l -> forall i n, nth_error l i = Some n ->
  keys_after n l = nth_error l (S i).
Proof.
  induction 1 as [|x l Hs IH Hall]; intros i n Hn; [destruct i; discriminate|].
  destruct i as [|i]; cbn [nth_error] in *.
  - inversion Hn; subst. cbn [keys_after]. destruct (N.ltb_spec n n); [lia|].
    rewrite (keys_after_all_greater n l Hall). destruct l; reflexivity.
  - cbn [keys_after]. assert (Hx : (x < n)%N).
    { rewrite Forall_forall in Hall. apply Hall. eapply nth_error_In; eassumption. }
    destruct (N.ltb_spec n x); [lia|]. apply IH. exact Hn.
Qed.

Definition rerr_of2 (e : ierror) : rerr :=
  match e with
  | EUndefinedStatement => RUndefinedLine
  | EStackOverflow => RStackOverflow
  | EReturnWithoutGosub => RReturnWithoutGosub
  | ENextWithoutFor => RNextWithoutFor
  | EOutOfData => ROutOfData
  | EDataTypeMismatch => RDataTypeMismatch
  | other => rerr_of other
  end.

Lemma skipn_all_length {A} (l : list A) i ts : skipn i l = ts -> ts <> [] -> i + length ts = length l.
Proof.
  intros H Hne. assert (Hl : length (skipn i l) = length ts) by (rewrite H; reflexivity).
  rewrite skipn_length in Hl. destruct ts; [congruence|]. cbn [length] in *. lia.
Qed.

Lemma Forall2_len {A B} (R : A -> B -> Prop) l l' : Forall2 R l l' -> length l = length l'.
Proof. induction 1; cbn; congruence. Qed.

(* name-suffix typing of the scalar store (the part of C16's invariant NEXT
   relies on: a variable that reads as a number has a numeric name) *)
Definition typed (s : interp) : Prop :=
  forall name x, alist_get name (variables s) = Some x -> type_matches name x = true.

Lemma typed_set s s' v x : typed s -> type_matches v x = true -> variables s' = alist_set v x (variables s) -> typed s'.
Proof.
  intros HT Hm Hv name y. rewrite Hv, Caps.alist_get_set. destruct (bytes_eqb name v) eqn:E.
  - apply bytes_eqb_eq in E. subst name. intros H. inversion H; subst. exact Hm.
  - apply HT.
Qed.

Lemma typed_ext s s' : variables s' = variables s -> typed s -> typed s'.
Proof. unfold typed. intros ->. auto. Qed.

Lemma typed_read s v cur : typed s ->
  match alist_get v (variables s) with Some x => x | None => default_value v end = VNum cur ->
  forall y, type_matches v (VNum y) = true.
Proof.
  intros HT H y. destruct (alist_get v (variables s)) as [x|] eqn:E.
  - subst x. exact (HT v (VNum cur) E).
  - unfold default_value in H. cbn [type_matches]. destruct (ends_with_dollar v); [discriminate | reflexivity].
Qed.

(* the DATA cursor: the reference's position in the flat DATA list is the
   model iterator's flat position; no iterator yet = position 0 *)
Definition data_rel (st : rstate) (s : interp) : Prop :=
  match data_it s with
  | None => r_dpos st = 0
  | Some d => data_chunks (st_keys s) (st_toks s) = Ok (di_chunks d) /\ wf_it d /\ dpos d = r_dpos st
  end.

Lemma data_rel_ext st st' s s' :
  r_dpos st' = r_dpos st -> data_it s' = data_it s -> st_keys s' = st_keys s -> st_toks s' = st_toks s ->
  data_rel st s -> data_rel st' s'.
Proof. unfold data_rel. intros -> -> -> ->. auto. Qed.

(* open loops: what FOR keeps (the loops outside an earlier loop on the same
   variable) on the reference's side, [Caps.loops_below] being the model's, and NEXT's search, on both sides *)
Definition rkeep (v : bytes) (l : list rloop) : list rloop :=
  match drop_loop v l with Some (_, k) => k | None => l end.

Lemma drop_find (R : rloop -> loop_info -> Prop) v rls mls :
  Forall2 R rls mls -> (forall rl lp, R rl lp -> rl_var rl = lp_sym lp) ->
  match drop_loop v rls, find_loop_rev v mls with
  | None, None => True
  | Some (lp, kept), Some k => exists li', nth_error mls k = Some li' /\ R lp li' /\ Forall2 R kept (firstn k mls)
  | _, _ => False
  end.
Proof.
  intros H Hv. induction H as [|rl lp rls mls HR HF IH]; cbn [drop_loop find_loop_rev]; [exact I|].
  destruct (drop_loop v rls) as [[found kept]|], (find_loop_rev v mls) as [k|]; try contradiction.
  - destruct IH as (li' & A & B & C). exists li'. cbn [nth_error firstn]. split; [exact A|]. split; [exact B|].
    constructor; assumption.
  - rewrite (Hv rl lp HR). destruct (bytes_eqb (lp_sym lp) v); [|exact I].
    exists lp. cbn [nth_error firstn]. split; [reflexivity|]. split; [exact HR | constructor].
Qed.

Lemma keep_rel (R : rloop -> loop_info -> Prop) v rls mls :
  Forall2 R rls mls -> (forall rl lp, R rl lp -> rl_var rl = lp_sym lp) ->
  Forall2 R (rkeep v rls) (Caps.loops_below v mls).
Proof.
  intros H Hv. pose proof (drop_find R v rls mls H Hv) as D. unfold rkeep, Caps.loops_below.
  destruct (drop_loop v rls) as [[found kept]|], (find_loop_rev v mls) as [k|]; try contradiction.
  - destruct D as (li' & _ & _ & C). exact C.
  - exact H.
Qed.

Lemma drop_loop_var v l lp kept : drop_loop v l = Some (lp, kept) -> rl_var lp = v.
Proof.
  revert lp kept. induction l as [|x r IH]; intros lp kept H; cbn [drop_loop] in H; [discriminate|].
  destruct (drop_loop v r) as [[found k]|].
  - inversion H; subst. eapply IH. reflexivity.
  - destruct (bytes_eqb (rl_var x) v) eqn:E; [|discriminate]. inversion H; subst. apply bytes_eqb_eq. exact E.
Qed.

(* entering a loop, reference side (the [with_step] of RefSem.exec) *)
Definition for_enter (v : bytes) (from to step : f64) (after : rpc) (here : N) (st3 : rstate) : outcome :=
  let kept := rkeep v (r_loops st3) in
  if Nat.eqb (length kept) depth_cap then Fail RStackOverflow here (set_loops' kept st3)
  else
    let st4 := set_loops' (kept ++ [mkrl v to step after]) st3 in
    match store_scalar v (VNum from) st4 with
    | inl st5 => Next after st5
    | inr er => Fail er here st4
    end.

Lemma same_store_ext st0 s0 st1 s1 :
  same_store st0 s0 -> r_frames st1 = r_frames st0 -> r_vars st1 = r_vars st0 -> variables s1 = variables s0 ->
  (forall name, find_in_frames name (rev (stack s1)) = find_in_frames name (rev (stack s0))) -> same_store st1 s1.
Proof. intros [A B] E1 E2 E3 E4. split; intros name; [rewrite E1, E4; apply A | rewrite E2, E3; apply B]. Qed.

(* what no statement of the fragment changes; the two flags are not just kept but off ([Inv]) *)
Definition same_setup (s s' : interp) : Prop :=
  st_toks s' = st_toks s /\ st_keys s' = st_keys s /\ enable_tracing s' = false /\ enable_warnings s' = false
  /\ state s' = state s /\ immediate s' = immediate s.

Definition data_match (x : data_elem * location) (y : data_elem * N) : Prop :=
  fst x = fst y /\ loc_line (snd x) = Some (snd y).

(* the tokens PRINT items are spelled with (expressions, `;`, `,`), and those of
   the THEN arm in front of an ELSE: none is a colon, ELSE or DATA *)
Definition item_tok (t : token) : bool :=
  match t with
  | TNumber _ | TString _ | TSymbol _ | TLeftParen | TRightParen | TSemicolon | TComma
  | TPlus | TMinus | TNot | TOr | TAnd | TMultiply | TDivide | TCaret
  | TEquals | TNotEquals | TLessThan | TLessThanOrEqualTo | TGreaterThan | TGreaterThanOrEqualTo => true
  | _ => false
  end.

Definition arm_tok (t : token) : bool :=
  match t with TPrint | TGoto | TReturn | TEnd | TNext => true | _ => item_tok t end.

Lemma forallb_impl {A} (f g : A -> bool) l :
  (forall x, f x = true -> g x = true) -> forallb f l = true -> forallb g l = true.
Proof. intros H. rewrite !forallb_forall. auto. Qed.

Lemma Renders_toks k e ts : Renders k e ts -> forallb item_tok ts = true.
Proof.
  induction 1 as [x|b|name|e ts H IH|e ts H IH|e ts H IH|op e ts H IH|op a b ta tb Ha IHa Hb IHb|k e ts Hk H IH];
    try reflexivity; try exact IH.
  - cbn [forallb]. rewrite forallb_app, IH. reflexivity.
  - cbn [forallb]. rewrite forallb_app, IH. reflexivity.
  - cbn [forallb]. rewrite forallb_app, IH. reflexivity.
  - cbn [forallb]. rewrite IH. destruct op; reflexivity.
  - rewrite forallb_app. cbn [forallb]. rewrite IHa, IHb.
    destruct op as [| |c|[]|[]|]; try reflexivity. destruct c; reflexivity.
Qed.

Lemma IRenders_toks rest items ts : IRenders rest items ts -> forallb item_tok ts = true.
Proof.
  induction 1 as [Hend|r0 ts H IH|r0 ts H IH|e te r0 ts He Hst H IH]; try reflexivity.
  - exact IH.
  - exact IH.
  - rewrite forallb_app, (Renders_toks _ _ _ He), IH. reflexivity.
Qed.

Lemma TRen_toks F d rest a ts : TRen F d rest a ts -> forallb arm_tok ts = true.
Proof.
  assert (Hi : forall l, forallb item_tok l = true -> forallb arm_tok l = true).
  { intros l. apply forallb_impl. intros t; destruct t; (discriminate || reflexivity). }
  destruct 1 as [n x H1|v e e' te H1 H2 H3 H4 H5|items mitems ti H1 H2 H3 H4|n x H1| | |v]; try reflexivity.
  - cbn [forallb]. apply Hi, (Renders_toks _ _ _ H2).
  - cbn [forallb]. apply Hi, (IRenders_toks _ _ _ H2).
Qed.

Lemma token_neq_else t : t <> TElse -> token_eqb t TElse = false.
Proof. intros H. destruct t; try reflexivity. congruence. Qed.

(* what stands behind a statement of the line *)
Definition ends_here (rest : list token) : Prop := rest = [] \/ exists tl, rest = TColon :: tl.

Lemma end_token (toks rest : list token) j t : skipn j toks = rest -> ends_here rest ->
  nth_error toks j = Some t -> t = TColon.
Proof.
  intros Hsk [->|(tr & ->)] Ht.
  - rewrite (skipn_nil_nth _ _ Hsk) in Ht. discriminate.
  - destruct (skipn_cons_nth _ _ _ _ Hsk) as [Hc _]. congruence.
Qed.

Section Scan.
  Variable s : interp.
  Variable toks : list token.
  Hypothesis Htoks : fst (cur_tokens s) = Ok toks.

  Lemma scan_plain more o :
    forall ts j r n, forallb plain_tok ts = true -> skipn j toks = ts ++ more ->
      exists r', repeat_m (length ts + n) else_scan_body tt (at_idx s j r o)
                 = repeat_m n else_scan_body tt (at_idx s (j + length ts) r' o).
  Proof.
    induction ts as [|t ts IH]; intros j r n Hp Hsk.
    - exists r. cbn [length]. rewrite Nat.add_0_r. reflexivity.
    - cbn [app] in Hsk. cbn [forallb] in Hp. apply andb_true_iff in Hp. destruct Hp as [Hp1 Hp2].
      destruct (skipn_cons_nth _ _ _ _ Hsk) as [Hc Hsk'].
      destruct (IH (S j) (S r) n Hp2 Hsk') as (r' & E). exists r'.
      cbn [length plus]. rewrite repeat_m_S. unfold else_scan_body at 1. rewrite bind_assoc.
      erewrite bind_ok by (apply (next_some s toks Htoks); exact Hc).
      replace (j + S (length ts)) with (S j + length ts) by lia. rewrite <- E.
      unfold plain_tok in Hp1. destruct t; try reflexivity; discriminate.
  Qed.

  (* the scan of a false IF passes the clause and everything behind it on the line *)
  Lemma scan_skip rest o : ends_here rest ->
    forall ts j r n, forallb plain_tok ts = true -> skipn j toks = ts ++ rest ->
      j + length ts + length rest = length toks -> length ts + 3 <= n ->
      exists r', repeat_m n else_scan_body tt (at_idx s j r o) = (Ok false, at_idx s (length toks) r' o).
  Proof.
    intros Hrest ts j r n Hp Hsk Hlen Hn.
    destruct (scan_plain rest o ts j r (n - length ts) Hp Hsk) as (r1 & E).
    replace (length ts + (n - length ts)) with n in E by lia. rewrite E. clear E.
    pose proof (skipn_app_len _ _ _ _ Hsk) as Hsk'.
    destruct (n - length ts) as [|[|m]] eqn:En; [lia | lia |]. rewrite repeat_m_S. unfold else_scan_body at 1.
    destruct Hrest as [->|(tr0 & ->)].
    - cbn [length] in Hlen. rewrite bind_assoc, (bind_ok _ _ _ _ _ (next_none s toks Htoks _ _ _ (skipn_nil_nth _ _ Hsk'))).
      replace (length toks) with (j + length ts) by lia. eexists. reflexivity.
    - destruct (skipn_cons_nth _ _ _ _ Hsk') as [Hc _].
      assert (Hdisc : forall x r0, discard_remaining_tokens (at_idx s x r0 o) = (Ok tt, at_idx s (length toks) r0 o)).
      { intros x r0. unfold discard_remaining_tokens. erewrite bind_ok by apply (cur_tokens_at s toks Htoks). reflexivity. }
      rewrite bind_assoc. erewrite bind_ok by (apply (next_some s toks Htoks); exact Hc). cbv iota.
      rewrite bind_assoc. erewrite bind_ok by apply Hdisc. rewrite bind_ret.
      rewrite repeat_m_S. unfold else_scan_body at 1.
      rewrite bind_assoc, (bind_ok _ _ _ _ _ (next_none s toks Htoks _ _ _ (proj2 (nth_error_None toks (length toks)) (le_n _)))).
      eexists. reflexivity.
  Qed.

  (* ... or stops behind the ELSE of the clause *)
  Lemma scan_to_else more o :
    forall ts j r n, forallb plain_tok ts = true -> skipn j toks = ts ++ TElse :: more -> length ts + 1 <= n ->
      exists r', repeat_m n else_scan_body tt (at_idx s j r o) = (Ok true, at_idx s (S (j + length ts)) r' o).
  Proof.
    intros ts j r n Hp Hsk Hn.
    destruct (scan_plain (TElse :: more) o ts j r (n - length ts) Hp Hsk) as (r1 & E).
    replace (length ts + (n - length ts)) with n in E by lia. rewrite E. clear E.
    destruct (skipn_cons_nth _ _ _ _ (skipn_app_len _ _ _ _ Hsk)) as [Hc _].
    destruct (n - length ts) as [|m] eqn:En; [lia|]. rewrite repeat_m_S. unfold else_scan_body at 1.
    rewrite bind_assoc. erewrite bind_ok by (apply (next_some s toks Htoks); exact Hc). exists (S r1). reflexivity.
  Qed.
End Scan.

Lemma TRen_plain F d rest a ts : TRen F d rest a ts -> forallb plain_tok ts = true.
Proof.
  intros H. apply (forallb_impl arm_tok); [|exact (TRen_toks _ _ _ _ _ H)].
  intros t; destruct t; (discriminate || reflexivity).
Qed.

(* DATA tokens occur only as DATA statements of the line *)
Definition notdata (t : token) : bool := match t with TData _ => false | _ => true end.

Lemma item_nodata l : forallb item_tok l = true -> forallb notdata l = true.
Proof. apply forallb_impl. intros t; destruct t; (discriminate || reflexivity). Qed.

Lemma TRen_nodata F d rest a ts : TRen F d rest a ts -> forallb notdata ts = true.
Proof.
  intros H. apply (forallb_impl arm_tok); [|exact (TRen_toks _ _ _ _ _ H)].
  intros t; destruct t; (discriminate || reflexivity).
Qed.

Lemma read_toks_nodata vs : forallb notdata (read_toks vs) = true.
Proof. induction vs as [|v [|v2 vs] IH]; try reflexivity. exact IH. Qed.

Lemma SRen_nodata F d rest stmt ts : SRen F d rest stmt ts ->
  (exists items, stmt = SData items /\ ts = [TData items] /\ d = 0)
  \/ (forallb notdata ts = true /\ data_of_stmt stmt = []).
Proof.
  induction 1 as [d rest v e e' te H1 H2 H3 H4 H5|d rest items mitems ti H1 H2 H3 H4|d rest items mitems ti H1 H2 H3 H4|d rest v e e' te H1 H2 H3 H4 H5|d rest n x H1|d rest n x H1|d rest|d rest
                 |d rest c c' tc n x H1 H2 H3 H4 H5
                 |d rest v a a' ta b b' tb stp tstep A1 A2 A3 A4 B1 B2 B3 B4 HC|d rest v|d rest b0
                 |d rest items Hd0|d rest|d rest vs Hvs
                 |d rest c c' tc stmt tn H1 H2 H3 H4 H5 H6 IH H7
                 |d rest c c' tc A ta n x H1 H2 H3 H4 H5 H6 H7|d rest c c' tc A ta B tb H1 H2 H3 H4 H5 H6 H7 IH];
    try (right; split; reflexivity).
  - right. split; [|reflexivity]. cbn [forallb]. rewrite (item_nodata _ (Renders_toks _ _ _ H2)). reflexivity.
  - right. split; [|reflexivity]. cbn [forallb]. rewrite (item_nodata _ (IRenders_toks _ _ _ H2)). reflexivity.
  - right. split; [|reflexivity]. cbn [forallb]. rewrite (item_nodata _ (IRenders_toks _ _ _ H2)). reflexivity.
  - right. split; [|reflexivity]. cbn [forallb]. rewrite (item_nodata _ (Renders_toks _ _ _ H2)). reflexivity.
  - right. split; [|reflexivity]. cbn [forallb]. rewrite forallb_app, (item_nodata _ (Renders_toks _ _ _ H2)). reflexivity.
  - right. split; [|reflexivity]. cbn [forallb]. rewrite forallb_app, (item_nodata _ (Renders_toks _ _ _ A2)). cbn [forallb].
    rewrite forallb_app, (item_nodata _ (Renders_toks _ _ _ B2)).
    destruct HC as [[_ ->]|(c & c' & tc & _ & -> & _ & Hr & _)]; [reflexivity|].
    cbn [forallb]. rewrite (item_nodata _ (Renders_toks _ _ _ Hr)). reflexivity.
  - left. exists items. repeat split. exact Hd0.
  - right. split; [|reflexivity]. cbn [forallb]. apply read_toks_nodata.
  - right. split; [|reflexivity]. cbn [forallb]. rewrite forallb_app, (item_nodata _ (Renders_toks _ _ _ H2)). cbn [forallb].
    destruct IH as [(items & _ & _ & E)|[IH _]]; [discriminate | exact IH].
  - right. split; [|reflexivity]. cbn [forallb]. rewrite forallb_app, (item_nodata _ (Renders_toks _ _ _ H2)). cbn [forallb].
    rewrite forallb_app, (TRen_nodata _ _ _ _ _ H6). reflexivity.
  - right. split; [|reflexivity]. cbn [forallb]. rewrite forallb_app, (item_nodata _ (Renders_toks _ _ _ H2)). cbn [forallb].
    rewrite forallb_app, (TRen_nodata _ _ _ _ _ H6). cbn [forallb].
    destruct IH as [(items & _ & _ & E)|[IH _]]; [discriminate | exact IH].
Qed.

Lemma chunks_nodata n ts k : forallb notdata ts = true -> data_chunks_of_line n ts k = [].
Proof.
  revert k. induction ts as [|t ts IH]; intros k H; [reflexivity|]. cbn [forallb] in H. apply andb_true_iff in H. destruct H as [H1 H2].
  destruct t; try discriminate; cbn [data_chunks_of_line]; apply IH; exact H2.
Qed.

Lemma chunks_app n a b k : data_chunks_of_line n (a ++ b) k = data_chunks_of_line n a k ++ data_chunks_of_line n b (k + length a).
Proof.
  revert k. induction a as [|t a IH]; intros k; cbn [app length]; [rewrite Nat.add_0_r; reflexivity|].
  destruct t; cbn [data_chunks_of_line]; rewrite IH; try (replace (S k + length a) with (k + S (length a)) by lia; reflexivity).
Qed.

Lemma LRen_chunks F n stmts toks : LRen F stmts toks -> forall k,
  Forall2 data_match (flatl (data_chunks_of_line n toks k)) (map (fun d => (d, n)) (flat_map data_of_stmt stmts)).
Proof.
  assert (Hone : forall rest s ts k, SRen F 0 rest s ts ->
            Forall2 data_match (flatl (data_chunks_of_line n ts k)) (map (fun d => (d, n)) (data_of_stmt s))).
  { intros rest s ts k HS. destruct (SRen_nodata _ _ _ _ _ HS) as [(items & -> & -> & _)|[Hnd Hds]].
    - cbn [data_chunks_of_line data_of_stmt]. unfold flatl. cbn [map concat fst snd]. rewrite app_nil_r. clear HS.
      induction items as [|e items IH]; cbn [map]; [constructor|]. constructor; [split; reflexivity | exact IH].
    - rewrite (chunks_nodata _ _ _ Hnd), Hds. constructor. }
  induction 1 as [s ts HS|s ts r tr HS HL IH]; intros k.
  - cbn [flat_map]. rewrite app_nil_r. apply (Hone [] s ts k HS).
  - cbn [flat_map]. rewrite map_app, chunks_app, flatl_app. apply Forall2_app; [apply (Hone _ s ts k HS)|].
    cbn [data_chunks_of_line]. apply IH.
Qed.

Lemma SRen_head F d rest stmt ts : SRen F d rest stmt ts -> exists t ts', ts = t :: ts' /\ forall x, t <> TNumber x.
Proof. destruct 1; eexists _, _; (split; [reflexivity | intros x0; discriminate]). Qed.

Definition turn_ok (s s' : interp) : Prop :=
  exists f0, forall fuel, f0 <= fuel -> continue_evaluating fuel s = (Ok tt, s').
Definition turn_err (s : interp) (e : ierror) (l : option location) (s' : interp) : Prop :=
  exists f0, forall fuel, f0 <= fuel -> continue_evaluating fuel s = (Err e l, s').

Inductive turns : interp -> interp -> Prop :=
| turns_refl s : turns s s
| turns_step s s1 s2 : turn_ok s s1 -> turns s1 s2 -> turns s s2.

Lemma turns_trans a b c : turns a b -> turns b c -> turns a c.
Proof. induction 1; [auto | intros; econstructor; eauto]. Qed.

Lemma turns_one a b : turn_ok a b -> turns a b.
Proof. intros H. econstructor; [exact H | constructor]. Qed.

Lemma bump_is_at s : bump s = at_idx s (loc_idx (loc s)) (S (reads s)) (outputs s).
Proof. destruct s as [? ? ? [? ?] ? ? ? ? ? ? ? ? ? ? ? ? ? ? ?]; reflexivity. Qed.

Lemma turn_eq fuel s t :
  state s = Running -> line_exists s (loc s) -> nth_error (cur_toks s) (loc_idx (loc s)) = Some t ->
  continue_evaluating fuel s = postprocess ((evaluate_statement fuel 0 ;;; after_statement) (bump s)).
Proof.
  intros Hrun Hle Hnth. unfold continue_evaluating. rewrite Hrun. f_equal.
  rewrite (rns_at_token fuel s t Hle Hnth), <- Hrun, set_state_same. reflexivity.
Qed.

Lemma after_stay s t : line_exists s (loc s) -> nth_error (cur_toks s) (loc_idx (loc s)) = Some t ->
  after_statement s = (Ok tt, bump s).
Proof. intros Hle Hn. rewrite (after_statement_eq s Hle). unfold turn_end. rewrite Hn. reflexivity. Qed.

Lemma after_next s n n' : line_exists s (loc s) -> nth_error (cur_toks s) (loc_idx (loc s)) = None ->
  loc_line (loc s) = Some n -> keys_after n (st_keys s) = Some n' ->
  after_statement s = (Ok tt, set_loc (mkloc (Some n') 0) (bump s)).
Proof.
  intros Hle Hn Hl Hk. rewrite (after_statement_eq s Hle). unfold turn_end. rewrite Hn, Hl, Hk. reflexivity.
Qed.

Definition finished (s : interp) : interp := set_state Idle (StoreProofs.imm_reset [] (bump s)).

Lemma outputs_finished s : outputs (finished s) = outputs s.
Proof. unfold finished, StoreProofs.imm_reset. destruct s; cbn. destruct breakpoint; reflexivity. Qed.

Lemma after_last s n : line_exists s (loc s) -> nth_error (cur_toks s) (loc_idx (loc s)) = None ->
  loc_line (loc s) = Some n -> keys_after n (st_keys s) = None ->
  after_statement s = (Ok tt, finished s).
Proof.
  intros Hle Hn Hl Hk. rewrite (after_statement_eq s Hle). unfold turn_end. rewrite Hn, Hl, Hk. reflexivity.
Qed.

Lemma after_imm s : loc s = imm0 -> immediate s = [] -> after_statement s = (Ok tt, finished s).
Proof.
  intros Hl Hi. rewrite after_statement_eq by (unfold line_exists, line_ok; rewrite Hl; exact I).
  unfold turn_end, cur_toks. rewrite Hl. cbn [loc_line imm0 loc_idx]. rewrite Hi. reflexivity.
Qed.

Lemma same_line_tokens s s' toks :
  fst (cur_tokens s) = Ok toks -> same_setup s s' -> loc_line (loc s') = loc_line (loc s) ->
  line_exists s' (loc s') /\ cur_toks s' = toks.
Proof.
  intros H (K1 & _ & _ & _ & _ & K6) Hl. apply cur_tokens_iff in H. destruct H as [Hle Hct].
  unfold line_exists, cur_toks in *. rewrite Hl, K1, K6. split; assumption.
Qed.

Lemma probe_no_else s' : line_exists s' (loc s') -> nth_error (cur_toks s') (loc_idx (loc s')) <> Some TElse ->
  else_probe s' = (Ok tt, bump s').
Proof.
  intros Hle Hne. unfold else_probe, peek_is. rewrite bind_assoc.
  erewrite bind_ok by (apply peek_eq; exact Hle). rewrite bind_ret.
  destruct (nth_error (cur_toks s') (loc_idx (loc s'))) as [t|]; [|reflexivity].
  rewrite token_neq_else by congruence. reflexivity.
Qed.

(* where a RETURN or a NEXT can land there is no ELSE *)
Definition no_else_at (s : interp) (l : location) : Prop :=
  exists n ts, loc_line l = Some n /\ toks_get n (st_toks s) = Some ts /\ nth_error ts (loc_idx l) <> Some TElse.

(* [reach P s]: every run of host calls from [s], each made with enough fuel,
   passes — after finitely many calls that all return normally — through a
   state satisfying [P].  [Q] describes the state after the call: the step lemmas find one for every
   fuel and do not show that it is the same for all of them. *)
Inductive reach (P : interp -> Prop) : interp -> Prop :=
| reach_now s : P s -> reach P s
| reach_turn s (Q : interp -> Prop) :
    (exists f0, forall fuel, f0 <= fuel -> exists s', continue_evaluating fuel s = (Ok tt, s') /\ Q s') ->
    (forall s', Q s' -> reach P s') -> reach P s.

Lemma reach_bind (P R : interp -> Prop) s : reach R s -> (forall s', R s' -> reach P s') -> reach P s.
Proof.
  induction 1 as [s H|s Q Hq Hn IH]; intros HR; [apply HR, H|].
  apply (reach_turn P s Q Hq). intros s' Hs'. apply IH; assumption.
Qed.

Section Program.
  Variable F : nat.
  Variable p : rprogram.
  Variable o0 : list output.               (* what the model had printed before the run *)

  Record Inv (s : interp) : Prop := {
    i_trace : enable_tracing s = false;
    i_warn : enable_warnings s = false;
    i_imm : immediate s = [];
    i_keys : st_keys s = map fst p;
    i_sorted : StronglySorted N.lt (map fst p);
    i_lines : forall li n stmts, nth_error p li = Some (n, stmts) ->
              exists toks, toks_get n (st_toks s) = Some toks /\ LRen F stmts toks;
    i_only : forall n, toks_get n (st_toks s) <> None -> In n (map fst p) }.

  Lemma Inv_ext s s' :
    enable_tracing s' = enable_tracing s -> enable_warnings s' = enable_warnings s -> immediate s' = immediate s ->
    st_keys s' = st_keys s -> st_toks s' = st_toks s -> Inv s -> Inv s'.
  Proof.
    intros E1 E2 E3 E4 E5 [A1 A2 A3 A4 A5 A6 A7].
    split; [congruence|congruence|congruence|congruence|exact A5| |]; rewrite E5; assumption.
  Qed.

  Lemma Inv_same_setup s s' : Inv s -> same_setup s s' -> Inv s'.
  Proof.
    intros HI (K1 & K2 & K3 & K4 & K5 & K6). destruct HI as [A1 A2 A3 A4 A5 A6 A7].
    split; [exact K3|exact K4|congruence|congruence|exact A5| |]; rewrite K1; assumption.
  Qed.

  Lemma Inv_jump s : Inv s ->
    forall n, store_has n s = match find_line p n 0 with Some _ => true | None => false end.
  Proof.
    intros HI n. unfold store_has. destruct (find_line p n 0) as [li|] eqn:Ef.
    - destruct (find_line_nth _ _ _ _ Ef) as (stmts & Hn). rewrite Nat.sub_0_r in Hn.
      destruct (i_lines s HI li n stmts Hn) as (toks & -> & _). reflexivity.
    - apply find_line_none in Ef. destruct (toks_get n (st_toks s)) eqn:E; [|reflexivity].
      exfalso. apply Ef. apply (i_only s HI). rewrite E. discriminate.
  Qed.

  (* where the model's cursor is when the reference is at statement [si] of
     line [li]: on its first token, or on the colon in front of it *)
  Definition at_stmt (li si : nat) (s : interp) (colon : bool) : Prop :=
    exists n stmts toks tr,
      nth_error p li = Some (n, stmts) /\ toks_get n (st_toks s) = Some toks /\ loc_line (loc s) = Some n
      /\ skipn (loc_idx (loc s)) toks = (if colon then TColon :: tr else tr) /\ LRen F (skipn si stmts) tr.

  Definition Fin (st : rstate) (s : interp) : Prop :=
    state s = Idle /\ outputs s = o0 ++ map OPrint (r_out st).

  (* where a RETURN lands: just past the GOSUB that pushed the frame — on the
     colon in front of the reference's return statement, or at the end of the line *)
  Definition pcloc (T : list (N * list token)) (pc : rpc) (l : location) : Prop :=
    exists n stmts toks,
      nth_error p (fst pc) = Some (n, stmts) /\ toks_get n T = Some toks /\ loc_line l = Some n
      /\ ((exists tl, skipn (loc_idx l) toks = TColon :: tl /\ LRen F (skipn (snd pc) stmts) tl)
          \/ (skipn (loc_idx l) toks = [] /\ snd pc = length stmts)).

  (* the reference's return stack against the model's frames (the fragment has no DEF FN:
     no function-call bindings) *)
  Definition calls_rel (st : rstate) (s : interp) : Prop :=
    r_frames st = [] /\
    Forall2 (fun pc fr => fr_vars fr = [] /\ pcloc (st_toks s) pc (fr_ret fr)) (r_calls st) (rev (stack s)).

  Lemma calls_ext st st' s s' :
    r_calls st' = r_calls st -> r_frames st' = r_frames st -> stack s' = stack s -> st_toks s' = st_toks s ->
    calls_rel st s -> calls_rel st' s'.
  Proof. intros E1 E2 E3 E4 [A B]. split; [congruence|]. rewrite E1, E3, E4. exact B. Qed.

  Lemma calls_depth st s : calls_rel st s -> length (r_calls st) + length (r_frames st) = length (stack s).
  Proof.
    intros [A B]. rewrite A. apply Forall2_len in B. rewrite rev_length in B. cbn [length]. lia.
  Qed.

  Lemma calls_nil st s : calls_rel st s -> r_calls st = [] -> stack s = [].
  Proof.
    intros [A B] E. rewrite E in B. destruct (rev (stack s)) as [|x l] eqn:Er; [|inversion B].
    apply (f_equal (@rev _)) in Er. rewrite rev_involutive in Er. exact Er.
  Qed.

  Lemma calls_cons st s pc cr : calls_rel st s -> r_calls st = pc :: cr ->
    exists fr rs, stack s = rs ++ [fr] /\ fr_vars fr = [] /\ pcloc (st_toks s) pc (fr_ret fr)
                  /\ Forall2 (fun pc fr => fr_vars fr = [] /\ pcloc (st_toks s) pc (fr_ret fr)) cr (rev rs).
  Proof.
    intros [A B] E. rewrite E in B. destruct (rev (stack s)) as [|fr rs0] eqn:Er; [inversion B|].
    apply (f_equal (@rev _)) in Er. rewrite rev_involutive in Er. cbn [rev] in Er.
    inversion B as [|pc0 fr0 cr0 rs1 [H1 H2] H3]. subst.
    exists fr, (rev rs0). rewrite rev_involutive. repeat split; assumption.
  Qed.

  (* the open loops, one by one: same variable, limit and step, and the body
     starts where the model's NEXT jumps to *)
  Definition lrel (T : list (N * list token)) (rl : rloop) (lp : loop_info) : Prop :=
    rl_var rl = lp_sym lp /\ rl_to rl = lp_to lp /\ rl_step rl = lp_step lp /\ pcloc T (rl_body rl) (lp_loc lp).
  Definition loops_rel (st : rstate) (s : interp) : Prop := Forall2 (lrel (st_toks s)) (r_loops st) (loops s).

  Lemma lrel_var T rl lp : lrel T rl lp -> rl_var rl = lp_sym lp.
  Proof. intros [A _]. exact A. Qed.

  Lemma loops_ext st st' s s' :
    r_loops st' = r_loops st -> loops s' = loops s -> st_toks s' = st_toks s -> loops_rel st s -> loops_rel st' s'.
  Proof. unfold loops_rel. intros -> -> ->. auto. Qed.

  Record Rel (st : rstate) (s : interp) : Prop := {
    rel_store : same_store st s; rel_calls : calls_rel st s; rel_loops : loops_rel st s;
    rel_typed : typed s; rel_data : data_rel st s }.

  Lemma Rel_move st s s' :
    Rel st s -> st_toks s' = st_toks s -> st_keys s' = st_keys s -> variables s' = variables s ->
    stack s' = stack s -> loops s' = loops s -> data_it s' = data_it s -> Rel st s'.
  Proof.
    intros [[A B] Hcr Hlr Hty Hdr] E1 E2 E3 E4 E5 E6. split.
    - split; intros name; [rewrite E4; apply A | rewrite E3; apply B].
    - apply (calls_ext st st s); trivial.
    - apply (loops_ext st st s); trivial.
    - apply (typed_ext s); assumption.
    - apply (data_rel_ext st st s); trivial.
  Qed.

  Lemma Rel_assign st s v x : Rel st s -> type_matches v x = true ->
    Rel (set_vars' (update v x (r_vars st)) st) (set_variables (alist_set v x (variables s)) s).
  Proof.
    intros [A B C D E] Hm. split.
    - apply (same_store_assign st s); [exact A | reflexivity | reflexivity].
    - apply (calls_ext st _ s); trivial.
    - apply (loops_ext st _ s); trivial.
    - apply (typed_set s _ v x D Hm). reflexivity.
    - apply (data_rel_ext st _ s); trivial.
  Qed.

  Lemma calls_push st s st' s' pc l :
    calls_rel st s -> pcloc (st_toks s) pc l -> r_frames st' = r_frames st -> r_calls st' = pc :: r_calls st ->
    stack s' = stack s ++ [mkframe l []] -> st_toks s' = st_toks s -> calls_rel st' s'.
  Proof.
    intros [A B] C E1 E2 E3 E4. split; [congruence|]. rewrite E2, E3, rev_unit, E4.
    constructor; [split; [reflexivity | exact C] | exact B].
  Qed.

  Lemma loops_enter st s st' s' v to step pc l :
    loops_rel st s -> pcloc (st_toks s) pc l ->
    r_loops st' = rkeep v (r_loops st) ++ [mkrl v to step pc] ->
    loops s' = Caps.loops_below v (loops s) ++ [mkloop l v to step] -> st_toks s' = st_toks s -> loops_rel st' s'.
  Proof.
    unfold loops_rel. intros H C E1 E2 E3. rewrite E1, E2, E3.
    apply Forall2_app; [apply keep_rel; [exact H | apply lrel_var]|].
    constructor; [|constructor]. repeat split; try reflexivity. exact C.
  Qed.

  (* [Sim_at]: the model stands on the statement the reference is at (or on the colon in front of it),
     with related stores.  [Sim_eol]: the reference spends a step of its own on the end of a line,
     [(li, length stmts)] to [(S li, 0)], which the model has spent inside the previous call; so
     whatever is related to the start of the next line is related to the end of this one.
     [Sim_fin]: past the last line the reference has stopped, and the model is idle. *)
  Inductive Sim : rpc -> rstate -> interp -> Prop :=
  | Sim_at li si st s colon :
      Inv s -> state s = Running -> same_store st s -> outputs s = o0 ++ map OPrint (r_out st) ->
      calls_rel st s -> loops_rel st s -> typed s -> data_rel st s -> at_stmt li si s colon -> Sim (li, si) st s
  | Sim_eol li st s n stmts : nth_error p li = Some (n, stmts) -> Sim (S li, 0) st s -> Sim (li, length stmts) st s
  | Sim_fin li si st s : length p <= li -> Fin st s -> Sim (li, si) st s.

  Lemma cur_toks_line s n toks : loc_line (loc s) = Some n -> toks_get n (st_toks s) = Some toks -> cur_toks s = toks.
  Proof. intros Hl Ht. unfold cur_toks. rewrite Hl, Ht. reflexivity. Qed.

  Lemma line_exists_line s n toks : loc_line (loc s) = Some n -> toks_get n (st_toks s) = Some toks ->
    line_exists s (loc s).
  Proof. intros Hl Ht. unfold line_exists, line_ok. rewrite Hl, Ht. discriminate. Qed.

  Lemma cur_tokens_line s n toks : loc_line (loc s) = Some n -> toks_get n (st_toks s) = Some toks ->
    fst (cur_tokens s) = Ok toks.
  Proof.
    intros Hl Ht. apply cur_tokens_iff. split; [exact (line_exists_line s n toks Hl Ht) | exact (cur_toks_line s n toks Hl Ht)].
  Qed.

  (* what [Sim_at] asks besides the place *)
  Record SimRel (st : rstate) (s : interp) : Prop := {
    sr_inv : Inv s; sr_run : state s = Running; sr_out : outputs s = o0 ++ map OPrint (r_out st);
    sr_rel : Rel st s }.

  Lemma SimRel_move st s s' :
    SimRel st s -> st_toks s' = st_toks s -> st_keys s' = st_keys s -> immediate s' = immediate s ->
    enable_tracing s' = enable_tracing s -> enable_warnings s' = enable_warnings s -> state s' = state s ->
    variables s' = variables s -> stack s' = stack s -> loops s' = loops s -> data_it s' = data_it s ->
    outputs s' = outputs s -> SimRel st s'.
  Proof.
    intros [HI Hrun Hout R] E1 E2 E3 E4 E5 E6 E7 E8 E9 E10 E11. split.
    - apply (Inv_ext s); assumption.
    - congruence.
    - congruence.
    - apply (Rel_move st s); assumption.
  Qed.

  Lemma Sim_here li si st s colon : SimRel st s -> at_stmt li si s colon -> Sim (li, si) st s.
  Proof. intros [HI Hrun Hout [Hrel Hcr Hlr Hty Hdr]]. apply Sim_at; assumption. Qed.

  Lemma Sim_line_start li n stmts st s :
    SimRel st s -> nth_error p li = Some (n, stmts) -> loc s = mkloc (Some n) 0 -> Sim (li, 0) st s.
  Proof.
    intros R Hp Hloc. destruct (i_lines s (sr_inv _ _ R) li n stmts Hp) as (toks & Ht & HL).
    apply (Sim_here li 0 st s false R). exists n, stmts, toks, toks. rewrite Hloc. repeat split; assumption.
  Qed.

  Lemma eol_after st s li n stmts toks :
    SimRel st s ->
    nth_error p li = Some (n, stmts) -> toks_get n (st_toks s) = Some toks -> loc_line (loc s) = Some n ->
    nth_error toks (loc_idx (loc s)) = None ->
    exists s2, after_statement s = (Ok tt, s2) /\ Sim (S li, 0) st s2.
  Proof.
    intros R Hp Ht Hl Hnone. pose proof (sr_inv _ _ R) as HI.
    pose proof (line_exists_line s n toks Hl Ht) as Hle.
    assert (Hcn : nth_error (cur_toks s) (loc_idx (loc s)) = None) by (rewrite (cur_toks_line s n toks Hl Ht); exact Hnone).
    assert (Hk : keys_after n (st_keys s) = nth_error (map fst p) (S li)).
    { rewrite (i_keys s HI). apply (keys_after_nth _ (i_sorted s HI) li).
      rewrite nth_error_map, Hp. reflexivity. }
    destruct (nth_error p (S li)) as [[n' stmts']|] eqn:Ep'.
    - rewrite nth_error_map, Ep' in Hk. cbn in Hk.
      eexists. split; [apply (after_next s n n' Hle Hcn Hl Hk)|].
      apply (Sim_line_start (S li) n' stmts'); [apply (SimRel_move st s); trivial | exact Ep' | reflexivity].
    - rewrite nth_error_map, Ep' in Hk. cbn in Hk.
      eexists. split; [apply (after_last s n Hle Hcn Hl Hk)|].
      apply Sim_fin; [apply nth_error_None; exact Ep'|].
      split; [reflexivity|]. rewrite outputs_finished. exact (sr_out _ _ R).
  Qed.

  (* the cursor has been put where a RETURN or a NEXT lands: the rest of the call *)
  Lemma land st s pc :
    Inv s -> state s = Running -> same_store st s -> outputs s = o0 ++ map OPrint (r_out st) -> calls_rel st s ->
    loops_rel st s -> typed s -> data_rel st s -> pcloc (st_toks s) pc (loc s) ->
    exists s2, after_statement s = (Ok tt, s2) /\ Sim pc st s2.
  Proof.
    intros HI Hrun Hrel Hout Hcr Hlr Hty Hdr C.
    assert (R : SimRel st s) by (split; [assumption | assumption | assumption | split; assumption]).
    destruct pc as [li2 si2].
    destruct C as (n2 & stmts2 & toks2 & P1 & P2 & P3 & PC). cbn [fst snd] in P1, PC.
    destruct PC as [(tl2 & Q1 & Q2)|(Q1 & Q2)].
    - destruct (skipn_cons_nth _ _ _ _ Q1) as [Hc _].
      exists (bump s). split.
      { rewrite (after_stay s TColon (line_exists_line s n2 toks2 P3 P2)); [reflexivity|].
        rewrite (cur_toks_line s n2 toks2 P3 P2). exact Hc. }
      apply (Sim_here li2 si2 st (bump s) true); [apply (SimRel_move st s); trivial|].
      exists n2, stmts2, toks2, tl2. repeat split; assumption.
    - destruct (eol_after st s li2 n2 stmts2 toks2 R P1 P2 P3) as (s2 & Ha & HS2).
      { apply skipn_nil_nth. exact Q1. }
      exists s2. split; [exact Ha|]. rewrite Q2. apply (Sim_eol li2 st s2 n2 stmts2 P1 HS2).
  Qed.

  Lemma pcloc_lands s pc l : pcloc (st_toks s) pc l -> no_else_at s l.
  Proof.
    intros (n & stmts & toks & _ & Ht & Hl & PC). exists n, toks. split; [exact Hl|]. split; [exact Ht|].
    destruct PC as [(tl & Q & _)|(Q & _)].
    - destruct (skipn_cons_nth _ _ _ _ Q) as [Hc _]. rewrite Hc. discriminate.
    - rewrite (skipn_nil_nth _ _ Q). discriminate.
  Qed.

  Lemma Inv_lines s : Inv s -> forall li n stmts, nth_error p li = Some (n, stmts) ->
    exists t l', toks_get n (st_toks s) = Some (t :: l') /\ t <> TElse.
  Proof.
    intros HI li n stmts Hp. destruct (i_lines s HI li n stmts Hp) as (toks & Ht & HL).
    destruct (LRen_nonempty _ _ _ HL) as (t & l' & -> & Hne & _). exists t, l'. split; assumption.
  Qed.

  Lemma chunks_of_program T : forall q,
    (forall n stmts, In (n, stmts) q -> exists toks, toks_get n T = Some toks /\ LRen F stmts toks) ->
    exists cs, data_chunks (map fst q) T = Ok cs /\ Forall2 data_match (flatl cs) (data_list q).
  Proof.
    induction q as [|[n stmts] q IH]; intros H.
    - exists []. split; [reflexivity | constructor].
    - destruct (H n stmts (or_introl eq_refl)) as (toks & Ht & HL).
      destruct IH as (cs & Hcs & Hfl); [intros n0 s0 Hin; apply H; right; exact Hin|].
      exists (data_chunks_of_line n toks 0 ++ cs). cbn [map fst data_chunks]. rewrite Ht, Hcs. split; [reflexivity|].
      rewrite flatl_app. unfold data_list. cbn [flat_map fst snd]. apply Forall2_app; [|exact Hfl].
      apply (LRen_chunks F n stmts toks HL 0).
  Qed.

  Lemma inv_data s : Inv s ->
    exists cs, data_chunks (st_keys s) (st_toks s) = Ok cs /\ Forall2 data_match (flatl cs) (data_list p).
  Proof.
    intros HI. rewrite (i_keys s HI). apply chunks_of_program. intros n stmts Hin.
    apply In_nth_error in Hin. destruct Hin as (li & Hli). exact (i_lines s HI li n stmts Hli).
  Qed.


  Lemma same_fields x : set_variables (variables x) (set_data_it (data_it x) x) = x.
  Proof. destruct x; reflexivity. Qed.

  Section Step.
  Variable s : interp.
  Variable toks : list token.
  Hypothesis Htoks : fst (cur_tokens s) = Ok toks.
  Hypothesis HI : Inv s.
  Variables (li : nat) (st : rstate).
  Hypothesis HR : Rel st s.

  Let Htrace : enable_tracing s = false := i_trace s HI.
  Let Hwarn : enable_warnings s = false := i_warn s HI.
  Let Hjump := Inv_jump s HI.
  Let Hrel : same_store st s := rel_store st s HR.

  (* where a statement that does not just end puts the cursor: on the first token of a line it
     jumped to, at the end of its line (an IF not taken skips the rest), or where a RETURN or a NEXT
     lands.  None of these places depends on what follows the statement. *)
  Inductive leaves : rpc -> location -> Prop :=
  | lv_line n li' stmts : nth_error p li' = Some (n, stmts) -> leaves (li', 0) (mkloc (Some n) 0)
  | lv_skip : leaves (S li, 0) (mkloc (loc_line (loc s)) (length toks))
  | lv_lands pc l : pcloc (st_toks s) pc l -> leaves pc l.

  Lemma W_off o o' : W s o o' -> o' = o.
  Proof. unfold W. rewrite Hwarn. auto. Qed.

  Lemma same_setup_at i r o : same_setup s (at_idx s i r o).
  Proof. unfold same_setup. repeat split; assumption. Qed.

  Lemma Rel_at i r o : Rel st (at_idx s i r o).
  Proof. apply (Rel_move st s); trivial. Qed.

  (* a statement at nesting depth [d] whose completion continues at [after], with [rest] behind it on
     the line; the arms of an IF are statements at [S d] with another [after] and another [rest] *)
  Section Stmt.
  Variable d : nat.
  Hypothesis Hd : Nat.eqb d max_nesting = false.
  Variable after : rpc.
  Variable rest : list token.

  (* where a completed statement leaves the cursor: just behind itself, or as [leaves] says *)
  Inductive comes_to : rpc -> location -> Prop :=
  | ct_behind j : skipn j toks = rest -> comes_to after (mkloc (loc_line (loc s)) j)
  | ct_leaves pc l : leaves pc l -> comes_to pc l.

  (* a RETURN or a NEXT that comes back behind this statement lands where [rest] begins: what GOSUB
     and FOR need to push [after] *)
  Definition returns_here : Prop :=
    forall j, skipn j toks = rest -> pcloc (st_toks s) after (mkloc (loc_line (loc s)) j).

  (* the reference's outcome of a statement against the model's run of it from outputs [o].  There
     is no case for [NoFuel]: to prove a contract is to prove that the reference does not starve. *)
  Inductive step_outcome (o : list output) : outcome -> res unit * interp -> Prop :=
  | so_next pc st' s' outs : same_setup s s' -> Rel st' s' -> comes_to pc (loc s') ->
      r_out st' = r_out st ++ outs -> outputs s' = o ++ map OPrint outs ->
      step_outcome o (Next pc st') (Ok tt, s')
  | so_done s' : same_setup s s' -> loc s' = imm0 -> outputs s' = o -> step_outcome o (Done st) (Ok tt, s')
  | so_fail ie st' s' : ie <> EDataTypeMismatch -> r_out st' = r_out st ->
      loc_line (loc s') = loc_line (loc s) -> outputs s' = o ->
      step_outcome o (Fail (rerr_of2 ie) (line_no p li) st') (Err ie None, s')
  (* reported on the line of the DATA statement the item came from *)
  | so_fail_data line st' s' l : r_out st' = r_out st -> outputs s' = o ->
      get_data_location s' = Some l -> loc_line l = Some line ->
      step_outcome o (Fail RDataTypeMismatch line st') (Err EDataTypeMismatch None, s').

  (* the contract of a piece [m] of the model's code: started anywhere on the line where the tokens [l]
     remain, with any read counter and any outputs, it meets the reference's outcome [out].  A
     statement, an arm of an IF, the entry of a FOR, the ELSE probe and the continuation of an
     expression ([value_step]) are all stated in it.  [l] is the same kind of thing as the [rest] of
     [comes_to] and of [SRen], so a statement's lemma hands its leaf [skipn j toks = rest] as it is,
     and no proof adds token counts to an index.  The fuel of [m] is fixed: thresholds are taken
     outside ([steps_as], [arm_steps]), which is why [ExprSem.expr_sem_at] gives one threshold for
     every position. *)
  Definition at_rest (l : list token) (out : outcome) (m : M unit) : Prop :=
    forall j r o, skipn j toks = l -> step_outcome o out (m (at_idx s j r o)).

  Definition steps_as (stmt : rstmt) (l : list token) : Prop :=
    exists f0, forall fuel, f0 <= fuel -> at_rest l (exec F p stmt after li st) (evaluate_statement fuel d).

  (* the rules: what a cursor primitive at the head of [m] does to the remaining tokens; a step lemma
     unfolds the model's code for its keyword and applies them in the order of that code *)
  Lemma ar_assoc {A B} l out (m : M A) (f : A -> M B) (g : B -> M unit) :
    at_rest l out (bind m (fun x => bind (f x) g)) -> at_rest l out (bind (bind m f) g).
  Proof. intros H j r o Hj. rewrite bind_assoc. apply H, Hj. Qed.

  Lemma ar_ret {A} l out (a : A) (k : A -> M unit) : at_rest l out (k a) -> at_rest l out (bind (ret a) k).
  Proof. intros H j r o Hj. rewrite bind_ret. apply H, Hj. Qed.

  Lemma ar_next t l out (k : option token -> M unit) : at_rest l out (k (Some t)) -> at_rest (t :: l) out (bind next_token k).
  Proof.
    intros H j r o Hj. destruct (skipn_cons_nth _ _ _ _ Hj) as [H0 Hj'].
    erewrite bind_ok by (apply (next_some s toks Htoks); exact H0). apply H, Hj'.
  Qed.

  Lemma ar_expect t l out (k : unit -> M unit) : token_eqb t t = true ->
    at_rest l out (k tt) -> at_rest (t :: l) out (bind (expect_next_token t) k).
  Proof.
    intros E H j r o Hj. destruct (skipn_cons_nth _ _ _ _ Hj) as [H0 Hj'].
    erewrite bind_ok by (apply (expect_ok s toks Htoks _ _ _ t t H0 E)). apply H, Hj'.
  Qed.

  Lemma ar_accept t l out (k : bool -> M unit) : token_eqb t t = true ->
    at_rest l out (k true) -> at_rest (t :: l) out (bind (accept_next_token t) k).
  Proof.
    intros E H j r o Hj. destruct (skipn_cons_nth _ _ _ _ Hj) as [H0 Hj'].
    erewrite bind_ok by (apply (accept_yes s toks Htoks _ _ _ t t H0 E)). apply H, Hj'.
  Qed.

  Lemma ar_peek_is e l out (k : bool -> M unit) :
    at_rest l out (k match l with t :: _ => token_eqb t e | [] => false end) -> at_rest l out (bind (peek_is e) k).
  Proof.
    intros H j r o Hj. erewrite bind_ok by apply (peek_is_at s toks Htoks). rewrite (skipn_hd _ _ _ Hj).
    destruct l; apply H, Hj.
  Qed.

  Lemma ar_reject e l out (k : bool -> M unit) : match l with t :: _ => token_eqb t e = false | [] => True end ->
    at_rest l out (k false) -> at_rest l out (bind (accept_next_token e) k).
  Proof.
    intros E H j r o Hj. erewrite bind_ok; [apply H, Hj|]. apply (accept_no s toks Htoks). intros t Ht.
    rewrite (skipn_hd _ _ _ Hj) in Ht. destruct l; inversion Ht; subst. exact E.
  Qed.

  Lemma ar_stmt f0 t l stmt :
    (forall f, f0 <= f -> at_rest l (exec F p stmt after li st) (on_token f (S d) t)) -> steps_as stmt (t :: l).
  Proof.
    intros H. exists (S f0). intros [|f] Hf j r o Hj; [lia|]. destruct (skipn_cons_nth _ _ _ _ Hj) as [H0 Hj'].
    rewrite (statement_head_quiet s toks Htoks f d j r o t Htrace Hd H0). apply H; [lia | exact Hj'].
  Qed.

  Lemma fails_at ie st' j r o : ie <> EDataTypeMismatch -> r_out st' = r_out st ->
    step_outcome o (Fail (rerr_of2 ie) (line_no p li) st') (Err ie None, at_idx s j r o).
  Proof. intros Hne Hro. apply so_fail; trivial. Qed.

  (* an expression of the fragment on both sides: both fail alike, or both go on with its
     value, the model's cursor just past the expression *)
  Lemma value_step e e' te more :
    tr e = Some e' -> Renders 0 e' te -> S d + pdepth e' < max_nesting -> xsize e <= F -> stops 0 more = true ->
    exists f0, forall f, f0 <= f -> forall (KR : value -> rstate -> outcome) (KM : value -> M unit),
      (forall v, at_rest more (KR v st) (KM v)) ->
      at_rest (te ++ more) match eval F st e with
                           | EErr er l => fail_at er l (line_no p li) st
                           | EFuel => NoFuel
                           | EOk v st1 => KR v st1
                           end (bind (Eval.expr f (S d)) KM).
  Proof.
    intros Htr Hren Hn HF Hst.
    destruct (expr_sem_at s toks Htoks e' te Hren (S d) Hn) as (f0 & H).
    exists f0. intros f Hf KR KM HK j r o Hsk. destruct (H f Hf j more r o Hsk Hst) as (j' & r' & o' & E & Hi & HW).
    apply W_off in HW. subst o'.
    (* the token walker and the reference both compute the fold, and the fold is a value or one of two errors *)
    rewrite (ref_expr_is_den e e' st s F Htr (same_store_reads _ _ Hrel) HF).
    unfold Eval.expr. erewrite bind_of_run by exact E.
    pose proof (den_plain s e e' Htr) as Hp.
    destruct (den s e') as [v|er l|pp| |]; cbn [plain conv] in *; try contradiction.
    - rewrite (Hi v eq_refl). apply HK, (skipn_app_len _ _ _ _ Hsk).
    - destruct er; try contradiction; destruct l; try contradiction;
        [apply (fails_at ETypeMismatch st) | apply (fails_at EDivisionByZero st)]; first [discriminate | reflexivity].
  Qed.

  (* the same for an expression that must be a number *)
  Lemma number_step e e' te more :
    tr e = Some e' -> Renders 0 e' te -> S d + pdepth e' < max_nesting -> xsize e <= F -> stops 0 more = true ->
    exists f0, forall f, f0 <= f -> forall (KR : f64 -> rstate -> outcome) (KM : f64 -> M unit),
      (forall x, at_rest more (KR x st) (KM x)) ->
      at_rest (te ++ more) match eval F st e with
                           | EErr er l => fail_at er l (line_no p li) st
                           | EFuel => NoFuel
                           | EOk (VStr _) _ => Fail RTypeMismatch (line_no p li) st
                           | EOk (VNum x) st1 => KR x st1
                           end
        (sv <- Eval.expr f (S d) ;; x <- expect_number sv ;; KM x).
  Proof.
    intros Htr Hren Hn HF Hst. destruct (value_step e e' te more Htr Hren Hn HF Hst) as (f0 & H).
    exists f0. intros f Hf KR KM HK. apply (H f Hf). intros [sv|x] j r o Hj; cbn [expect_number].
    - rewrite bind_fail. apply (fails_at ETypeMismatch); [discriminate | reflexivity].
    - rewrite bind_ret. apply HK, Hj.
  Qed.

  Lemma next_silent pc st' s' o :
    same_setup s s' -> Rel st' s' -> comes_to pc (loc s') -> r_out st' = r_out st -> outputs s' = o ->
    step_outcome o (Next pc st') (Ok tt, s').
  Proof.
    intros K R LOC O1 O2. apply (so_next o pc st' s' []); try assumption.
    - rewrite app_nil_r; exact O1.
    - cbn [map]; rewrite app_nil_r; exact O2.
  Qed.

  Lemma Rel_out t s' : Rel st s' -> Rel (add_out t st) s'.
  Proof. intros [A B C D E]. split; assumption. Qed.

  (* only the open loops and the cursor have changed *)
  Lemma Rel_loops rl s' :
    same_setup s s' -> variables s' = variables s -> stack s' = stack s -> data_it s' = data_it s ->
    loops_rel (set_loops' rl st) s' -> Rel (set_loops' rl st) s'.
  Proof.
    intros K V S D L. pose proof K as (K1 & K2 & _). pose proof HR as [_ Hc _ Ht Hdr]. split.
    - apply (same_store_ext st s); trivial. intros name. rewrite S. reflexivity.
    - apply (calls_ext st _ s); trivial.
    - exact L.
    - apply (typed_ext s); assumption.
    - apply (data_rel_ext st _ s); trivial.
  Qed.

  Lemma step_let v e e' te :
    stops 0 rest = true -> tr e = Some e' -> Renders 0 e' te -> S d + pdepth e' < max_nesting -> xsize e <= F ->
    steps_as (SLet v [] e) (TSymbol v :: TEquals :: te ++ rest).
  Proof.
    intros Hst Htr Hren Hdp HF. destruct (value_step e e' te rest Htr Hren Hdp HF Hst) as (f0 & H).
    apply (ar_stmt f0). intros f Hf. unfold on_token, dispatch, evaluate_assignment_statement, parse_optional_array_index.
    apply ar_assoc, ar_peek_is, ar_ret, ar_expect; [reflexivity|].
    cbn [exec eval_subscripts]. unfold RefSem.ev. apply (H f Hf). intros x j r o Hj.
    unfold assign_value, store_scalar. cbn [lv_index lv_sym]. unfold variables_set. rewrite kind_agrees.
    destruct (type_matches v x) eqn:Etm.
    - apply next_silent; try reflexivity; [apply (same_setup_at j r o) | apply Rel_assign; [apply Rel_at | exact Etm]|].
      apply (ct_behind j), Hj.
    - apply (fails_at ETypeMismatch); [discriminate | reflexivity].
  Qed.

  Lemma step_let_kw v e e' te :
    stops 0 rest = true -> tr e = Some e' -> Renders 0 e' te -> S d + pdepth e' < max_nesting -> xsize e <= F ->
    steps_as (SLet v [] e) (TLet :: TSymbol v :: TEquals :: te ++ rest).
  Proof.
    intros Hst Htr Hren Hdp HF. destruct (step_let v e e' te Hst Htr Hren Hdp HF) as (f0 & H).
    apply (ar_stmt f0). intros f Hf j r o Hj. destruct (skipn_cons_nth _ _ _ _ Hj) as [H1 _].
    (* as an equation to rewrite with: closing the goal by [H] up to conversion makes the kernel
       unfold both [evaluate_statement] terms.  Inside, [on_token] and [dispatch] are unfolded on BOTH
       sides before [reflexivity]: left folded on one side, the comparison walks the whole dispatch
       table by conversion, here and again at [Qed] *)
    assert (E : on_token f (S d) TLet (at_idx s j r o) = evaluate_statement (S f) d (at_idx s j r o)).
    { rewrite (statement_head_quiet s toks Htoks f d j r o _ Htrace Hd H1). unfold on_token, dispatch, evaluate_let_statement.
      erewrite bind_ok by (apply (next_some s toks Htoks); exact H1). reflexivity. }
    rewrite E. apply H; [lia | exact Hj].
  Qed.

  Lemma step_print hd items mitems ti :
    hd = TPrint \/ hd = TQuestionMark ->
    tr_items items = Some mitems -> IRenders rest mitems ti -> S d + idepth mitems < max_nesting -> isize items <= F ->
    steps_as (SPrint items) (hd :: ti ++ rest).
  Proof.
    intros Hhd Htr Hren Hdp HF.
    destruct (model_print s toks Htoks mitems ti rest Htrace hd Hhd Hren d Hd Hdp) as (f0 & Hm).
    exists f0. intros fuel Hf i r o Hsk. destruct (Hm fuel Hf i r o Hsk) as (i' & r' & o' & HW & Hrun). clear Hm.
    apply W_off in HW. subst o'. cbn [exec].
    rewrite (ref_print_items F st s Hrel items mitems Htr HF false []), Hrun.
    pose proof (pden_plain s items mitems Htr false []) as Hp.
    destruct (pden s mitems false []) as [[semi text]|er l|pp| |]; try contradiction.
    - eapply so_next with (outs := [_]); try reflexivity.
      + apply same_setup_at.
      + apply Rel_out, Rel_at.
      + apply (ct_behind (i + 1 + length ti)).
        replace (i + 1 + length ti) with (S i + length ti) by lia.
        exact (skipn_app_len _ _ _ _ (proj2 (skipn_cons_nth _ _ _ _ Hsk))).
    - destruct er; try contradiction; destruct l; try contradiction;
        [apply (fails_at ETypeMismatch st) | apply (fails_at EDivisionByZero st)]; first [discriminate | reflexivity].
  Qed.

  Lemma goto_runs n i r o :
    goto_line_number n (at_idx s i r o) =
    match find_line p n 0 with
    | Some _ => (Ok tt, set_loc (mkloc (Some n) 0) (set_breakpoint None (at_idx s i r o)))
    | None => (Err EUndefinedStatement None, set_breakpoint None (at_idx s i r o))
    end.
  Proof.
    rewrite Caps.goto_eq. change (store_has n (at_idx s i r o)) with (store_has n s). rewrite Hjump.
    destruct (find_line p n 0); reflexivity.
  Qed.

  Lemma jump_outcome n j r o :
    step_outcome o (jump p n (line_no p li) st) (goto_line_number n (at_idx s j r o)).
  Proof.
    rewrite goto_runs. unfold jump.
    destruct (find_line p n 0) as [li'|] eqn:Ef.
    - destruct (find_line_nth _ _ _ _ Ef) as (stmts & Hnth). rewrite Nat.sub_0_r in Hnth.
      apply next_silent; try reflexivity; [unfold same_setup; repeat split; assumption | apply (Rel_move st s); trivial |].
      apply ct_leaves, (lv_line n li' stmts). assumption.
    - apply (so_fail o EUndefinedStatement); try reflexivity. discriminate.
  Qed.

  Lemma step_goto n x : line_target x = n -> steps_as (SGoto n) ([TGoto; TNumber x] ++ rest).
  Proof.
    intros Hn. apply (ar_stmt 0). intros f _. unfold on_token, dispatch, evaluate_goto_statement.
    apply ar_next. unfold line_target in Hn. rewrite Hn. intros j r o _. apply jump_outcome.
  Qed.

  (* GOSUB: the depth check first, then the target, then the frame *)
  Lemma step_gosub n x : line_target x = n -> returns_here -> steps_as (SGosub n) ([TGosub; TNumber x] ++ rest).
  Proof.
    intros Hn HLa. apply (ar_stmt 0). intros f _. unfold on_token, dispatch, evaluate_gosub_statement.
    apply ar_next. unfold line_target in Hn. rewrite Hn. intros j r o Hj.
    cbn [exec]. unfold depth. rewrite (calls_depth st s (rel_calls _ _ HR)).
    rewrite Caps.gosub_eq.
    change (stack (at_idx s j r o)) with (stack s).
    change (store_has n (at_idx s j r o)) with (store_has n s). rewrite Hjump.
    change depth_cap with stack_limit.
    destruct (Nat.eqb (length (stack s)) stack_limit).
    - apply (fails_at EStackOverflow); [discriminate | reflexivity].
    - destruct (find_line p n 0) as [li'|] eqn:Ef.
      + destruct (find_line_nth _ _ _ _ Ef) as (stmts & Hnth). rewrite Nat.sub_0_r in Hnth.
        apply next_silent; try reflexivity.
        * unfold same_setup; repeat split; assumption.
        * pose proof HR as [_ Hc Hl Ht Hdr]. split; [| |exact Hl|exact Ht|exact Hdr].
          -- apply (same_store_ext st s); try reflexivity; [exact Hrel|].
             intros name. cbn [stack set_stack]. rewrite rev_unit. reflexivity.
          -- apply (calls_push st s _ _ after (mkloc (loc_line (loc s)) j)); try reflexivity; [exact Hc|].
             apply HLa, Hj.
        * apply ct_leaves, (lv_line n li' stmts). assumption.
      + apply (so_fail o EUndefinedStatement); try reflexivity. discriminate.
  Qed.

  Lemma step_return : steps_as SReturn ([TReturn] ++ rest).
  Proof.
    apply (ar_stmt 0). intros f _ j r o _. unfold on_token, dispatch. cbn [exec].
    rewrite Caps.return_eq. change (stack (at_idx s j r o)) with (stack s).
    pose proof HR as [_ Hc Hl Ht Hdr].
    destruct (r_calls st) as [|pc cr] eqn:Ec.
    - rewrite (calls_nil st s Hc Ec). cbn [rev]. apply (so_fail o EReturnWithoutGosub); try reflexivity. discriminate.
    - destruct (calls_cons st s pc cr Hc Ec) as (fr & rs & Hst & Hv & Hpc & Hcr). rewrite Hst, rev_unit.
      apply next_silent; try reflexivity.
      + unfold same_setup; repeat split; assumption.
      + split; [| |exact Hl|exact Ht|exact Hdr].
        * apply (same_store_ext st s); try reflexivity; [exact Hrel|].
          intros name. cbn [stack set_stack set_loc]. rewrite rev_involutive, Hst, rev_unit. cbn [find_in_frames].
          rewrite Hv. reflexivity.
        * destruct Hc as [A _]. split; [exact A|]. cbn [stack set_stack set_loc]. rewrite rev_involutive. exact Hcr.
      + apply ct_leaves, lv_lands, Hpc.
  Qed.

  Lemma remove_loop_at v j r o :
    exists x, remove_loop_with_name v (at_idx s j r o) = (Ok x, set_loops (Caps.loops_below v (loops s)) (at_idx s j r o)).
  Proof.
    rewrite Caps.remove_loop_eq. unfold Caps.drop_loop, Caps.loops_below. change (loops s) with (loops (at_idx s j r o)).
    destruct (find_loop_rev v (loops (at_idx s j r o))); [|destruct (at_idx s j r o)]; eexists; reflexivity.
  Qed.

  Lemma for_enter_sim v from to step : returns_here ->
    at_rest rest (for_enter v from to step after (line_no p li) st) (start_loop v from to step).
  Proof.
    intros HLa j r o Hj. pose proof HR as [_ Hc Hl Ht Hdr].
    pose proof (keep_rel _ v _ _ Hl (lrel_var _)) as Hk. apply Forall2_len in Hk.
    unfold for_enter, start_loop.
    destruct (remove_loop_at v j r o) as (x & Hrm). erewrite bind_ok by exact Hrm. clear Hrm x.
    rewrite bind_get. cbn [loops set_loops]. rewrite Hk. change depth_cap with stack_limit.
    destruct (Nat.eqb (length (Caps.loops_below v (loops s))) stack_limit).
    - apply (so_fail o EStackOverflow); try reflexivity. discriminate.
    - rewrite bind_get, bind_modify. unfold variables_set, store_scalar. rewrite kind_agrees.
      destruct (type_matches v (VNum from)) eqn:Etm.
      + unfold modify. apply next_silent; try reflexivity.
        * unfold same_setup; repeat split; assumption.
        * apply Rel_assign; [|exact Etm]. apply Rel_loops; try reflexivity; [unfold same_setup; repeat split; assumption|].
          apply (loops_enter st s _ _ v to step after (mkloc (loc_line (loc s)) j)); try reflexivity; [exact Hl|].
          apply HLa, Hj.
        * apply (ct_behind j), Hj.
      + apply (so_fail o ETypeMismatch); try reflexivity. discriminate.
  Qed.

  Lemma ends_stops : ends_here rest -> stops 0 rest = true.
  Proof. intros [->|(tl & ->)]; reflexivity. Qed.

  Lemma step_for v a a' ta b b' tb stp tstep :
    ends_here rest ->
    tr a = Some a' -> Renders 0 a' ta -> S d + pdepth a' < max_nesting -> xsize a <= F ->
    tr b = Some b' -> Renders 0 b' tb -> S d + pdepth b' < max_nesting -> xsize b <= F ->
    ((stp = None /\ tstep = []) \/
     (exists c c' tc, stp = Some c /\ tstep = TStep :: tc /\ tr c = Some c' /\ Renders 0 c' tc
                      /\ S d + pdepth c' < max_nesting /\ xsize c <= F)) ->
    returns_here ->
    steps_as (SFor v a b stp) ((TFor :: TSymbol v :: TEquals :: ta ++ TTo :: tb ++ tstep) ++ rest).
  Proof.
    intros Hrest Ha Hra Hda HFa Hb Hrb Hdb HFb Hstep HLa.
    cbn [app]. rewrite <- app_assoc. cbn [app]. rewrite <- app_assoc.
    destruct (number_step a a' ta (TTo :: tb ++ tstep ++ rest) Ha Hra Hda HFa eq_refl) as (fa & Hfa).
    assert (Hstop : stops 0 (tstep ++ rest) = true).
    { destruct Hstep as [[_ ->]|(c & c' & tc & _ & -> & _)]; [apply ends_stops, Hrest | reflexivity]. }
    destruct (number_step b b' tb (tstep ++ rest) Hb Hrb Hdb HFb Hstop) as (fb & Hfb).
    (* the optional STEP clause and the entry, once start and limit are known *)
    assert (Hc : exists fc, forall f, fc <= f -> forall from to,
              at_rest (tstep ++ rest)
                match stp with
                | None => for_enter v from to f64_one after (line_no p li) st
                | Some se => match eval F st se with
                             | EErr er l => fail_at er l (line_no p li) st
                             | EFuel => NoFuel
                             | EOk (VStr _) _ => Fail RTypeMismatch (line_no p li) st
                             | EOk (VNum step) st3 => for_enter v from to step after (line_no p li) st3
                             end
                end
                (stq <- accept_next_token TStep ;;
                 step <- (if stq then (sv <- Eval.expr f (S d) ;; expect_number sv) else ret f64_one) ;;
                 start_loop v from to step)).
    { destruct Hstep as [[-> ->]|(c & c' & tc & -> & -> & Hc & Hrc & Hdc & HFc)]; cbn [app].
      - exists 0. intros f _ from to.
        apply ar_reject; [destruct Hrest as [->|(tr0 & ->)]; reflexivity|]. apply ar_ret, for_enter_sim, HLa.
      - destruct (number_step c c' tc rest Hc Hrc Hdc HFc (ends_stops Hrest)) as (fc & Hfc).
        exists fc. intros f Hf from to. apply ar_accept; [reflexivity|]. apply ar_assoc, (Hfc f Hf). intros step.
        apply for_enter_sim, HLa. }
    destruct Hc as (fc & Hc).
    apply (ar_stmt (fa + fb + fc)). intros f Hf. unfold on_token, dispatch, evaluate_for_statement.
    apply ar_next, ar_expect; [reflexivity|]. cbn [exec]. unfold RefSem.ev.
    apply (Hfa f ltac:(lia)). intros from. apply ar_expect; [reflexivity|].
    apply (Hfb f ltac:(lia)). intros to. apply Hc. lia.
  Qed.

  Lemma step_next v : steps_as (SNext v) ([TNext; TSymbol v] ++ rest).
  Proof.
    pose proof HR as [_ Hc Hl HT Hdr].
    apply (ar_stmt 0). intros f _. unfold on_token, dispatch, evaluate_next_statement.
    apply ar_next. intros j r o Hj. cbn [exec].
    rewrite Caps.end_loop_eq. cbv zeta. unfold Caps.drop_loop.
    change (variables (at_idx s j r o)) with (variables s).
    rewrite (proj2 Hrel v), default_agrees.
    destruct (match alist_get v (variables s) with Some x => x | None => default_value v end) as [sv|cur] eqn:Ecur.
    { apply (fails_at ETypeMismatch); [discriminate | reflexivity]. }
    pose proof (typed_read s v cur HT Ecur) as Hnum.
    pose proof (drop_find _ v _ _ Hl (lrel_var _)) as D.
    change (loops (at_idx s j r o)) with (loops s).
    destruct (drop_loop v (r_loops st)) as [[lp kept]|] eqn:Ed, (find_loop_rev v (loops s)) as [k|] eqn:Ef; try contradiction.
    2:{ apply (fails_at ENextWithoutFor); [discriminate | reflexivity]. }
    destruct D as (lm & Hnth & Hlm & Hkept). pose proof Hlm as (Lv & Lt & Ls & Lb).
    rewrite Hnth, <- Ls, <- Lt.
    unfold store_scalar, variables_set. rewrite kind_agrees, (Hnum (f64_add cur (rl_step lp))).
    set (again := if f64_leb f64_zero (rl_step lp) then f64_leb (f64_add cur (rl_step lp)) (rl_to lp)
                  else f64_leb (rl_to lp) (f64_add cur (rl_step lp))).
    (* the loop is kept or dropped; either way the counter is assigned *)
    destruct again.
    - apply next_silent; try reflexivity.
      + unfold same_setup; repeat split; assumption.
      + apply Rel_assign; [|apply Hnum]. apply (Rel_loops (kept ++ [lp])); try reflexivity; [unfold same_setup; repeat split; assumption|].
        apply Forall2_app; [exact Hkept | constructor; [exact Hlm | constructor]].
      + apply ct_leaves, lv_lands, Lb.
    - apply next_silent; try reflexivity.
      + unfold same_setup; repeat split; assumption.
      + apply Rel_assign; [|apply Hnum]. apply (Rel_loops kept); try reflexivity; [unfold same_setup; repeat split; assumption|].
        exact Hkept.
      + apply (ct_behind j), Hj.
  Qed.

  Lemma step_noop stmt t :
    (forall f n, on_token f n t = ret tt) -> exec F p stmt after li st = Next after st -> steps_as stmt ([t] ++ rest).
  Proof.
    intros Ht Hex. apply (ar_stmt 0). intros f _ j r o Hj. rewrite Hex, Ht.
    apply next_silent; try reflexivity; [apply same_setup_at | apply Rel_at | apply (ct_behind j), Hj].
  Qed.

  Lemma step_rem b : steps_as SRem ([TRemark b] ++ rest).
  Proof. apply step_noop; reflexivity. Qed.

  Lemma step_data items : steps_as (SData items) ([TData items] ++ rest).
  Proof. apply step_noop; reflexivity. Qed.

  (* RESTORE: the cursor is forgotten / the position is 0 again *)
  Lemma step_restore : steps_as SRestore ([TRestore] ++ rest).
  Proof.
    apply (ar_stmt 0). intros f _ j r o Hj. unfold on_token, dispatch, reset_data_cursor, modify. cbn [exec].
    pose proof HR as [_ Hc Hl Ht _]. apply next_silent; try reflexivity.
    - unfold same_setup; repeat split; assumption.
    - split; [exact Hrel | exact Hc | exact Hl | exact Ht | reflexivity].
    - apply (ct_behind j), Hj.
  Qed.

  Lemma Forall2_nth {A B} (R : A -> B -> Prop) l1 l2 k : Forall2 R l1 l2 ->
    match nth_error l1 k, nth_error l2 k with
    | Some a, Some b => R a b
    | None, None => True
    | _, _ => False
    end.
  Proof.
    intros H. revert k. induction H as [|a b l1 l2 Hab H IH]; intros [|k]; cbn; auto. apply IH.
  Qed.

  (* the model's next DATA item is the reference's: the item at the flat position,
     and the iterator then stands in the chunk (the line) it came from *)
  Lemma next_item st1 x : data_rel st1 x -> st_toks x = st_toks s -> st_keys x = st_keys s ->
    exists d',
      next_data_element x = (Ok (option_map fst (nth_error (data_list p) (r_dpos st1))), set_data_it (Some d') x)
      /\ match nth_error (data_list p) (r_dpos st1) with
         | None => data_rel st1 (set_data_it (Some d') x)
         | Some (_, dline) =>
             data_rel (set_dpos' (S (r_dpos st1)) st1) (set_data_it (Some d') x)
             /\ exists l, get_data_location (set_data_it (Some d') x) = Some l /\ loc_line l = Some dline
         end.
  Proof.
    intros B12 B1 B2. destruct (inv_data s HI) as (cs & Hcs & Hfl).
    assert (Hit : exists it, match data_it x with Some d0 => d0 | None => mkdi cs 0 0 end = it
                            /\ di_chunks it = cs /\ wf_it it /\ dpos it = r_dpos st1).
    { unfold data_rel in B12. destruct (data_it x) as [d0|].
      - destruct B12 as (E & Hw & Hp). exists d0. split; [reflexivity|].
        rewrite B1, B2, Hcs in E. inversion E. repeat split; first [assumption | reflexivity | (symmetry; assumption)].
      - exists (mkdi cs 0 0). split; [reflexivity|]. split; [reflexivity|]. split; [apply wf_it_start|].
        rewrite dpos_start. symmetry. exact B12. }
    destruct Hit as (it & Ed & Hdc & Hdw & Hdp).
    pose proof (data_next_spec (S (S (length (di_chunks it)))) it Hdw ltac:(lia)) as Hspec.
    assert (Hnd : next_data_element x =
                  (Ok (fst (data_next (S (S (length (di_chunks it)))) it)),
                   set_data_it (Some (snd (data_next (S (S (length (di_chunks it)))) it))) x)).
    { unfold next_data_element. rewrite B1, B2, Hcs.
      destruct (data_it x) as [d0|]; cbn in Ed; subst it; destruct (data_next _ _); reflexivity. }
    destruct (data_next (S (S (length (di_chunks it)))) it) as [e d'] eqn:Edn. cbn [fst snd] in Hnd.
    destruct Hspec as (Hc' & Hw' & Hspec). rewrite Hdc in Hspec, Hc'.
    pose proof (Forall2_nth _ _ _ (dpos it) Hfl) as Hmatch. rewrite Hdp in Hmatch, Hspec.
    exists d'.
    assert (Hrel' : forall st2, (match nth_error (flatl cs) (r_dpos st1) with Some _ => S (r_dpos st1) | None => r_dpos st1 end) = r_dpos st2 ->
                      data_rel st2 (set_data_it (Some d') x)).
    { intros st2 E. unfold data_rel. cbn [data_it set_data_it st_keys st_toks]. rewrite B1, B2, Hcs, Hc'.
      split; [reflexivity|]. split; [exact Hw'|].
      destruct (nth_error (flatl cs) (r_dpos st1)) as [[e0 l0]|]; [destruct Hspec as (_ & Hp' & _) | destruct Hspec as (_ & Hp')]; congruence. }
    destruct (nth_error (flatl cs) (r_dpos st1)) as [[e0 l0]|] eqn:Efl;
      destruct (nth_error (data_list p) (r_dpos st1)) as [[dd dline]|] eqn:Edl; try contradiction.
    - destruct Hspec as (-> & Hp' & items & Hchunk). destruct Hmatch as [Hfe Hfl']. cbn [fst snd] in Hfe, Hfl'. subst dd.
      split; [exact Hnd|]. split; [apply Hrel'; reflexivity|].
      exists l0. split; [|exact Hfl']. unfold get_data_location. cbn [data_it set_data_it]. rewrite Hc', Hchunk. reflexivity.
    - destruct Hspec as [-> Hp']. split; [exact Hnd | apply Hrel'; reflexivity].
  Qed.

  Lemma coerce_both v e0 :
    match coerce_data v e0 with
    | Ok xv => type_matches v xv = true /\
        (if str_name v then inl (VStr match e0 with DStr s0 => s0 | DNum x0 => show_f64 x0 end)
         else match e0 with DNum x0 => inl (VNum x0) | DStr _ => inr RDataTypeMismatch end) = inl xv
    | Err ie None => ie = EDataTypeMismatch /\
        (if str_name v then inl (VStr match e0 with DStr s0 => s0 | DNum x0 => show_f64 x0 end)
         else match e0 with DNum x0 => inl (VNum x0) | DStr _ => inr RDataTypeMismatch end) = @inr value _ RDataTypeMismatch
    | _ => False
    end.
  Proof.
    change (str_name v) with (ends_with_dollar v). unfold coerce_data, type_matches.
    destruct (ends_with_dollar v) eqn:E, e0; cbn; rewrite ?E; split; reflexivity.
  Qed.

  Definition read_body (f nest : nat) : unit -> M (unit + unit) := fun _ : unit =>
    lv <- parse_lvalue f nest ;;
    e <- next_data_element ;;
    match e with
    | None => fail EOutOfData
    | Some e =>
        v <- lift_res (coerce_data (lv_sym lv) e) ;;
        assign_value lv v ;;;
        c <- accept_next_token TComma ;;
        ret (if c then inl tt else inr tt)
    end.

  (* the spelling of a READ's targets behind the first *)
  Fixpoint read_tail (vs : list bytes) : list token :=
    match vs with [] => [] | v :: r => TComma :: TSymbol v :: read_tail r end.

  Lemma read_toks_cons v vs : read_toks (v :: vs) = TSymbol v :: read_tail vs.
  Proof.
    revert v. induction vs as [|w vs IH]; intros v; [reflexivity|].
    change (read_toks (v :: w :: vs)) with (TSymbol v :: TComma :: read_toks (w :: vs)). rewrite IH. reflexivity.
  Qed.

  (* [s] once a READ has stored some of its targets: other variables, another DATA cursor.  A term
     over [s], so that every other field is [s]'s by conversion and the loop's invariant is [Rel] alone *)
  Definition reading (V : list (bytes * value)) (D : option data_iter) : interp := set_variables V (set_data_it D s).

  (* the READ loop from its target [v], by induction on the loop fuel [n] *)
  Lemma read_loop f nest o : ends_here rest ->
    forall n vs v V D st1 i r, Rel st1 (reading V D) -> r_out st1 = r_out st ->
    skipn i toks = TSymbol v :: read_tail vs ++ rest -> length vs < n ->
    step_outcome o match read_targets F p st1 (map (fun v => (v, [])) (v :: vs)) (line_no p li) with
                   | inl out => out
                   | inr st2 => Next after st2
                   end (repeat_m n (read_body f nest) tt (at_idx (reading V D) i r o)).
  Proof.
    intros Hrest. induction n as [|n IH]; intros vs v V D st1 i r Hb Hout Hsk Hn; [lia|].
    assert (Hbt : forall V D, fst (cur_tokens (reading V D)) = Ok toks) by (intros; rewrite <- Htoks; apply cur_tokens_ext; reflexivity).
    destruct (skipn_cons_nth _ _ _ _ Hsk) as [H0 Hs1].
    cbn [map read_targets]. change (eval_subscripts (eval F) st1 []) with (EOk (@nil N) st1). cbv iota.
    assert (Hnp : nth_error toks (S i) <> Some TLeftParen).
    { destruct vs as [|v2 vs]; cbn [read_tail app] in Hs1.
      - intros Et. discriminate (end_token _ _ _ _ Hs1 Hrest Et).
      - rewrite (proj1 (skipn_cons_nth _ _ _ _ Hs1)). discriminate. }
    (* the next DATA item, both sides; then the model's turn of the loop up to that item *)
    destruct (next_item st1 (at_idx (reading V D) (S i) (S (S r)) o) (rel_data _ _ Hb) eq_refl eq_refl) as (d' & Hnd & Hit).
    rewrite repeat_m_S. unfold read_body. rewrite !bind_assoc.
    erewrite bind_ok by exact (parse_lvalue_scalar_at _ toks (Hbt V D) f nest i r o v H0 Hnp). cbv beta.
    rewrite bind_assoc. erewrite bind_ok by exact Hnd.
    destruct (nth_error (data_list p) (r_dpos st1)) as [[e0 dline]|]; cbn [option_map fst lv_sym].
    2:{ rewrite bind_fail. apply (so_fail o EOutOfData); try reflexivity; [discriminate | exact Hout]. }
    destruct Hit as (Hdr & l0 & Hgl & Hll).
    set (st2 := set_dpos' (S (r_dpos st1)) st1) in *.
    pose proof (coerce_both v e0) as Hco.
    destruct (coerce_data v e0) as [xv|ie [l1|]|pp| |] eqn:Ecd; try contradiction.
    2:{ (* DATA TYPE MISMATCH, reported where the item came from *)
        destruct Hco as [-> Hv]. rewrite Hv. apply (so_fail_data o dline st2 _ l0); [exact Hout | reflexivity | exact Hgl | exact Hll]. }
    destruct Hco as [Hkind Hv]. rewrite Hv. unfold store_scalar. rewrite kind_agrees, Hkind.
    change (lift_res (Ok xv)) with (ret xv). rewrite !bind_assoc, bind_ret.
    unfold assign_value. cbn [lv_index lv_sym]. unfold variables_set. rewrite Hkind, !bind_assoc, bind_modify.
    (* nothing but the DATA cursor, then the variable, has changed *)
    assert (Hb2 : Rel st2 (reading V (Some d'))) by (destruct Hb as [A1 A2 A3 A4 _]; split; assumption).
    pose proof (Rel_assign st2 _ v xv Hb2 Hkind) as Hb'.
    set (st3 := set_vars' (update v xv (r_vars st2)) st2) in *.
    rewrite bind_assoc.
    destruct vs as [|v2 vs]; cbn [read_tail app] in Hs1.
    - erewrite bind_ok by (apply (accept_no _ toks (Hbt (alist_set v xv V) (Some d')) (S i) (S (S r)) o);
                           intros t Ht; rewrite (end_token _ _ _ _ Hs1 Hrest Ht); reflexivity).
      cbv iota. rewrite bind_ret. cbn [map read_targets].
      apply next_silent; try reflexivity; [unfold same_setup; repeat split; assumption | | | exact Hout].
      + apply (Rel_move _ _ _ Hb'); reflexivity.
      + apply (ct_behind (S i)), Hs1.
    - destruct (skipn_cons_nth _ _ _ _ Hs1) as [H1 Hs2].
      erewrite bind_ok by (apply (accept_yes _ toks (Hbt (alist_set v xv V) (Some d')) (S i) (S (S r)) o _ TComma H1); reflexivity).
      cbv iota. rewrite bind_ret.
      apply (IH vs v2 (alist_set v xv V) (Some d') st3 (S (S i)) (S (S (S r))) Hb' Hout Hs2). cbn [length] in Hn. lia.
  Qed.

  Lemma step_read vs :
    vs <> [] -> ends_here rest -> steps_as (SRead (map (fun v => (v, [])) vs)) ((TRead :: read_toks vs) ++ rest).
  Proof.
    intros Hne Hrest. destruct vs as [|v vs]; [congruence|]. rewrite read_toks_cons. cbn [app].
    apply (ar_stmt (S (length vs))). intros f Hf j r o Hs1.
    change (on_token f (S d) TRead) with (repeat_m f (read_body f (S d)) tt). cbn [exec].
    assert (Hb : Rel st (reading (variables s) (data_it s))) by (apply (Rel_move st s); trivial).
    replace (at_idx s j r o) with (at_idx (reading (variables s) (data_it s)) j r o)
      by (unfold reading; rewrite same_fields; reflexivity).
    apply (read_loop f (S d) o Hrest f vs v _ _ st j r Hb eq_refl Hs1). lia.
  Qed.

  Lemma step_end : steps_as SEnd ([TEnd] ++ rest).
  Proof.
    pose proof (i_imm s HI) as Himm. apply (ar_stmt 0). intros f _ j r o _.
    cbn [exec]. unfold on_token, dispatch, program_end, set_and_goto_immediate_line, modify.
    apply so_done.
    - unfold same_setup; cbn; destruct (breakpoint s); cbn; repeat split; try assumption; symmetry; assumption.
    - reflexivity.
    - cbn. destruct (breakpoint s); reflexivity.
  Qed.
  End Stmt.

  Section If.
  Variable d : nat.
  Hypothesis Hd : Nat.eqb d max_nesting = false.
  Variable after : rpc.
  Variable rest : list token.
  Hypothesis Hrest : ends_here rest.

  Lemma probe_at s' n ts : same_setup s s' -> loc_line (loc s') = Some n -> toks_get n (st_toks s) = Some ts ->
    nth_error ts (loc_idx (loc s')) <> Some TElse -> else_probe s' = (Ok tt, bump s').
  Proof.
    intros (K1 & _) Hl Ht Hne. apply probe_no_else.
    - unfold line_exists, line_ok. rewrite Hl, K1, Ht. discriminate.
    - unfold cur_toks. rewrite Hl, K1, Ht. exact Hne.
  Qed.

  Lemma probe_same_line s' : same_setup s s' -> loc_line (loc s') = loc_line (loc s) ->
    nth_error toks (loc_idx (loc s')) <> Some TElse -> else_probe s' = (Ok tt, bump s').
  Proof.
    intros K Hl Hne. destruct (same_line_tokens s s' toks Htoks K Hl) as [Hle' Hct'].
    apply probe_no_else; [exact Hle' | rewrite Hct'; exact Hne].
  Qed.

  Lemma next_moved aft rest' pc st' s' s'' o :
    step_outcome aft rest' o (Next pc st') (Ok tt, s') ->
    st_toks s'' = st_toks s' -> st_keys s'' = st_keys s' -> immediate s'' = immediate s' ->
    enable_tracing s'' = enable_tracing s' -> enable_warnings s'' = enable_warnings s' -> state s'' = state s' ->
    variables s'' = variables s' -> stack s'' = stack s' -> loops s'' = loops s' -> data_it s'' = data_it s' ->
    outputs s'' = outputs s' -> comes_to after rest pc (loc s'') ->
    step_outcome after rest o (Next pc st') (Ok tt, s'').
  Proof.
    intros H E1 E2 E3 E4 E5 E6 E7 E8 E9 E10 E11 LOC.
    inversion H as [pc0 st0 s0 outs (K1 & K2 & K3 & K4 & K5 & K6) R _ O1 O2| | |]; subst.
    apply (so_next after rest o pc st' s'' outs); [| |exact LOC|exact O1|congruence].
    - unfold same_setup; repeat split; congruence.
    - apply (Rel_move st' s'); assumption.
  Qed.

  (* away from the end of the statement there is no ELSE under the cursor *)
  Lemma probe_elsewhere pc s' : same_setup s s' -> leaves pc (loc s') -> else_probe s' = (Ok tt, bump s').
  Proof.
    intros K L. remember (loc s') as l eqn:Hloc in L. destruct L as [n li' stmts Hp| |pc0 l0 C]; [| |subst l0].
    - destruct (Inv_lines s HI li' n stmts Hp) as (t & l' & Ht & Hne).
      apply (probe_at _ n (t :: l') K); [rewrite <- Hloc; reflexivity | exact Ht|].
      rewrite <- Hloc. cbn. congruence.
    - apply (probe_same_line _ K); [rewrite <- Hloc; reflexivity|]. rewrite <- Hloc. cbn [loc_idx].
      assert (Hnone : nth_error toks (length toks) = None) by (apply nth_error_None; apply le_n).
      rewrite Hnone. discriminate.
    - destruct (pcloc_lands s _ _ C) as (n & tsn & A & B & D). apply (probe_at _ n tsn K); assumption.
  Qed.

  Lemma probe_done s' : same_setup s s' -> loc s' = imm0 -> else_probe s' = (Ok tt, bump s').
  Proof.
    intros (K1 & K2 & K3 & K4 & K5 & K6) Hloc. apply probe_no_else.
    - unfold line_exists, line_ok. rewrite Hloc. exact I.
    - unfold cur_toks. rewrite Hloc. cbn [loc_line imm0 loc_idx]. rewrite K6, (i_imm s HI). discriminate.
  Qed.

  (* the probe finds the ELSE: the rest of the line belongs to the other arm *)
  Lemma probe_else s' : same_setup s s' -> loc_line (loc s') = loc_line (loc s) ->
    nth_error toks (loc_idx (loc s')) = Some TElse ->
    else_probe s' = (Ok tt, set_loc (mkloc (loc_line (loc s)) (length toks)) (bump s')).
  Proof.
    intros K Hl Hne. destruct (same_line_tokens s s' toks Htoks K Hl) as [Hle' Hct'].
    unfold else_probe, peek_is. rewrite bind_assoc.
    erewrite bind_ok by (apply peek_eq; exact Hle'). rewrite bind_ret, Hct', Hne.
    change (token_eqb TElse TElse) with true. cbv iota.
    unfold discard_remaining_tokens.
    erewrite bind_ok by (apply (cur_tokens_eq (bump s')); exact Hle').
    change (cur_toks (bump s')) with (cur_toks s'). rewrite Hct'.
    unfold modify. change (loc (bump s')) with (loc s'). rewrite Hl. reflexivity.
  Qed.

  (* the ELSE probe behind an arm that has run to its end: a bump, unless the arm stands in
     front of the ELSE: then the rest of the line is the other arm's and is skipped *)
  Lemma after_probe out aft rest' l (m : M unit) :
    (exists more, rest' = TElse :: more /\ aft = (S li, 0)) \/ (rest' = rest /\ aft = after) ->
    at_rest aft rest' l out m -> at_rest after rest l out (m ;;; else_probe).
  Proof.
    intros Hat H j r o Hj. specialize (H j r o Hj). unfold bind. destruct (m (at_idx s j r o)) as [r0 s'].
    inversion H as [pc st' s0 outs K R LOC O1 O2|s0 K Hloc O|ie st' s0 Hne Hro Hl O|line st' s0 l0 Hro O Hgl Hll]; subst.
    - remember (loc s') as l1 eqn:Hloc in LOC. destruct LOC as [j' Hj'|pc1 l1 LV]; [|subst l1].
      + destruct Hat as [(more & -> & ->)|[-> ->]].
        * rewrite (probe_else s' K); [|rewrite <- Hloc; reflexivity | rewrite <- Hloc; exact (proj1 (skipn_cons_nth _ _ _ _ Hj'))].
          apply (next_moved _ _ _ st' s' _ _ H); try reflexivity. apply ct_leaves, lv_skip.
        * rewrite (probe_same_line s' K); [|rewrite <- Hloc; reflexivity|].
          2:{ rewrite <- Hloc. intros Ht. discriminate (end_token _ _ _ _ Hj' Hrest Ht). }
          apply (next_moved _ _ _ st' s' (bump s') _ H); try reflexivity.
          change (loc (bump s')) with (loc s'). rewrite <- Hloc. apply ct_behind, Hj'.
      + (* it left the line, or skipped its rest *)
        rewrite (probe_elsewhere _ s' K LV).
        apply (next_moved _ _ _ st' s' (bump s') _ H); try reflexivity. apply ct_leaves, LV.
    - rewrite (probe_done s' K Hloc).
      apply so_done; [destruct K as (K1 & K2 & K3 & K4 & K5 & K6); repeat split; assumption | exact Hloc | reflexivity].
    - apply so_fail; trivial.
    - apply (so_fail_data after rest _ line st' s' l0); trivial.
  Qed.

  Lemma bind_ret_tt (m : M unit) x : (m ;;; ret tt) x = m x.
  Proof. unfold bind. destruct (m x) as [[[]|e l|pp| |] s1]; reflexivity. Qed.

  (* an arm of the IF: a line number or a statement one level down *)
  Definition arm_out (a : arm) (aft : rpc) : outcome :=
    match a with ALine n => jump p n (line_no p li) st | AStmt s1 => exec F p s1 aft li st end.

  Definition arm_steps (aft : rpc) (rest' : list token) (a : arm) (l : list token) : Prop :=
    exists f0, forall f, f0 <= f ->
      at_rest aft rest' l (arm_out a aft) (statement_or_goto_line_number (evaluate_statement f (S d))).

  Lemma arm_line aft rest' n x more : line_target x = n -> arm_steps aft rest' (ALine n) (TNumber x :: more).
  Proof.
    intros Hn. exists 0. intros f _ j r o Hj. destruct (skipn_cons_nth _ _ _ _ Hj) as [H0 _].
    unfold statement_or_goto_line_number.
    erewrite bind_ok by apply (peek_at s toks Htoks). rewrite H0. cbv iota.
    unfold evaluate_goto_statement.
    erewrite bind_ok by (apply (next_some s toks Htoks); exact H0). cbv iota beta.
    unfold line_target in Hn. rewrite Hn. cbn [arm_out]. apply jump_outcome.
  Qed.

  Lemma arm_stmt aft rest' s1 t0 ta' :
    steps_as (S d) aft rest' s1 (t0 :: ta') -> (forall x, t0 <> TNumber x) -> arm_steps aft rest' (AStmt s1) (t0 :: ta').
  Proof.
    intros (f0 & H) Hnum. exists f0. intros f Hf j r o Hj. destruct (skipn_cons_nth _ _ _ _ Hj) as [H0 _].
    unfold statement_or_goto_line_number.
    erewrite bind_ok by apply (peek_at s toks Htoks). rewrite H0.
    cbn [arm_out]. specialize (H f Hf j (S r) o Hj).
    destruct t0; try exact H. exfalso. eapply Hnum. reflexivity.
  Qed.

  (* IF c THEN: the condition on both sides; then the model runs the THEN arm and probes
     for an ELSE, or scans the line for one *)
  Lemma if_cond c c' tc more A eb :
    tr c = Some c' -> Renders 0 c' tc -> S d + pdepth c' < max_nesting -> xsize c <= F ->
    exists fe, forall f, fe <= f ->
      at_rest after rest more (arm_out A match eb with Some _ => (S li, 0) | None => after end)
        (if_clause (evaluate_statement f (S d))) ->
      at_rest after rest more match eb with None => Next (S li, 0) st | Some B => arm_out B after end
        (b <- repeat_m f else_scan_body tt ;; if b then if_clause (evaluate_statement f (S d)) else ret tt) ->
      at_rest after rest (TIf :: tc ++ TThen :: more) (exec F p (SIf c A eb) after li st) (evaluate_statement (S f) d).
  Proof.
    intros Htr Hren Hdp HF.
    destruct (value_step d after rest c c' tc (TThen :: more) Htr Hren Hdp HF eq_refl) as (fe & Hfe).
    exists fe. intros f Hf HT HE j r o Hj. destruct (skipn_cons_nth _ _ _ _ Hj) as [H0 Hj'].
    rewrite (statement_head_quiet s toks Htoks f d j r o _ Htrace Hd H0). unfold on_token, dispatch. rewrite if_eq.
    cbn [exec]. unfold RefSem.ev. apply (Hfe f Hf); [|exact Hj']. intros v. apply ar_expect; [reflexivity|].
    rewrite truth_to_bool. destruct (to_bool v); [apply HT | apply HE].
  Qed.

  Lemma step_if_then c c' tc A ta :
    tr c = Some c' -> Renders 0 c' tc -> S d + pdepth c' < max_nesting -> xsize c <= F ->
    ta <> [] -> forallb plain_tok ta = true ->
    arm_steps after rest A (ta ++ rest) ->
    steps_as d after rest (SIf c A None) ((TIf :: tc ++ TThen :: ta) ++ rest).
  Proof.
    intros Htr Hren Hdp HF Hne Hplain (fa & HA).
    cbn [app]. rewrite <- app_assoc. cbn [app].
    destruct (if_cond c c' tc (ta ++ rest) A None Htr Hren Hdp HF) as (fe & Hfe).
    exists (S (fe + fa + length ta + 3)). intros fuel Hf. destruct fuel as [|f]; [lia|].
    apply (Hfe f ltac:(lia)).
    - apply (after_probe (arm_out A after) after rest); [right; split; reflexivity | apply (HA f ltac:(lia))].
    - intros j r1 o Hs3.
      assert (Hlen : j + length ta + length rest = length toks).
      { assert (Hne' : ta ++ rest <> []) by (destruct ta; [congruence | discriminate]).
        pose proof (skipn_all_length toks j _ Hs3 Hne') as Hl. rewrite app_length in Hl. lia. }
      destruct (scan_skip s toks Htoks rest o Hrest ta j r1 f Hplain Hs3 Hlen ltac:(lia)) as (r' & Hscan).
      rewrite (bind_ok _ _ _ _ _ Hscan). apply next_silent; try reflexivity; [apply same_setup_at; assumption | apply Rel_at; assumption|].
      apply ct_leaves, lv_skip.
  Qed.

  Lemma step_if c c' tc n x :
    tr c = Some c' -> Renders 0 c' tc -> S d + pdepth c' < max_nesting -> xsize c <= F -> line_target x = n ->
    steps_as d after rest (SIf c (ALine n) None) ((TIf :: tc ++ [TThen; TNumber x]) ++ rest).
  Proof.
    intros Htr Hren Hdp HF Hn.
    apply (step_if_then c c' tc (ALine n) [TNumber x] Htr Hren Hdp HF); [discriminate | reflexivity|].
    exact (arm_line after rest n x rest Hn).
  Qed.

  Lemma step_if_else c c' tc A ta B tb :
    tr c = Some c' -> Renders 0 c' tc -> S d + pdepth c' < max_nesting -> xsize c <= F ->
    forallb plain_tok ta = true ->
    arm_steps (S li, 0) (TElse :: tb ++ rest) A (ta ++ TElse :: tb ++ rest) ->
    arm_steps after rest B (tb ++ rest) ->
    steps_as d after rest (SIf c A (Some B)) ((TIf :: tc ++ TThen :: ta ++ TElse :: tb) ++ rest).
  Proof.
    intros Htr Hren Hdp HF Hplain (fa & HA) (fb & HB).
    cbn [app]. rewrite <- !app_assoc. cbn [app]. rewrite <- app_assoc. cbn [app].
    destruct (if_cond c c' tc (ta ++ TElse :: tb ++ rest) A (Some B) Htr Hren Hdp HF) as (fe & Hfe).
    exists (S (fe + fa + fb + length ta + 3)). intros fuel Hf. destruct fuel as [|f]; [lia|].
    apply (Hfe f ltac:(lia)).
    - (* the THEN arm, then the probe finds the ELSE *)
      apply (after_probe (arm_out A (S li, 0)) (S li, 0) (TElse :: tb ++ rest)); [|apply (HA f ltac:(lia))].
      left. eexists. split; reflexivity.
    - (* the scan stops at the ELSE: the ELSE arm *)
      intros j r1 o Hs3.
      destruct (scan_to_else s toks Htoks (tb ++ rest) o ta j r1 f Hplain Hs3 ltac:(lia)) as (r' & Hscan).
      rewrite (bind_ok _ _ _ _ _ Hscan).
      apply (after_probe (arm_out B after) after rest (tb ++ rest)); [right; split; reflexivity | apply (HB f ltac:(lia))|].
      exact (proj2 (skipn_cons_nth _ _ _ _ (skipn_app_len _ _ _ _ Hs3))).
  Qed.
  End If.

  Lemma tren_steps d aft rest' A ta :
    Nat.eqb (S d) max_nesting = false -> TRen F (S d) rest' A ta -> arm_steps d aft rest' A (ta ++ rest').
  Proof.
    intros Hd HT.
    destruct HT as [n x H1|v e e' te H1 H2 H3 H4 H5|items mitems ti H1 H2 H3 H4|n x H1| | |v];
      [|apply arm_stmt; [|intros x0; discriminate] ..].
    - apply arm_line, H1.
    - eapply step_let; eassumption.
    - eapply step_print; try eassumption. left; reflexivity.
    - apply step_goto; assumption.
    - apply step_return; assumption.
    - apply step_end; assumption.
    - apply step_next; assumption.
  Qed.

  Lemma sren_steps d after rest stmt ts :
    Nat.eqb d max_nesting = false -> ends_here rest -> SRen F d rest stmt ts -> returns_here after rest ->
    steps_as d after rest stmt (ts ++ rest).
  Proof.
    intros Hd Hrest HS HLa. revert Hd.
    induction HS as [d rest v e e' te H1 H2 H3 H4 H5|d rest items mitems ti H1 H2 H3 H4|d rest items mitems ti H1 H2 H3 H4|d rest v e e' te H1 H2 H3 H4 H5|d rest n x H1|d rest n x H1|d rest|d rest
                    |d rest c c' tc n x H1 H2 H3 H4 H5
                    |d rest v a a' ta b b' tb stp tstep A1 A2 A3 A4 B1 B2 B3 B4 HC|d rest v|d rest b0
                    |d rest items Hd0|d rest|d rest vs Hvs
                    |d rest c c' tc stmt tn H1 H2 H3 H4 H5 H6 IH H7
                    |d rest c c' tc A ta n x H1 H2 H3 H4 H5 H6 H7|d rest c c' tc A ta B tb H1 H2 H3 H4 H5 H6 H7 IH]; intros Hd.
    - eapply step_let; eassumption.
    - eapply step_print; try eassumption. left; reflexivity.
    - eapply step_print; try eassumption. right; reflexivity.
    - eapply step_let_kw; eassumption.
    - apply step_goto; assumption.
    - apply step_gosub; assumption.
    - apply step_return; assumption.
    - apply step_end; assumption.
    - eapply step_if; eassumption.
    - eapply step_for; eassumption.
    - apply step_next; assumption.
    - apply step_rem; assumption.
    - apply step_data; assumption.
    - apply step_restore; assumption.
    - apply step_read; assumption.
    - destruct (SRen_head _ _ _ _ _ H6) as (t0 & tn' & -> & Hnum).
      eapply step_if_then; try eassumption; [discriminate|].
      apply arm_stmt; [|exact Hnum]. apply IH; assumption.
    - eapply step_if_else; try eassumption; [exact (TRen_plain _ _ _ _ _ H6) | |].
      + apply (tren_steps d (S li, 0) (TElse :: TNumber x :: rest)); assumption.
      + apply arm_line; assumption.
    - destruct (SRen_head _ _ _ _ _ H7) as (t0 & tb' & -> & Hnum).
      eapply step_if_else; try eassumption; [exact (TRen_plain _ _ _ _ _ H6) | |].
      + apply (tren_steps d (S li, 0) (TElse :: (t0 :: tb') ++ rest)); assumption.
      + apply arm_stmt; [|exact Hnum]. apply IH; assumption.
  Qed.
  End Step.

  Definition FailsWith (er : rerr) (line : N) (st' : rstate) (s1 : interp) : Prop :=
    exists f0, forall fuel, f0 <= fuel -> exists ie l s',
      continue_evaluating fuel s1 = (Err ie (Some l), s') /\ rerr_of2 ie = er /\ loc_line l = Some line
      /\ state s' = Idle /\ outputs s' = o0 ++ map OPrint (r_out st').

  Definition after_step (o : outcome) (s : interp) : Prop :=
    match o with
    | Next pc' st' => reach (Sim pc' st') s
    | Done st' => reach (Fin st') s
    | Fail er line st' => reach (FailsWith er line st') s
    | NoFuel => False
    end.

  Lemma skipn_S_cons {A} (l : list A) i x r : skipn i l = x :: r -> skipn (S i) l = r.
  Proof. intros H. apply (skipn_cons_nth _ _ _ _ H). Qed.

  (* the statement under the cursor, its spelling, what follows it on the line, and
     where the reference continues: where a RETURN to this statement lands *)
  Lemma stmt_at li si s n stmts toks tl :
    nth_error p li = Some (n, stmts) -> toks_get n (st_toks s) = Some toks -> loc_line (loc s) = Some n ->
    LRen F (skipn si stmts) tl ->
    exists stmt ts rest,
      nth_error stmts si = Some stmt /\ tl = ts ++ rest /\ SRen F 0 rest stmt ts
      /\ ends_here rest
      /\ returns_here s toks (li, S si) rest.
  Proof.
    intros Hp Ht Hl HL.
    assert (Hpc : forall rest,
              (exists tl', rest = TColon :: tl' /\ LRen F (skipn (S si) stmts) tl') \/ (rest = [] /\ S si = length stmts) ->
              returns_here s toks (li, S si) rest).
    { intros rest PC j Hj. exists n, stmts, toks. cbn [fst snd loc_line loc_idx]. rewrite Hj.
      split; [exact Hp|]. split; [exact Ht|]. split; [exact Hl|].
      destruct PC as [(tl' & -> & HL')|[-> E]]; [left; exists tl' | right]; split; trivial. }
    inversion HL as [s0 ts0 HS E1 E2|s0 ts0 r0 tr0 HS HL0 E1 E2];
      destruct (skipn_cons_nth _ _ _ _ (eq_sym E1)) as [Hnth Hrs].
    - exists s0, tl, []. rewrite app_nil_r.
      split; [exact Hnth|]. split; [reflexivity|]. split; [exact HS|]. split; [left; reflexivity|].
      apply Hpc. right. split; [reflexivity|].
      assert (Hz : length (skipn si stmts) = 1) by (rewrite <- E1; reflexivity). rewrite skipn_length in Hz. lia.
    - exists s0, ts0, (TColon :: tr0).
      split; [exact Hnth|]. split; [reflexivity|]. split; [exact HS|]. split; [right; eexists; reflexivity|].
      apply Hpc. left. exists tr0. split; [reflexivity|]. rewrite Hrs. exact HL0.
  Qed.

  (* the rest of the call, by where the completed statement left the cursor *)
  Lemma turn_rest s toks li n stmts aft rest pc st' s' :
    nth_error p li = Some (n, stmts) -> toks_get n (st_toks s) = Some toks -> loc_line (loc s) = Some n ->
    SimRel st' s' -> st_toks s' = st_toks s ->
    returns_here s toks aft rest -> comes_to s toks li aft rest pc (loc s') ->
    exists s2, after_statement s' = (Ok tt, s2) /\ Sim pc st' s2.
  Proof.
    intros Hp Ht Hl R' K1 Haft Hloc.
    assert (Hland : forall pc, pcloc (st_toks s) pc (loc s') ->
              exists s2, after_statement s' = (Ok tt, s2) /\ Sim pc st' s2).
    { intros pc0 C. rewrite <- K1 in C. destruct R' as [? ? ? []]. apply land; assumption. }
    remember (loc s') as l eqn:Hlc in Hloc. destruct Hloc as [j Hj|pc1 l1 [n' li' stmts' Hp'| |pc2 l2 C]];
      try (symmetry in Hlc; rename Hlc into Hloc); [| | |subst l2].
    - apply Hland. rewrite Hloc. apply Haft, Hj.
    - (* a transfer: the first token of the target line *)
      destruct (i_lines s' (sr_inv _ _ R') li' n' stmts' Hp') as (toks' & Ht2 & HL2).
      destruct (LRen_nonempty _ _ _ HL2) as (t2 & toks2 & -> & _).
      assert (Hl' : loc_line (loc s') = Some n') by (rewrite Hloc; reflexivity).
      exists (bump s'). split.
      { rewrite (after_stay s' t2 (line_exists_line s' n' _ Hl' Ht2)); [reflexivity|].
        rewrite (cur_toks_line s' n' _ Hl' Ht2), Hloc. reflexivity. }
      apply (Sim_line_start li' n' stmts'); [apply (SimRel_move st' s'); trivial | exact Hp' | exact Hloc].
    - (* IF not taken: the rest of the line is skipped *)
      apply (eol_after st' s' li n stmts toks R' Hp);
        [rewrite K1; exact Ht | rewrite Hloc; exact Hl | rewrite Hloc; apply nth_error_None, le_n].
    - exact (Hland _ C).
  Qed.

  (* a statement that fails ends the call: the error is reported on the statement's
     line (a DATA TYPE MISMATCH: on the line of the DATA item) *)
  Lemma turn_fails s toks li n stmts aft rest st er line st' fuel x s1 :
    nth_error p li = Some (n, stmts) -> loc_line (loc s) = Some n -> outputs s = o0 ++ map OPrint (r_out st) ->
    step_outcome s toks li st aft rest (outputs s) (Fail er line st') (evaluate_statement fuel 0 x) ->
    continue_evaluating fuel s1 = postprocess ((evaluate_statement fuel 0 ;;; after_statement) x) ->
    exists ie l s', continue_evaluating fuel s1 = (Err ie (Some l), s') /\ rerr_of2 ie = er
      /\ loc_line l = Some line /\ state s' = Idle /\ outputs s' = o0 ++ map OPrint (r_out st').
  Proof.
    intros Hp Hl Hout Hstep Hturn. rewrite Hturn, bind_run.
    inversion Hstep as [| |ie st0 s' Hne Hro Hll Ho E1 Hev|line0 st0 s' l Hro Ho Hgl Hll E1 Hev]; subst; cbn [postprocess].
    - exists ie, (prev_location (loc s')), (set_state Idle s').
      split; [f_equal; f_equal; unfold populate_error_location; destruct ie; try reflexivity; congruence|].
      split; [reflexivity|]. split.
      { cbn. rewrite Hll, Hl. unfold line_no. rewrite Hp. reflexivity. }
      split; [reflexivity|]. cbn. rewrite Ho, Hro. exact Hout.
    - exists EDataTypeMismatch, l, (set_state Idle s').
      split; [cbn [populate_error_location]; rewrite Hgl; reflexivity|].
      split; [reflexivity|]. split; [exact Hll|].
      split; [reflexivity|]. cbn. rewrite Ho, Hro. exact Hout.
  Qed.

  Lemma at_step li si st s :
    SimRel st s -> at_stmt li si s false -> after_step (rstep F p (li, si) st) s.
  Proof.
    intros R (n & stmts & toks & tl & Hp & Ht & Hl & Hsk & HL).
    destruct R as [HI Hrun Hout HR].
    destruct (stmt_at li si s n stmts toks tl Hp Ht Hl HL) as (stmt & ts & rest & Hnth & -> & HS & Hrest & Hafter).
    set (i := loc_idx (loc s)) in *.
    pose proof (cur_tokens_line s n toks Hl Ht) as Htoks.
    pose proof (line_exists_line s n toks Hl Ht) as Hle.
    destruct (sren_steps s toks Htoks HI li st HR 0 (li, S si) rest stmt ts eq_refl Hrest HS Hafter) as (f0 & Hstep).
    destruct (SRen_nonempty _ _ _ _ _ HS) as (t & ts' & Ets & _).
    assert (Hnt : nth_error (cur_toks s) (loc_idx (loc s)) = Some t).
    { rewrite (cur_toks_line s n toks Hl Ht). fold i. rewrite Ets in Hsk. cbn [app] in Hsk. apply (skipn_cons_nth _ _ _ _ Hsk). }
    unfold rstep. cbn [fst snd]. rewrite Hp, Hnth.
    assert (Hturn : forall fuel, continue_evaluating fuel s =
              postprocess ((evaluate_statement fuel 0 ;;; after_statement) (at_idx s i (S (reads s)) (outputs s)))).
    { intros fuel. rewrite (turn_eq fuel s t Hrun Hle Hnt), bump_is_at. reflexivity. }
    destruct (exec F p stmt (li, S si) li st) as [pc' st'|st'|er line st'|] eqn:Eex; unfold after_step.
    - apply (reach_turn _ s (Sim pc' st')); [|intros s' Hs'; apply reach_now, Hs'].
      exists f0. intros fuel Hf. specialize (Hstep fuel Hf i (S (reads s)) (outputs s) Hsk).
      inversion Hstep as [pc0 st0 s' outs Hk HR' Hloc Ho1 Ho2 E1 Hev| | |]; subst.
      rewrite Hturn. rewrite bind_run, <- Hev.
      pose proof Hk as (K1 & K2 & K3 & K4 & K5 & K6).
      assert (R' : SimRel st' s').
      { split; [exact (Inv_same_setup s s' HI Hk) | congruence | | exact HR'].
        rewrite Ho2, Ho1, Hout, map_app, app_assoc. reflexivity. }
      destruct (turn_rest s toks li n stmts (li, S si) rest pc' st' s' Hp Ht Hl R' K1 Hafter Hloc) as (s2 & Ha & HS2).
      exists s2. split; [rewrite Ha; reflexivity | exact HS2].
    - apply (reach_turn _ s (Fin st')); [|intros s' Hs'; apply reach_now, Hs'].
      exists f0. intros fuel Hf. specialize (Hstep fuel Hf i (S (reads s)) (outputs s) Hsk).
      inversion Hstep as [|s' Hk Hloc Ho E1 Hev| |]; subst.
      rewrite Hturn. rewrite bind_run, <- Hev.
      destruct Hk as (K1 & K2 & K3 & K4 & K5 & K6).
      rewrite (after_imm s' Hloc ltac:(rewrite K6; exact (i_imm s HI))).
      eexists. split; [reflexivity|]. split; [reflexivity|].
      rewrite outputs_finished, Ho. exact Hout.
    - apply reach_now. exists f0. intros fuel Hf.
      exact (turn_fails s toks li n stmts _ rest st er line st' fuel _ s Hp Hl Hout (Hstep fuel Hf i _ _ Hsk) (Hturn fuel)).
    - pose proof (Hstep f0 (le_n _) i (S (reads s)) (outputs s) Hsk) as H. inversion H.
  Qed.

  (* the colon in front of a statement is a host call of its own *)
  Lemma colon_step li si st s :
    SimRel st s -> at_stmt li si s true ->
    exists f0, forall fuel, f0 <= fuel -> exists s', continue_evaluating fuel s = (Ok tt, s') /\
      SimRel st s' /\ at_stmt li si s' false.
  Proof.
    intros R (n & stmts & toks & tl & Hp & Ht & Hl & Hsk & HL).
    set (i := loc_idx (loc s)) in *.
    pose proof (cur_tokens_line s n toks Hl Ht) as Htoks.
    pose proof (line_exists_line s n toks Hl Ht) as Hle.
    pose proof (cur_toks_line s n toks Hl Ht) as Hct.
    destruct (skipn_cons_nth _ _ _ _ Hsk) as [Hc Hsk'].
    destruct (LRen_nonempty _ _ _ HL) as (t2 & tl2 & Etl & _).
    assert (Hn2 : nth_error toks (S i) = Some t2) by (rewrite Etl in Hsk'; apply (skipn_cons_nth _ _ _ _ Hsk')).
    exists 1. intros fuel Hf. destruct fuel as [|f]; [lia|].
    assert (Hnt : nth_error (cur_toks s) (loc_idx (loc s)) = Some TColon) by (rewrite Hct; exact Hc).
    rewrite (turn_eq (S f) s TColon (sr_run _ _ R) Hle Hnt), bump_is_at. fold i.
    rewrite bind_run, (statement_head_quiet s toks Htoks f 0 i _ _ _ (i_trace s (sr_inv _ _ R)) eq_refl Hc).
    set (s1 := at_idx s (S i) (S (S (reads s))) (outputs s)).
    assert (Hl1 : loc_line (loc s1) = Some n) by exact Hl.
    assert (Ht1 : toks_get n (st_toks s1) = Some toks) by exact Ht.
    cbn [on_token dispatch ret]. rewrite (after_stay s1 t2 (line_exists_line s1 n toks Hl1 Ht1)).
    2:{ rewrite (cur_toks_line s1 n toks Hl1 Ht1). exact Hn2. }
    eexists. split; [reflexivity|]. split; [apply (SimRel_move st s); trivial|].
    exists n, stmts, toks, tl. split; [exact Hp|]. split; [exact Ht|]. split; [exact Hl|]. split; [exact Hsk' | exact HL].
  Qed.

  Theorem sim_step pc st s : Sim pc st s -> after_step (rstep F p pc st) s.
  Proof.
    induction 1 as [li si st s colon HI Hrun Hrel Hout Hcr Hlr Hty Hdr Hat|li st s n stmts Hp HS IH|li si st s Hlen HF].
    - assert (R : SimRel st s) by (split; [assumption | assumption | assumption | split; assumption]).
      destruct colon; [|apply at_step; assumption].
      destruct (colon_step li si st s R Hat) as (f0 & Hc).
      assert (Hgoal : forall s', SimRel st s' /\ at_stmt li si s' false -> after_step (rstep F p (li, si) st) s')
        by (intros s' [A B]; apply at_step; assumption).
      destruct (rstep F p (li, si) st) as [pc' st'|st'|er line st'|]; unfold after_step in *;
        try (eapply reach_turn; [exists f0; exact Hc | exact Hgoal]).
      destruct (Hc f0 (le_n _)) as (s' & _ & Hs'). exact (Hgoal s' Hs').
    - unfold rstep. cbn [fst snd]. rewrite Hp.
      assert (Hn : nth_error stmts (length stmts) = None) by (apply nth_error_None; apply le_n).
      rewrite Hn. apply reach_now. exact HS.
    - unfold rstep. cbn [fst snd].
      assert (Hn : nth_error p li = None) by (apply nth_error_None; exact Hlen).
      rewrite Hn. apply reach_now. exact HF.
  Qed.

  Theorem fragment_simulation : forall k pc st s, Sim pc st s -> after_step (rrun F p k pc st) s.
  Proof.
    induction k as [|k IH]; intros pc st s HS; cbn [rrun]; [apply reach_now, HS|].
    pose proof (sim_step pc st s HS) as H1.
    destruct (rstep F p pc st) as [pc' st'|st'|er line st'|]; try exact H1.
    unfold after_step in H1.
    assert (Hk : forall s', Sim pc' st' s' -> after_step (rrun F p k pc' st') s') by (intros s'; apply IH).
    destruct (rrun F p k pc' st') as [pc2 st2|st2|er2 line2 st2|] eqn:Er; unfold after_step in *.
    - eapply reach_bind; [exact H1 | exact Hk].
    - eapply reach_bind; [exact H1 | exact Hk].
    - eapply reach_bind; [exact H1 | exact Hk].
    - (* the reference never runs out of fuel on the fragment *)
      clear IH HS. induction H1 as [s0 Hs0|s0 Q Hq Hn IHr]; [exact (Hk s0 Hs0)|].
      destruct Hq as (f0 & Hq). destruct (Hq f0 (le_n _)) as (s' & _ & Hs'). exact (IHr s' Hs').
  Qed.
End Program.

