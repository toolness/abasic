(* Proofs/TraceProofs.v — C17: the trace is the path.

   With tracing on, a host call that executes a statement of numbered line n
   pushes `Trace n` as its FIRST record, every other Trace record of the call
   names n too (an IF's selected statement traces again), and a call on the
   immediate line pushes no Trace record at all.  The theorems are per call;
   read over the calls of a run they give the path of execution. *)
From Coq Require Import List NArith ZArith Bool.
From Abasic Require Import Model.State Model.Eval Model.Interp Proofs.Monad Proofs.Safety Proofs.ResetProofs
     Proofs.InputProofs Proofs.TurnProofs.
Import ListNotations.
Local Open Scope nat_scope.

Definition is_trace (o : output) : bool := match o with OTrace _ => true | _ => false end.

Lemma outputs_after_statement s : outputs (snd (after_statement s)) = outputs s.
Proof.
  destruct (after_statement_cases s) as [-> | (_ & p & ->)]; [|reflexivity]. unfold turn_end. cbn [snd].
  destruct (nth_error _ _); [reflexivity|]. destruct (match loc_line (loc s) with Some n => _ | None => None end);
    [reflexivity | apply (outputs_imm_reset [] (bump s))].
Qed.

(* the trace prefix, then the statement dispatch, then the rest of the call *)
Theorem traced_turn fuel s n t :
  wf s -> enable_tracing s = true -> loc_line (loc s) = Some n ->
  nth_error (cur_toks s) (loc_idx (loc s)) = Some t ->
  exists rest, outputs (snd (run_next_statement (S fuel) s)) = outputs s ++ OTrace n :: rest
               /\ Forall (trace_ok (Some n)) rest /\ length (filter shows rest) <= 1.
Proof.
  intros Hwf Htr HL Hnth. rewrite (rns_eq (S fuel) s (wf_loc _ Hwf)). unfold turn_statement. rewrite Hnth.
  set (s1 := bump (set_state Running s)).
  assert (Hwf2 : wf (traced s1)) by (revert Hwf; apply wf_ext; reflexivity).
  assert (Ho2 : outputs (traced s1) = outputs s ++ [OTrace n]).
  { unfold traced, trace_of. change (enable_tracing s1) with (enable_tracing s). change (loc s1) with (loc s).
    rewrite Htr, HL. reflexivity. }
  rewrite bind_run. cbn [evaluate_statement]. change (Nat.eqb 0 max_nesting) with false. cbv iota.
  rewrite statement_body_eq.
  pose proof (sq_dispatch fuel 1 (Some n) (evaluate_statement fuel 1) (sq_evaluate_statement fuel (Some n) 1) (traced s1) HL Hwf2)
    as (new1 & Hn1 & Cn1 & Tn1).
  match type of Hn1 with outputs (snd (?D _)) = _ => destruct (D (traced s1)) as [[u|e l|p| |] s3] end; cbn [fst snd] in *;
    try rewrite outputs_after_statement;
    (exists new1; rewrite Hn1, Ho2, <- app_assoc; split; [reflexivity | split; assumption]).
Qed.

Lemma no_trace_on_immediate l : Forall (trace_ok None) l -> filter is_trace l = [].
Proof.
  induction 1 as [|o l Ho Hl IH]; [reflexivity|]. cbn [filter].
  destruct o; cbn [is_trace]; try exact IH. cbn in Ho. discriminate Ho.
Qed.

Theorem immediate_turn_untraced fuel s :
  wf s -> loc_line (loc s) = None ->
  exists new, outputs (snd (run_next_statement fuel s)) = outputs s ++ new /\ filter is_trace new = [].
Proof.
  intros Hwf HL. destruct (one_statement_per_turn fuel s Hwf) as (new & Hn & _ & Tn).
  exists new. split; [exact Hn|]. rewrite HL in Tn. apply no_trace_on_immediate, Tn.
Qed.

(* adjacent equal numbers merged into one *)
Fixpoint collapse (l : list N) : list N :=
  match l with
  | [] => []
  | x :: r => match collapse r with
              | y :: r' => if (x =? y)%N then y :: r' else x :: y :: r'
              | [] => [x]
              end
  end.

Definition traces (l : list output) : list N :=
  flat_map (fun o => match o with OTrace n => [n] | _ => [] end) l.

Lemma traces_same n l : Forall (trace_ok (Some n)) l -> Forall (fun m => m = n) (traces l).
Proof.
  induction 1 as [|o l Ho Hl IH]; [constructor|]. unfold traces in *. cbn [flat_map].
  destruct o; cbn [app]; try exact IH. constructor; [cbn in Ho; congruence | exact IH].
Qed.

Lemma collapse_const n l : Forall (fun m => m = n) l -> collapse (n :: l) = [n].
Proof.
  induction 1 as [|m l Hm Hl IH]; [reflexivity|]. subst m.
  change (collapse (n :: n :: l)) with (match collapse (n :: l) with y :: r' => if (n =? y)%N then y :: r' else n :: y :: r' | [] => [n] end).
  rewrite IH. rewrite N.eqb_refl. reflexivity.
Qed.

(* the Trace records of a traced call on line n, collapsed, are [n] *)
Theorem traced_turn_path fuel s n t :
  wf s -> enable_tracing s = true -> loc_line (loc s) = Some n ->
  nth_error (cur_toks s) (loc_idx (loc s)) = Some t ->
  exists new, outputs (snd (run_next_statement (S fuel) s)) = outputs s ++ new /\ collapse (traces new) = [n].
Proof.
  intros Hwf Htr HL Hn. destruct (traced_turn fuel s n t Hwf Htr HL Hn) as (rest & Ho & Tr & _).
  exists (OTrace n :: rest). split; [exact Ho|].
  change (traces (OTrace n :: rest)) with (n :: traces rest). apply collapse_const, traces_same, Tr.
Qed.
