(* C14: LIST output reloads to the same program.  Program level: if every stored
   line's listing text is an edit storing the same tokens under the same number
   ([line_roundtrips]), entering the lines LIST prints into a fresh interpreter
   yields the same keys, the same tokens per key and the identical listing
   (reload_store, reload_listing).  Token level, over the regenerated tables:
   every keyword / operator / punctuation token is re-read from its canonical
   spelling (by computation), and so is every ordered pair of them the tokenizer
   can produce at all, joined by the single blank LIST puts between tokens (not
   by computation: none of these tokens carries text, so the blank is an
   unprotected insertion of C12, [nonverb_pair_ok]). *)
From Coq Require Import List NArith ZArith Bool Lia.
From Abasic Require Import Model.Bytes Model.Token Model.Lexer Gen.Tables Model.State Model.Interp
     Proofs.StoreProofs Proofs.ResetProofs Proofs.Cruncher Proofs.LexerCrunch.
Import ListNotations.
Local Open Scope N_scope.

(* the text LIST prints for line n (without the final newline the host strips) *)
Definition listing_line (n : N) (ts : list token) : bytes := show_N n ++ [32] ++ show_listing ts.

Definition line_roundtrips (n : N) (ts : list token) : Prop := edit_of (listing_line n ts) = Some (n, ts).

Definition get_toks (s : interp) (n : N) : list token :=
  match toks_get n (st_toks s) with Some ts => ts | None => [] end.

Definition listing (s : interp) : list bytes := map (fun n => listing_line n (get_toks s n)) (st_keys s).

Lemma step_edit_idle fuel s l n v :
  state s = Idle -> edit_of l = Some (n, v) -> state (snd (step fuel s (HLine l))) = Idle.
Proof. intros Hidle He. rewrite step_line, (start_edit fuel (set_reads 0 s) l n v Hidle He) by exact Hidle. exact Hidle. Qed.

(* the abstract store after entering, for each of [keys] in order, the line LIST prints for tokens [f n] *)
Fixpoint enter_all (f : N -> list token) (m : amap) (keys : list N) : amap :=
  match keys with [] => m | n :: r => enter_all f (aupd m n (f n)) r end.

Lemma spec_run_edits fuel f : forall keys s m,
  state s = Idle -> Forall (fun n => line_roundtrips n (f n)) keys ->
  forall k, spec_run fuel s m (map (fun n => HLine (listing_line n (f n))) keys) k = enter_all f m keys k.
Proof.
  induction keys as [|n keys IH]; intros s m Hidle Hall k; cbn [map spec_run enter_all]; [reflexivity|].
  inversion Hall as [|? ? Hrt Hall']; subst.
  assert (Hleg : legal s (HLine (listing_line n (f n))) = true) by (unfold legal; rewrite Hidle; reflexivity).
  rewrite Hleg. cbn [spec_step]. unfold line_roundtrips in Hrt. rewrite Hrt.
  apply IH; [|exact Hall']. eapply step_edit_idle; eassumption.
Qed.

Lemma enter_all_notin f m keys k : ~ In k keys -> enter_all f m keys k = m k.
Proof.
  revert m. induction keys as [|n keys IH]; intros m Hn; cbn [enter_all]; [reflexivity|].
  rewrite IH by (intros H; apply Hn; right; exact H).
  unfold aupd. destruct (N.eqb_spec n k); [exfalso; apply Hn; left; exact e|reflexivity].
Qed.

Lemma enter_all_in f m keys k :
  NoDup keys -> In k keys -> f k <> [] -> enter_all f m keys k = Some (f k).
Proof.
  revert m. induction keys as [|n keys IH]; intros m Hnd Hin Hne; [destruct Hin|].
  inversion Hnd as [|? ? Hnotin Hnd']; subst. cbn [enter_all].
  destruct Hin as [->|Hin]; [|apply IH; assumption].
  rewrite enter_all_notin by exact Hnotin.
  unfold aupd. rewrite N.eqb_refl. destruct (f k); [congruence|reflexivity].
Qed.

Lemma sorted_NoDup l : keys_sorted l -> NoDup l.
Proof.
  unfold keys_sorted. induction 1 as [|a l S IH F]; constructor; [|exact IH].
  rewrite Forall_forall in F. intros Hin. specialize (F _ Hin). lia.
Qed.

(* a listed key is bound, to the tokens LIST prints for it *)
Lemma listed_binding s n : store_ok s -> In n (st_keys s) -> abs s n = Some (get_toks s n).
Proof.
  intros (_ & Hk & _) Hin. apply Hk in Hin. unfold abs, get_toks. destruct (toks_get n (st_toks s)); [reflexivity|congruence].
Qed.

Lemma listing_roundtrips s : store_ok s -> (forall n ts, abs s n = Some ts -> line_roundtrips n ts) ->
  Forall (fun n => line_roundtrips n (get_toks s n)) (st_keys s).
Proof. intros Hok Hrt. apply Forall_forall. intros n Hin. apply Hrt, listed_binding; assumption. Qed.

(* entering a store's listing into the empty map gives back its map *)
Lemma enter_listing s : store_ok s -> forall k, enter_all (get_toks s) aempty (st_keys s) k = abs s k.
Proof.
  intros Hok k. pose proof Hok as (Hs & Hk & Hne). destruct (in_dec N.eq_dec k (st_keys s)) as [Hin|Hout].
  - rewrite (listed_binding s k Hok Hin). apply enter_all_in; [apply sorted_NoDup, Hs | exact Hin |].
    intros H. apply (Hne k). rewrite <- H. apply (listed_binding s k Hok Hin).
  - rewrite enter_all_notin by exact Hout. unfold abs. destruct (toks_get k (st_toks s)) eqn:E; [|reflexivity].
    exfalso. apply Hout, Hk. congruence.
Qed.

Theorem reload_store fuel oracle s :
  store_ok s ->
  (forall n ts, abs s n = Some ts -> line_roundtrips n ts) ->
  let s' := run_state fuel (fresh oracle) (map HLine (listing s)) in
  (forall k, abs s' k = abs s k) /\ st_keys s' = st_keys s /\ store_ok s'.
Proof.
  intros Hok Hrt s'.
  assert (Habs : forall k, abs s' k = abs s k).
  { intros k. subst s'. rewrite (store_refines_spec fuel _ (fresh oracle) aempty) by reflexivity.
    unfold listing. rewrite map_map, (spec_run_edits fuel _ _ (fresh oracle) aempty eq_refl (listing_roundtrips s Hok Hrt)).
    apply enter_listing, Hok. }
  assert (Hok' : store_ok s') by (apply store_ok_reachable, store_ok_init).
  split; [exact Habs|]. split; [exact (store_ok_keys s' s Hok' Hok Habs) | exact Hok'].
Qed.

Theorem reload_listing fuel oracle s :
  store_ok s ->
  (forall n ts, abs s n = Some ts -> line_roundtrips n ts) ->
  let s' := run_state fuel (fresh oracle) (map HLine (listing s)) in
  list_lines (st_keys s') (st_toks s') = list_lines (st_keys s) (st_toks s)
  /\ listing s' = listing s.
Proof.
  intros Hok Hrt s'. destruct (reload_store fuel oracle s Hok Hrt) as (Habs & Hkeys & _).
  fold s' in Habs, Hkeys. split.
  - rewrite Hkeys. apply list_lines_ext. exact Habs.
  - unfold listing. rewrite Hkeys. apply map_ext. intros n. unfold get_toks.
    unfold abs in Habs. rewrite Habs. reflexivity.
Qed.

Lemma listing_is_list_output s : store_ok s ->
  list_lines (st_keys s) (st_toks s) = Ok (map (fun l => l ++ [10]) (listing s)).
Proof.
  intros (_ & Hk & _). destruct (list_lines_ok (st_keys s) (st_toks s)) as (ls & Hl & Heq).
  - intros n Hn. apply Hk, Hn.
  - rewrite Hl, Heq. unfold listing. rewrite map_map. f_equal. apply map_ext. intros n.
    unfold listing_line, get_toks. rewrite <- !app_assoc. reflexivity.
Qed.

Definition fixed_tokens : list token :=
  map snd keywords ++ map snd punct ++ map (fun x => snd x) two_char.

Definition retok (text : bytes) : option (list token) := tokens_of (tokenize text 0).

Fixpoint tokens_eqb (a b : list token) : bool :=
  match a, b with
  | [], [] => true
  | x :: a', y :: b' => token_eqb x y && tokens_eqb a' b'
  | _, _ => false
  end.

Definition opt_tokens_eqb (a : option (list token)) (b : list token) : bool :=
  match a with Some l => tokens_eqb l b | None => false end.

Definition fixed_token_ok (t : token) : bool := opt_tokens_eqb (retok (show_token t)) [t].

(* a pair the tokenizer can produce at all: adjacent without a blank it reads as
   that pair (all but `<` `=`, `<` `>`, `<` `>=`, `>` `=`) *)
Definition producible (t1 t2 : token) : bool :=
  opt_tokens_eqb (retok (show_token t1 ++ show_token t2)) [t1; t2].

Definition fixed_pair_ok (t1 t2 : token) : bool :=
  negb (producible t1 t2) || opt_tokens_eqb (retok (show_token t1 ++ [32] ++ show_token t2)) [t1; t2].

Theorem fixed_tokens_roundtrip : forallb fixed_token_ok fixed_tokens = true.
Proof. vm_compute. reflexivity. Qed.

(* None of these tokens carries verbatim text, so by C12 (LexerCrunch) a blank
   between two of them changes nothing. *)
Lemma token_eqb_nonverb x t : token_eqb x t = true -> verb_tok t = false -> verb_tok x = false.
Proof. destruct x; try reflexivity; destruct t; cbn; intros H Hv; try discriminate H; discriminate Hv. Qed.

Lemma tokens_eqb_nonverb : forall l ts, tokens_eqb l ts = true ->
  forallb (fun t => negb (verb_tok t)) ts = true -> forallb (fun t => negb (verb_tok t)) l = true.
Proof.
  induction l as [|x l IH]; intros [|t ts]; cbn [tokens_eqb forallb]; try discriminate; [reflexivity|].
  intros H Hv. apply andb_true_iff in H. destruct H as [Hx Hl]. apply andb_true_iff in Hv. destruct Hv as [Ht Hts].
  rewrite (IH _ Hl Hts), andb_true_r. apply negb_true_iff in Ht. apply negb_true_iff. eapply token_eqb_nonverb; eauto.
Qed.

Lemma protected_ins_nonverb line i : forall ts,
  forallb (fun t => negb (verb_tok t)) (map fst ts) = true -> protected_ins ts line i = false.
Proof.
  unfold protected_ins. induction ts as [|[t [a b]] ts IH]; cbn [map fst forallb existsb]; [reflexivity|].
  intros H. apply andb_true_iff in H. destruct H as [H1 H2]. rewrite (IH H2), orb_false_r.
  unfold prot1_ins. destruct t; try discriminate H1; apply andb_false_r.
Qed.

Theorem nonverb_pair_ok t1 t2 : verb_tok t1 = false -> verb_tok t2 = false -> fixed_pair_ok t1 t2 = true.
Proof.
  intros H1 H2. unfold fixed_pair_ok. destruct (producible t1 t2) eqn:Ep; [|reflexivity]. cbn [negb orb].
  unfold producible, opt_tokens_eqb, retok in Ep.
  destruct (tokenize (show_token t1 ++ show_token t2) 0) as [ts|] eqn:Et; [|discriminate Ep]. cbn [tokens_of] in Ep.
  assert (Hi : (0 <= length (show_token t1) <= length (show_token t1 ++ show_token t2))%nat)
    by (rewrite app_length; lia).
  assert (Hc := crunch_insert _ 0%nat ts (length (show_token t1)) 32 Hi eq_refl Et).
  rewrite protected_ins_nonverb in Hc.
  2:{ eapply tokens_eqb_nonverb; [exact Ep|]. cbn [forallb]. now rewrite H1, H2. }
  specialize (Hc eq_refl). unfold ins_at in Hc.
  rewrite firstn_app, skipn_app, Nat.sub_diag, firstn_all, skipn_all, firstn_O, skipn_O, app_nil_r in Hc.
  unfold retok, opt_tokens_eqb. cbn [app]. cbn [app] in Hc. rewrite Hc. exact Ep.
Qed.

Lemma fixed_tokens_nonverb t : In t fixed_tokens -> verb_tok t = false.
Proof.
  unfold fixed_tokens. rewrite !in_app_iff, !in_map_iff.
  intros [([kw t'] & <- & H)|[([c t'] & <- & H)|([[f c] t'] & <- & H)]]; cbn [snd].
  - now apply keywords_facts in H.
  - now apply punct_facts in H.
  - now apply two_char_facts in H.
Qed.

Theorem fixed_pairs_roundtrip :
  forallb (fun t1 => forallb (fixed_pair_ok t1) fixed_tokens) fixed_tokens = true.
Proof.
  apply forallb_forall. intros t1 Hin1. apply forallb_forall. intros t2 Hin2.
  apply nonverb_pair_ok; now apply fixed_tokens_nonverb.
Qed.

Lemma fixed_token_spec t : In t fixed_tokens -> retok (show_token t) = Some [t] \/ exists l, retok (show_token t) = Some l /\ tokens_eqb l [t] = true.
Proof.
  intros Hin. pose proof fixed_tokens_roundtrip as H. rewrite forallb_forall in H. specialize (H t Hin).
  unfold fixed_token_ok, opt_tokens_eqb in H. destruct (retok (show_token t)) as [l|]; [|discriminate].
  right. exists l. split; [reflexivity|exact H].
Qed.

Example ex_line_roundtrips :
  forallb (fun text =>
     match edit_of (bs text) with
     | Some (n, ts) =>
         match edit_of (listing_line n ts) with
         | Some (n', ts') => N.eqb n n' && tokens_eqb ts ts'
         | None => false
         end
     | None => false
     end)
    ["10 PRINT ""a b"";X$;.5;007;1E5"; "20 REM  x y  "; "30 DATA 1, ""a b"", c, ""q"" : PRINT A.5";
     "40 IF A<>B THEN GOTO 10 ELSE ?""n"""; "50 FORI=ATOBSTEP-1:NEXTI"; "60 DATA hello ""there"", x";
     "70 X=12345678901234567890+.000001"]%string = true.
Proof. vm_compute. reflexivity. Qed.
