(* C20: what the language server reports lies inside the document.  On top of
   C05 (every mapped range lies in its line, on character boundaries; token
   ranges are ordered): UTF-16 columns are monotone in the byte offset, so
   diagnostics are in bounds, and the delta encoding of the semantic tokens
   decodes to the analyzer's tokens.  The model subtracts in [nat], where an
   underflow would give 0: that the start deltas did not underflow is what
   decoding to the right columns says; for the lengths it is [ordered]'s
   [a <= b] under [utf16_col_mono]. *)
From Coq Require Import List NArith ZArith Bool Lia.
From Abasic Require Import Model.Bytes Model.Lexer Gen.Tables Model.Analyzer Model.Lsp Proofs.AnalyzerProofs
     Proofs.AnalyzerSafety.
Import ListNotations.
Local Open Scope nat_scope.

Lemma units_app a b : units (a ++ b) = units a + units b.
Proof. induction a as [|x a IH]; cbn [units app]; [reflexivity|]. rewrite IH. lia. Qed.

Lemma firstn_plus {A} (l : list A) : forall a k, firstn (a + k) l = firstn a l ++ firstn k (skipn a l).
Proof.
  induction l as [|x l IH]; intros a k.
  - rewrite !firstn_nil, skipn_nil, firstn_nil. reflexivity.
  - destruct a as [|a]; [reflexivity|]. cbn [Nat.add firstn skipn app]. f_equal. apply IH.
Qed.

Lemma utf16_col_mono line a b : a <= b -> utf16_col line a <= utf16_col line b.
Proof.
  intros H. unfold utf16_col.
  replace (firstn b line) with (firstn a line ++ firstn (b - a) (skipn a line)).
  - rewrite units_app. lia.
  - replace b with (a + (b - a)) at 2 by lia. symmetry. apply firstn_plus.
Qed.

Lemma utf16_col_le_width line a : utf16_col line a <= utf16_width line.
Proof.
  unfold utf16_col, utf16_width. rewrite <- (firstn_skipn a line) at 2. rewrite units_app. lia.
Qed.

Lemma utf16_col_0 line : utf16_col line 0 = 0.
Proof. reflexivity. Qed.

Theorem diagnostics_complete lines a d :
  In d (diagnostics_of lines a) <->
  exists msg fl x y, In msg (an_messages a) /\ map_to_source (an_map a) msg = Some (fl, (x, y))
    /\ d = mkdiag fl (utf16_col (nth fl lines []) x) (utf16_col (nth fl lines []) y) (severity_of msg).
Proof.
  unfold diagnostics_of. rewrite in_flat_map. split.
  - intros (msg & Hin & Hd). unfold diag_of in Hd.
    destruct (map_to_source (an_map a) msg) as [[fl [x y]]|] eqn:E; [|destruct Hd].
    destruct Hd as [<-|[]]. exists msg, fl, x, y. repeat split; assumption.
  - intros (msg & fl & x & y & Hin & E & ->). exists msg. split; [exact Hin|].
    unfold diag_of. rewrite E. left. reflexivity.
Qed.

Theorem diagnostics_in_bounds fuel text d :
  Forall (fun l => valid_utf8 l = true) (split_lines text) ->
  In d (diagnostics_of (split_lines text) (analyze fuel text)) ->
  d_line d < length (split_lines text)
  /\ d_start d <= d_end d
  /\ d_end d <= utf16_width (nth (d_line d) (split_lines text) []).
Proof.
  intros Hv Hin.
  apply diagnostics_complete in Hin. destruct Hin as (msg & fl & x & y & Hmsg & Hmap & ->). cbn [d_line d_start d_end].
  pose proof (diagnostics_well_formed fuel text Hv) as Hwf. rewrite Forall_forall in Hwf.
  destruct (Hwf msg Hmsg) as (fl' & r & line & E & Hl & (H1 & H2 & _)). rewrite Hmap in E. injection E as <- <-.
  cbn [fst snd] in *.
  (* not [congruence]: with [analyze fuel text] among the hypotheses it does not return *)
  split; [apply nth_error_Some; rewrite Hl; discriminate|].
  split; [apply utf16_col_mono; exact H1|apply utf16_col_le_width].
Qed.

(* what a client holds after decoding (C20's statements are over it) *)
Definition abs_line (line : bytes) (i : nat) (ts : list (N * (nat * nat))) : list (nat * nat * nat * N) :=
  map (fun t => (i, utf16_col line (fst (snd t)), utf16_col line (snd (snd t)) - utf16_col line (fst (snd t)), fst t)) ts.

Fixpoint abs_from (lines : list bytes) (tss : list (list (N * (nat * nat)))) (i : nat) : list (nat * nat * nat * N) :=
  match tss with
  | [] => []
  | ts :: r => abs_line (nth i lines []) i ts ++ abs_from lines r (S i)
  end.

Lemma decode_app l1 l2 line col :
  decode_tokens (l1 ++ l2) line col =
  decode_tokens l1 line col ++
  decode_tokens l2 (fold_left (fun acc t => acc + fst (fst (fst t))) l1 line)
                   (fold_left (fun acc t => let '(dl, ds, _, _) := t in if Nat.eqb dl 0 then acc + ds else ds) l1 col).
Proof.
  revert line col. induction l1 as [|[[[dl ds] len] c] l1 IH]; intros line col; cbn [app decode_tokens fold_left]; [reflexivity|].
  f_equal. rewrite IH. cbn [fst]. reflexivity.
Qed.

Lemma ordered_weaken lo lo' ts : lo' <= lo -> ordered lo ts -> ordered lo' ts.
Proof. destruct ts as [|[c [a b]] ts]; cbn [ordered]; [auto|]. intros H (H1 & H2 & H3). repeat split; (lia || assumption). Qed.

(* tokens after the first of a line: delta_line 0, columns chained *)
Lemma decode_rest line i : forall ts ps,
  ordered ps ts ->
  decode_tokens (line_tokens line 0 (utf16_col line ps) false ts) i (utf16_col line ps) = abs_line line i ts
  /\ forall dl0, line_tokens line dl0 (utf16_col line ps) false ts = line_tokens line 0 (utf16_col line ps) false ts.
Proof.
  induction ts as [|[c [a b]] ts IH]; intros ps Hord; cbn [line_tokens decode_tokens abs_line map]; [split; reflexivity|].
  cbn [ordered] in Hord. destruct Hord as (H1 & H2 & H3).
  pose proof (utf16_col_mono line ps a H1) as M1.
  destruct (IH a (ordered_weaken b a ts H2 H3)) as [IH1 IH2]. split.
  - cbn [Nat.eqb fst snd]. rewrite Nat.add_0_r.
    replace (utf16_col line ps + (utf16_col line a - utf16_col line ps)) with (utf16_col line a) by lia.
    f_equal. exact IH1.
  - intros dl0. f_equal. apply IH2.
Qed.

Lemma line_tokens_first line i prev col ts c a b :
  prev <= i -> (i = prev -> col = 0) ->
  ordered 0 ((c, (a, b)) :: ts) ->
  decode_tokens (line_tokens line (i - prev) 0 true ((c, (a, b)) :: ts)) prev col
  = abs_line line i ((c, (a, b)) :: ts).
Proof.
  intros Hle Hcol Hord. cbn [line_tokens decode_tokens abs_line map fst snd].
  cbn [ordered] in Hord. destruct Hord as (_ & H2 & H3).
  replace (prev + (i - prev)) with i by lia. rewrite Nat.sub_0_r.
  assert (Ec : (if Nat.eqb (i - prev) 0 then col + utf16_col line a else utf16_col line a) = utf16_col line a).
  { destruct (Nat.eqb_spec (i - prev) 0) as [E|E]; [|reflexivity]. rewrite Hcol by lia. reflexivity. }
  rewrite Ec. f_equal.
  destruct (decode_rest line i ts a (ordered_weaken b a ts H2 H3)) as [D1 D2]. rewrite D2. exact D1.
Qed.

Lemma decode_line_end line dl prev ts :
  ts <> [] ->
  fold_left (fun acc t => acc + fst (fst (fst t))) (line_tokens line dl 0 true ts) prev = prev + dl.
Proof.
  destruct ts as [|[c [a b]] ts]; [congruence|]. intros _. cbn [line_tokens fold_left fst].
  generalize (prev + dl). generalize (utf16_col line a).
  induction ts as [|[c' [a' b']] ts IH]; intros ps acc; cbn [line_tokens fold_left fst]; [reflexivity|].
  rewrite Nat.add_0_r. apply IH.
Qed.

(* [i]: the file line whose tokens come next; [prev], [col]: line and start
   column of the last token decoded, (0, 0) before the first.  A token that is
   the first of its line restarts the column, so [col] matters only on the
   line of the previous token, and a first token lands on that line only at
   the very beginning, where [col = 0]. *)
Theorem tokens_decode lines : forall tss i prev col,
  prev <= i -> (i = prev -> col = 0) ->
  Forall (fun lt => ordered 0 lt) tss ->
  decode_tokens (tokens_from lines tss i prev) prev col = abs_from lines tss i.
Proof.
  induction tss as [|ts tss IH]; intros i prev col Hle Hcol Hord; cbn [tokens_from abs_from]; [reflexivity|].
  inversion Hord as [|? ? Ho Hord']; subst.
  destruct ts as [|[c [a b]] ts].
  - cbn [abs_line map app]. apply IH; [lia|intros E; lia|exact Hord'].
  - rewrite decode_app.
    rewrite (line_tokens_first (nth i lines []) i prev col ts c a b Hle Hcol Ho).
    f_equal.
    rewrite (decode_line_end (nth i lines []) (i - prev) prev ((c, (a, b)) :: ts)) by discriminate.
    replace (prev + (i - prev)) with i by lia.
    apply IH; [lia|intros E; lia|exact Hord'].
Qed.

Lemma abs_line_in_bounds line i ts t :
  In t (abs_line line i ts) -> ordered 0 ts ->
  let '(l, s, n, c) := t in l = i /\ s + n <= utf16_width line.
Proof.
  unfold abs_line. intros Hin Hord. apply in_map_iff in Hin as ([c [a b]] & <- & Hin). cbn [fst snd].
  split; [reflexivity|].
  assert (Hab : a <= b).
  { clear -Hin Hord. revert Hord. generalize 0. induction ts as [|[c' [a' b']] ts IH]; intros lo Hord; [destruct Hin|].
    cbn [ordered] in Hord. destruct Hord as (H1 & H2 & H3).
    destruct Hin as [E|Hin]; [inversion E; subst; exact H2|apply (IH Hin b' H3)]. }
  pose proof (utf16_col_mono line a b Hab). pose proof (utf16_col_le_width line b). lia.
Qed.

(* 8: the length of [lsp_legend] (Gen/Tables.v, regenerated from the server's
   legend), written as a literal: no statement reads that table, and the model
   sends the class itself as the type index, as [lsp_class_index] (the
   identity) has it *)
Lemma token_class_lt_8 t : (token_class t < 8)%N.
Proof. destruct t; vm_compute; reflexivity. Qed.

Definition cls_ok (lt : list (N * (nat * nat))) : Prop := Forall (fun t => (fst t < 8)%N) lt.

Lemma cls_ok_tokens (ts : list ranged) : cls_ok (map (fun tr => (token_class (fst tr), snd tr)) ts).
Proof. unfold cls_ok. rewrite Forall_forall. intros t Hin. apply in_map_iff in Hin as (tr & <- & _). apply token_class_lt_8. Qed.

Lemma line_classes_cls line : cls_ok (line_classes line).
Proof.
  unfold line_classes. destruct line as [|b l]; [constructor|]. destruct (parse_line_number (b :: l)) as [[n e]|]; [|constructor].
  constructor; [vm_compute; reflexivity|]. destruct (tokenize (b :: l) e); [apply cls_ok_tokens | constructor].
Qed.

Theorem token_types_in_legend fuel text : Forall cls_ok (an_tokens (analyze fuel text)).
Proof.
  destruct (analyze_fields fuel text) as (_ & -> & _). rewrite (proj1 (pass1_out text)).
  apply Forall_forall. intros lt Hin. apply in_map_iff in Hin as (line & <- & _). apply line_classes_cls.
Qed.

Theorem analysis_tokens_decode fuel text :
  decode_tokens (semantic_tokens_of (split_lines text) (analyze fuel text)) 0 0
  = abs_from (split_lines text) (an_tokens (analyze fuel text)) 0.
Proof.
  pose proof (analysis_tokens_ordered fuel text) as Ho. revert Ho.
  unfold semantic_tokens_of. generalize (an_tokens (analyze fuel text)). intros tss Ho.
  apply tokens_decode; [lia|reflexivity|exact Ho].
Qed.

Lemma abs_from_in_bounds lines : forall tss i t,
  Forall (fun lt => ordered 0 lt) tss -> In t (abs_from lines tss i) ->
  let '(l, s, n, c) := t in i <= l /\ l < i + length tss /\ s + n <= utf16_width (nth l lines []).
Proof.
  induction tss as [|ts tss IH]; intros i t Hord Hin; [destruct Hin|].
  inversion Hord as [|? ? Ho Hord']; subst. cbn [abs_from] in Hin. apply in_app_or in Hin as [Hin|Hin].
  - pose proof (abs_line_in_bounds _ _ _ _ Hin Ho) as H. destruct t as [[[l s] n] c]. destruct H as [-> H].
    cbn [length]. repeat split; (lia || exact H).
  - specialize (IH (S i) t Hord' Hin). destruct t as [[[l s] n] c]. cbn [length]. destruct IH as (I1 & I2 & I3).
    repeat split; (lia || exact I3).
Qed.
