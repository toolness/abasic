(* Proofs/StoreTie.v — C04: the five methods of ProgramLines that the
   interpreter uses (first / after / has / get / set) as TRANSLATED from
   program_lines.rs on every run (Gen/ProgramLinesRs.v) are the model's store
   operations.  So the C04 theorems (refinement of the abstract map, agreement
   of both indexes, first / after = least / next key) are re-checked against
   the calls the code makes: which field, which call, in which branch. *)
From Coq Require Import List NArith Bool.
From Abasic Require Import Model.State Model.RustColl Gen.ProgramLinesRs.
Import ListNotations.
Open Scope N_scope.

Theorem rs_pl_first_is_model : forall s, rs_pl_first (st_toks s) (st_keys s) = store_first s.
Proof. reflexivity. Qed.

Lemma range_next_is_keys_after : forall n keys,
  iter_next (btree_range (BExcluded n) BUnbounded keys) = keys_after n keys.
Proof.
  intros n keys. unfold iter_next, btree_range. induction keys as [|k r IH]; [reflexivity|].
  cbn [filter above below keys_after]. rewrite andb_true_r.
  destruct (n <? k); [reflexivity|exact IH].
Qed.

Theorem rs_pl_after_is_model : forall s n, rs_pl_after (st_toks s) (st_keys s) n = store_after n s.
Proof. intros s n. unfold rs_pl_after, copied, store_after. apply range_next_is_keys_after. Qed.

Theorem rs_pl_has_is_model : forall s n, rs_pl_has (st_toks s) (st_keys s) n = store_has n s.
Proof. reflexivity. Qed.

Theorem rs_pl_get_is_model : forall s n, rs_pl_get (st_toks s) (st_keys s) n = toks_get n (st_toks s).
Proof. reflexivity. Qed.

Theorem rs_pl_set_is_model : forall s n ts,
  store_set n ts s = set_store (fst (rs_pl_set (st_toks s) (st_keys s) n ts)) (snd (rs_pl_set (st_toks s) (st_keys s) n ts)) s.
Proof. intros s n ts. destruct ts; reflexivity. Qed.
