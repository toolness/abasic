(* C11: what the runtime statements answer once an edit has emptied the
   holders (the "probes" of the property text).  An immediate line of statement
   tokens is one host call that executes its first statement ([imm_turn]). *)
From Coq Require Import List NArith ZArith Bool.
From Abasic Require Import Model.Bytes Model.Token Model.Lexer Model.State Model.Eval Model.Interp Proofs.Monad
     Proofs.Safety Proofs.InputProofs Proofs.StmtSim Proofs.StoreProofs Proofs.ResetProofs.
Import ListNotations.
Local Open Scope nat_scope.

(* the line is no command, has no line number, and tokenizes to [toks] *)
Definition imm_line (line : bytes) (toks : list token) : Prop :=
  command_of line = None /\ parse_line_number line = None /\
  exists ts, tokenize line 0 = TokOk ts /\ map fst ts = toks.

(* the state in which the turn of a typed line of statements takes its first read: [imm_reset toks s]
   with the state flag that [run_next_statement] sets first *)
Definition imm_start (toks : list token) (s : interp) : interp := set_state Running (imm_reset toks s).

Lemma imm_start_fields toks s :
  loc (imm_start toks s) = imm0 /\ immediate (imm_start toks s) = toks
  /\ loops (imm_start toks s) = loops s /\ functions (imm_start toks s) = functions s
  /\ variables (imm_start toks s) = variables s /\ enable_tracing (imm_start toks s) = enable_tracing s
  /\ enable_warnings (imm_start toks s) = enable_warnings s
  /\ (stack s = [] -> stack (imm_start toks s) = []).
Proof. unfold imm_start, imm_reset. destruct s; cbn. destruct breakpoint; cbn; repeat split; auto. Qed.

Lemma imm_turn fuel line t tl s :
  state s = Idle -> imm_line line (t :: tl) ->
  start_evaluating fuel line s
  = postprocess ((evaluate_statement fuel 0 ;;; after_statement) (bump (imm_start (t :: tl) s))).
Proof.
  intros Hidle (Hc & Hp & ts & Ht & Hm).
  rewrite (start_turn fuel s line _ (tf_immediate s line ts Hidle Hc Hp Ht)), Hm.
  destruct (imm_start_fields (t :: tl) s) as (Hl & Hi & _).
  rewrite rns_eq by (apply imm_line_exists; change (loc_line (loc (imm_start (t :: tl) s)) = None); rewrite Hl; reflexivity).
  unfold turn_statement, cur_toks. change (loc (imm_reset (t :: tl) s)) with (loc (imm_start (t :: tl) s)).
  change (immediate (imm_reset (t :: tl) s)) with (immediate (imm_start (t :: tl) s)). rewrite Hl, Hi. reflexivity.
Qed.

Lemma trace_prefix_imm s : loc_line (loc s) = None ->
  (if enable_tracing s
   then l <- get_line_number ;; match l with Some n => push_output (OTrace n) | None => ret tt end
   else ret tt) s = (Ok tt, s).
Proof. intros Hl. rewrite trace_prefix_eq. fold (traced s). rewrite (traced_imm s Hl). reflexivity. Qed.

Lemma peek_imm s : loc_line (loc s) = None ->
  peek_next_token s = (Ok (nth_error (immediate s) (loc_idx (loc s))), bump s).
Proof. intros Hl. rewrite (peek_eq s (imm_line_exists s Hl)). unfold cur_toks. rewrite Hl. reflexivity. Qed.

Lemma next_token_imm s : loc_line (loc s) = None ->
  next_token s = match nth_error (immediate s) (loc_idx (loc s)) with
                 | Some t => (Ok (Some t), set_loc (mkloc None (S (loc_idx (loc s)))) (bump s))
                 | None => (Ok None, bump s)
                 end.
Proof.
  intros Hl. unfold next_token, bind. rewrite (peek_imm s Hl).
  destruct (nth_error (immediate s) (loc_idx (loc s))); [|reflexivity].
  unfold advance, modify, ret. cbn. rewrite Hl. reflexivity.
Qed.

Lemma imm_statement f s : loc_line (loc s) = None ->
  evaluate_statement (S f) 0 s
  = match nth_error (immediate s) (loc_idx (loc s)) with
    | Some t => on_token f 1 t (set_loc (mkloc None (S (loc_idx (loc s)))) (bump s))
    | None => (Ok tt, bump s)
    end.
Proof.
  intros Hl. rewrite (statement_eq f 0 s (imm_line_exists s Hl) eq_refl), (traced_imm s Hl).
  unfold cur_toks, adv. rewrite Hl. destruct (nth_error (immediate s) (loc_idx (loc s))); reflexivity.
Qed.

Theorem return_probe fuel line tl s :
  state s = Idle -> stack s = [] -> imm_line line (TReturn :: tl) ->
  exists l s', start_evaluating (S fuel) line s = (Err EReturnWithoutGosub (Some l), s')
               /\ loc_line l = None /\ state s' = Idle.
Proof.
  intros Hidle Hst Him. rewrite (imm_turn (S fuel) line TReturn tl s Hidle Him).
  destruct (imm_start_fields (TReturn :: tl) s) as (Hl & Hi & _ & _ & _ & _ & _ & Hs).
  specialize (Hs Hst). set (s1 := imm_start (TReturn :: tl) s) in *.
  assert (Hn : loc_line (loc (bump s1)) = None) by (change (loc_line (loc s1) = None); rewrite Hl; reflexivity).
  rewrite bind_run, (imm_statement fuel (bump s1) Hn).
  change (immediate (bump s1)) with (immediate s1). change (loc (bump s1)) with (loc s1). rewrite Hi, Hl.
  cbn [loc_idx imm0 nth_error on_token dispatch]. rewrite Caps.return_eq.
  set (s2 := set_loc _ _). change (stack s2) with (stack s1). rewrite Hs. cbn [rev]. unfold fail, postprocess. cbn [populate_error_location].
  eexists _, _. repeat split.
Qed.

(* NEXT v with no open loop (v a numeric variable: NEXT A$ is a TYPE MISMATCH first) *)
Definition var_read (v : bytes) (s : interp) : value :=
  match alist_get v (variables s) with Some x => x | None => default_value v end.

Theorem next_probe fuel line v x tl s :
  state s = Idle -> loops s = [] -> var_read v s = VNum x -> imm_line line (TNext :: TSymbol v :: tl) ->
  exists l s', start_evaluating (S fuel) line s = (Err ENextWithoutFor (Some l), s')
               /\ loc_line l = None /\ state s' = Idle /\ variables s' = variables s.
Proof.
  intros Hidle Hlo Hv Him. rewrite (imm_turn (S fuel) line TNext (TSymbol v :: tl) s Hidle Him).
  destruct (imm_start_fields (TNext :: TSymbol v :: tl) s) as (Hl & Hi & Hlo' & _ & Hvars & _).
  set (s1 := imm_start (TNext :: TSymbol v :: tl) s) in *.
  assert (Hn : loc_line (loc (bump s1)) = None) by (change (loc_line (loc s1) = None); rewrite Hl; reflexivity).
  rewrite bind_run, (imm_statement fuel (bump s1) Hn).
  change (immediate (bump s1)) with (immediate s1). change (loc (bump s1)) with (loc s1). rewrite Hi, Hl.
  cbn [loc_idx imm0 nth_error on_token dispatch]. unfold evaluate_next_statement.
  set (s2 := set_loc _ _). rewrite bind_run, (next_token_imm s2 eq_refl).
  change (immediate s2) with (immediate s1). rewrite Hi. cbn [s2 loc set_loc loc_idx nth_error].
  set (s3 := set_loc _ _). rewrite Caps.end_loop_eq.
  change (variables s3) with (variables s1). rewrite Hvars. fold (var_read v s). rewrite Hv.
  unfold Caps.drop_loop. change (loops s3) with (loops s1). rewrite Hlo', Hlo. cbn [find_loop_rev]. unfold postprocess.
  cbn [populate_error_location]. eexists _, _. repeat split. exact Hvars.
Qed.

(* with an empty function table no name is a user function: the lookup answers "none" and leaves
   the state alone (in [expression_term] the name is then read as an array) *)
Theorem function_probe (rec : M value) name s :
  functions s = [] -> user_function_call rec name s = (Ok None, s).
Proof. intros Hf. unfold user_function_call. rewrite bind_get, Hf. reflexivity. Qed.

(* with no data cursor the next DATA item depends on the stored program only:
   it is the first one of the program as it is now *)
Theorem read_probe s1 s2 :
  data_it s1 = None -> data_it s2 = None -> st_keys s1 = st_keys s2 -> st_toks s1 = st_toks s2 ->
  fst (next_data_element s1) = fst (next_data_element s2)
  /\ data_it (snd (next_data_element s1)) = data_it (snd (next_data_element s2)).
Proof.
  intros H1 H2 Hk Ht. unfold next_data_element. rewrite H1, H2, Hk, Ht.
  destruct (data_chunks (st_keys s2) (st_toks s2)) as [cs|? ?|?| |]; try (split; [reflexivity | cbn; congruence]).
  destruct (data_next _ _) as [e d']; split; reflexivity.
Qed.

Corollary probes_after_edit fuel line s n v :
  state s = Idle -> edit_of line = Some (n, v) ->
  let s' := snd (start_evaluating fuel line s) in
  (forall f l tl, imm_line l (TReturn :: tl) ->
     exists lc s2, start_evaluating (S f) l s' = (Err EReturnWithoutGosub (Some lc), s2) /\ loc_line lc = None /\ state s2 = Idle)
  /\ (forall f l w x tl, var_read w s = VNum x -> imm_line l (TNext :: TSymbol w :: tl) ->
     exists lc s2, start_evaluating (S f) l s' = (Err ENextWithoutFor (Some lc), s2) /\ loc_line lc = None /\ state s2 = Idle
                   /\ variables s2 = variables s)
  /\ (forall (rec : M value) name, user_function_call rec name s' = (Ok None, s'))
  /\ (forall s2, data_it s2 = None -> st_keys s2 = st_keys s' -> st_toks s2 = st_toks s' ->
        fst (next_data_element s') = fst (next_data_element s2)).
Proof.
  intros Hidle Hedit. pose proof (edit_invalidates fuel line s n v Hidle Hedit) as H.
  destruct (start_evaluating fuel line s) as [r s']. cbn [snd].
  destruct H as (_ & _ & Hst & Hlo & Hfn & Hd & _ & _ & Hidle' & Hvars & _).
  split; [intros f l tl Hl; apply (return_probe f l tl s' Hidle' Hst Hl)|].
  split.
  { intros f l w x tl Hw Hl. unfold var_read in Hw. rewrite <- Hvars in Hw.
    destruct (next_probe f l w x tl s' Hidle' Hlo Hw Hl) as (lc & s2 & A & B & C & D).
    exists lc, s2. repeat split; try assumption. congruence. }
  split; [intros; apply function_probe; exact Hfn|].
  intros s2 H2 Hk Ht. apply read_probe; congruence.
Qed.
