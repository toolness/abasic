(* Proofs/Safety.v — C01: no sequence of host calls that follows the
   turn-taking protocol makes the interpreter panic; every failure is an error
   value after which the interpreter is idle, still accepts lines, and the
   error can be rendered as source line plus caret.

   Every panic tag of the model is excluded:
     PUnwrapLine         the cursor, every saved location and every error
                         location name lines that exist ([wf], [er_errloc]);
     PListUnwrap         [store_ok]: both store indexes hold the same keys;
     PAssertState        excluded by [legal];
     PFunctionMustExist  expression evaluation never changes [functions];
     PStackEmpty         expression evaluation restores [stack] on Ok and Err;
     PArrayUnwrap, PCellIndex   [arr_ok]: one cell per index tuple, and
                         [parse_data] never returns an empty list;
     PRewind             the INPUT token stays before the cursor while the
                         target of the INPUT statement is parsed;
     PArityZero          never raised by the model.
   [OutOfFuel] / [OracleMiss] are model artefacts and are not excluded.

   Most files that walk an evaluator take their vocabulary from here and not
   from C01: [wf], the cursor ([cur_toks], [bump], [adv], [line_exists]) with
   the run of each cursor primitive as one equation, the judgements [orel] /
   [orelP] / [ospec] with [ospec_bind] as the one rule of sequencing, and what
   the searches for NEXT and for a line find ([rewind_loop_finds],
   [await_finds]).
 *)
From Coq Require Import List NArith ZArith Bool Lia.
From Abasic Require Import Model.Bytes Model.Num Model.Token Model.Data Model.Lexer Gen.Tables
     Model.State Model.Eval Model.Interp Proofs.Monad Proofs.StoreProofs.
(* not imported: Caps.v has an [arr_ok] and a [demo_ops] of its own (C16's); what is used of it is qualified *)
From Abasic Require Proofs.Caps.
Import ListNotations.
Local Open Scope nat_scope.

Definition line_of (op : hostop) : option bytes :=
  match op with HLine text => Some text | _ => None end.

(* The (result, state) pair that [step] computes before [make_row].  A call
   the protocol does not allow is not made at all. *)
Definition call_result (fuel : nat) (s : interp) (op : hostop) : res unit * interp :=
  if negb (legal s op) then (Ok tt, s)
  else
    let s0 := set_reads 0 s in
    match op with
    | HLine text => start_evaluating fuel text s0
    | HCont => continue_evaluating fuel s0
    | HReply text => provide_input text s0
    | HBreak => host_break s0
    | HRand seed => randomize seed s0
    | HReplace => (Ok tt, fresh (pow_oracle s))
    | HFlags w t => (Ok tt, set_flags w t s)
    | HNew => (Ok tt, fresh (pow_oracle s))
    end.

(* the state [step] leaves: [make_row] has taken the pending outputs of [s1]; HFlags and HNew make no row *)
Definition drained (s : interp) (op : hostop) (s1 : interp) : interp :=
  if negb (legal s op) then s1
  else match op with
       | HFlags _ _ | HNew => s1
       | _ => set_outputs [] s1
       end.

Lemma make_row_snd r line s : snd (make_row r line s) = set_outputs [] s.
Proof. reflexivity. Qed.

Lemma step_call_result fuel s op :
  snd (step fuel s op) = drained s op (snd (call_result fuel s op)).
Proof.
  unfold step, call_result, drained. destruct (negb (legal s op)); [reflexivity|].
  destruct op; rewrite ?row_state; reflexivity.
Qed.

Lemma step_row_call_result fuel s op :
  legal s op = true ->
  match op with
  | HFlags _ _ | HNew => True
  | _ => step fuel s op =
           let '(r, s1) := call_result fuel s op in
           let '(rw, s2) := make_row r (line_of op) s1 in (Some rw, s2)
  end.
Proof.
  intros Hl. unfold step, call_result. rewrite Hl. cbn [negb].
  destruct op; cbn [line_of]; try exact I; reflexivity.
Qed.

Definition line_ok (t : list (N * list token)) (o : option N) : Prop :=
  match o with None => True | Some n => toks_get n t <> None end.

Definition line_exists (s : interp) (l : location) : Prop := line_ok (st_toks s) (loc_line l).

Fixpoint dims_prod (l : list N) : N :=
  match l with [] => 1%N | d :: r => (d * dims_prod r)%N end.

(* the allocation has exactly one cell per index tuple (the second conjunct of [Caps.arr_ok], which is C16's
   and says more) *)
Definition arr_ok (a : arr) : Prop := N.of_nat (length (ar_cells a)) = dims_prod (ar_dims a).

Record wf (s : interp) : Prop := {
  wf_store : store_ok s;
  wf_loc : line_exists s (loc s);
  wf_bp : forall p, breakpoint s = Some p -> toks_get (fst p) (st_toks s) <> None;
  wf_stack : Forall (fun fr => line_exists s (fr_ret fr)) (stack s);
  wf_loops : Forall (fun lp => line_exists s (lp_loc lp)) (loops s);
  wf_fns : Forall (fun kv => toks_get (fn_line (snd kv)) (st_toks s) <> None) (functions s);
  wf_data : forall d, data_it s = Some d -> Forall (fun c => line_exists s (fst c)) (di_chunks d);
  wf_arrays : Forall (fun kv => arr_ok (snd kv)) (arrays s) }.

Ltac proj_simpl :=
  cbn [st_toks st_keys immediate loc breakpoint stack loops data_it functions input outputs
       state rng variables arrays enable_warnings enable_tracing pow_oracle reads
       set_store set_immediate set_loc set_breakpoint set_stack set_loops set_data_it
       set_functions set_input set_outputs set_state set_rng set_variables set_arrays
       set_flags set_oracle set_reads fst snd loc_line loc_idx] in *.

Lemma wf_init : wf init_interp.
Proof.
  split; try exact store_ok_init; unfold init_interp; cbn; auto; try discriminate.
Qed.

Lemma wf_fresh oracle : wf (fresh oracle).
Proof.
  split; try exact store_ok_init; unfold fresh, init_interp; cbn; auto; try discriminate.
Qed.

(* [wf] only reads nine fields, and of the cursor only its line *)
Lemma wf_ext s s' :
  st_toks s' = st_toks s -> st_keys s' = st_keys s -> loc_line (loc s') = loc_line (loc s) ->
  breakpoint s' = breakpoint s -> stack s' = stack s -> loops s' = loops s ->
  functions s' = functions s -> data_it s' = data_it s -> arrays s' = arrays s ->
  wf s -> wf s'.
Proof.
  intros Ht Hk Hl Hb Hs Hlp Hf Hd Ha [W1 W2 W3 W4 W5 W6 W7 W8].
  split; unfold line_exists, store_ok in *; rewrite ?Ht, ?Hk, ?Hl, ?Hb, ?Hs, ?Hlp, ?Hf, ?Hd, ?Ha; assumption.
Qed.

Lemma line_exists_same s s' l : st_toks s' = st_toks s -> line_exists s l -> line_exists s' l.
Proof. unfold line_exists. intros ->. auto. Qed.

Lemma wf_set_loc l s : wf s -> line_exists s l -> wf (set_loc l s).
Proof. intros [W1 W2 W3 W4 W5 W6 W7 W8] H. split; assumption. Qed.

Lemma wf_set_stack v s :
  wf s -> Forall (fun fr => line_exists s (fr_ret fr)) v -> wf (set_stack v s).
Proof. intros [W1 W2 W3 W4 W5 W6 W7 W8] H. split; assumption. Qed.

Lemma wf_set_loops v s :
  wf s -> Forall (fun lp => line_exists s (lp_loc lp)) v -> wf (set_loops v s).
Proof. intros [W1 W2 W3 W4 W5 W6 W7 W8] H. split; assumption. Qed.

Lemma wf_set_functions v s :
  wf s -> Forall (fun kv => toks_get (fn_line (snd kv)) (st_toks s) <> None) v -> wf (set_functions v s).
Proof. intros [W1 W2 W3 W4 W5 W6 W7 W8] H. split; assumption. Qed.

Lemma wf_set_breakpoint v s :
  wf s -> (forall p, v = Some p -> toks_get (fst p) (st_toks s) <> None) -> wf (set_breakpoint v s).
Proof. intros [W1 W2 W3 W4 W5 W6 W7 W8] H. split; assumption. Qed.

Lemma wf_set_data_it v s :
  wf s -> (forall d, v = Some d -> Forall (fun c => line_exists s (fst c)) (di_chunks d)) ->
  wf (set_data_it v s).
Proof. intros [W1 W2 W3 W4 W5 W6 W7 W8] H. split; assumption. Qed.

Lemma wf_set_arrays v s : wf s -> Forall (fun kv => arr_ok (snd kv)) v -> wf (set_arrays v s).
Proof. intros [W1 W2 W3 W4 W5 W6 W7 W8] H. split; assumption. Qed.

Lemma alist_get_set_same {V} k (v : V) l : alist_get k (alist_set k v l) = Some v.
Proof. rewrite Caps.alist_get_set, bytes_eqb_refl. reflexivity. Qed.

Lemma Forall_alist_set {V} (P : bytes * V -> Prop) k v l :
  (forall k', P (k', v)) -> Forall P l -> Forall P (alist_set k v l).
Proof.
  intros Hv. induction l as [|[k' v'] l IH]; cbn [alist_set]; intros H.
  - constructor; [apply Hv|constructor].
  - inversion H; subst. destruct (bytes_eqb k k'); constructor; auto.
Qed.

Lemma Forall_alist_get {V} (P : bytes * V -> Prop) k v l :
  Forall P l -> alist_get k l = Some v -> exists k', P (k', v).
Proof.
  intros H Hg. exists k. rewrite Forall_forall in H. apply H, Caps.alist_get_In, Hg.
Qed.

Lemma Forall_firstn' {A} (P : A -> Prop) i l : Forall P l -> Forall P (firstn i l).
Proof.
  intros H. rewrite <- (firstn_skipn i l) in H. apply Forall_app in H. tauto.
Qed.

Definition forget {A} (r : res A) : res unit :=
  match r with
  | Ok _ => Ok tt | Err e l => Err e l | Panic p => Panic p
  | OutOfFuel => OutOfFuel | OracleMiss => OracleMiss
  end.

Lemma forget_unit (r : res unit) : forget r = r.
Proof. destruct r as [[]|e l|p| |]; reflexivity. Qed.

Lemma forget_panic {A} (r : res A) p : r = Panic p <-> forget r = Panic p.
Proof. destruct r; cbn [forget]; split; intros H; try discriminate; inversion H; reflexivity. Qed.

(* [R s r s']: a run from [s] that ends with outcome [r] (value forgotten)
   ends in [s'].  Unlike [Monad.mrel] the relation may say different things
   for different outcomes. *)
Definition orel {A} (R : interp -> res unit -> interp -> Prop) (m : M A) : Prop :=
  forall s, R s (forget (fst (m s))) (snd (m s)).

Definition orelP {A} (P : interp -> Prop) (R : interp -> res unit -> interp -> Prop) (m : M A) : Prop :=
  forall s, P s -> R s (forget (fst (m s))) (snd (m s)).

(* [ospec P R m Q]: from a state in [P] a run of [m] is related by [R] and, when it returns [a], ends in [Q a].
   [Q] sees the value and the end state; the start state is what [R] is about.  A post is of one of two kinds: a
   precondition that [R] carries over a step ([ospec_carried]), or what the returned value says of the end state
   ([ospec_post]).  [orelP P R m] is the reading at [Q] trivial, [orel R m] at [P] and [Q] trivial. *)
Definition ospec {A} (P : interp -> Prop) (R : interp -> res unit -> interp -> Prop) (m : M A)
    (Q : A -> interp -> Prop) : Prop :=
  forall s, P s -> R s (forget (fst (m s))) (snd (m s)) /\ forall a, fst (m s) = Ok a -> Q a (snd (m s)).

(* what a relation must allow for the walk's rules: the outcomes a rule itself produces ([ret], [bind], [fail],
   the two model artefacts).  [oc_err] speaks of errors without location only: a located error and a panic are
   never granted by a rule, each has to be answered where it is raised ([er_errloc], [er_nopanic]). *)
Record ocat (R : interp -> res unit -> interp -> Prop) : Prop := {
  oc_ok : forall s, R s (Ok tt) s;
  oc_trans : forall a b c r, R a (Ok tt) b -> R b r c -> R a r c;
  oc_err : forall s e, R s (Err e None) s;
  oc_fuel : forall s, R s OutOfFuel s;
  oc_miss : forall s, R s OracleMiss s }.

Section ORules.
  Variable R : interp -> res unit -> interp -> Prop.
  Hypothesis OC : ocat R.

  Lemma orel_ret {A} (a : A) : orel R (ret a).
  Proof. intros s; apply (oc_ok _ OC). Qed.
  Lemma orel_get {A} (f : interp -> A) : orel R (get f).
  Proof. intros s; apply (oc_ok _ OC). Qed.
  Lemma orel_fail {A} e : orel R (@fail A e).
  Proof. intros s; apply (oc_err _ OC). Qed.
  Lemma orel_out_of_fuel {A} : orel R (@out_of_fuel A).
  Proof. intros s; apply (oc_fuel _ OC). Qed.
  Lemma orel_oracle_miss {A} : orel R (@oracle_miss A).
  Proof. intros s; apply (oc_miss _ OC). Qed.

  Lemma orel_modify f : (forall s, R s (Ok tt) (f s)) -> orel R (modify f).
  Proof. intros H s; apply H. Qed.

  Lemma orel_bind {A B} (m : M A) (f : A -> M B) :
    orel R m -> (forall a, orel R (f a)) -> orel R (bind m f).
  Proof.
    intros Hm Hf s. rewrite bind_run. specialize (Hm s).
    destruct (m s) as [[a|e l|p| |] s1]; cbn [fst snd forget] in *; try exact Hm.
    eapply (oc_trans _ OC); [exact Hm | apply Hf].
  Qed.

  Lemma orel_repeat {St Res} n (body : St -> M (St + Res)) :
    (forall acc, orel R (body acc)) -> forall acc, orel R (repeat_m n body acc).
  Proof.
    intros Hb. induction n as [|n IH]; intros acc; cbn [repeat_m].
    - apply orel_out_of_fuel.
    - apply orel_bind; [apply Hb|]. intros [acc'|r]; [apply IH | apply orel_ret].
  Qed.

  Lemma ospec_bind {A B} P (Q : A -> interp -> Prop) Q' (m : M A) (f : A -> M B) :
    ospec P R m Q -> (forall a, ospec (Q a) R (f a) Q') -> ospec P R (bind m f) Q'.
  Proof.
    intros Hm Hf s HP. rewrite bind_run. destruct (Hm s HP) as [H1 H2].
    destruct (m s) as [[a|e l|p| |] s1]; cbn [fst snd forget] in *; try (split; [exact H1 | discriminate]).
    destruct (Hf a s1 (H2 a eq_refl)) as [H3 H4]. split; [exact (oc_trans _ OC _ _ _ _ H1 H3) | exact H4].
  Qed.
End ORules.

Lemma ospec_orel {A} R (P : interp -> Prop) (m : M A) : orel R m -> ospec P R m (fun _ _ => True).
Proof. intros H s _. split; [apply H | trivial]. Qed.

Lemma ospec_post {A} R (P : interp -> Prop) (m : M A) (Q : A -> interp -> Prop) :
  orel R m -> (forall s a s', P s -> m s = (Ok a, s') -> Q a s') -> ospec P R m Q.
Proof.
  intros H HQ s HP. split; [apply H|]. intros a E. apply (HQ s a (snd (m s)) HP). rewrite <- E. apply surjective_pairing.
Qed.

Lemma ospec_carried {A} (R R' : interp -> res unit -> interp -> Prop) (P : interp -> Prop) (m : M A) :
  (forall s r s', R s r s' -> R' s r s') -> (forall s s', P s -> R s (Ok tt) s' -> P s') ->
  orel R m -> ospec P R' m (fun _ => P).
Proof.
  intros Hsub Hst H s HP. split; [apply Hsub, H|]. intros a E. apply (Hst s _ HP). specialize (H s). rewrite E in H. exact H.
Qed.

Lemma ospec_and {A} R (P : interp -> Prop) (m : M A) Q1 Q2 : ospec P R m Q1 -> ospec P R m Q2 -> ospec P R m (fun a s => Q1 a s /\ Q2 a s).
Proof. intros H1 H2 s HP. split; [apply H1, HP|]. intros a E. split; [apply (H1 s HP) | apply (H2 s HP)]; exact E. Qed.

Lemma orelP_ospec {A} R (P : interp -> Prop) (m : M A) Q : ospec P R m Q -> orelP P R m.
Proof. intros H s HP. apply H, HP. Qed.

Lemma orel_ospec {A} R (m : M A) Q : ospec (fun _ => True) R m Q -> orel R m.
Proof. intros H s. apply H, I. Qed.

Lemma ospec_ret {A} R (P : interp -> Prop) (a : A) (Q : A -> interp -> Prop) : ocat R -> (forall s, P s -> Q a s) -> ospec P R (ret a) Q.
Proof. intros OC H s HP. split; [apply (oc_ok _ OC)|]. intros a' E. inversion E; subst. exact (H s HP). Qed.

Lemma ospec_pre {A} R (P P' : interp -> Prop) (m : M A) Q : (forall s, P' s -> P s) -> ospec P R m Q -> ospec P' R m Q.
Proof. intros H Hm s HP. exact (Hm s (H s HP)). Qed.

Lemma orelP_weaken {A} (P P' : interp -> Prop) R (m : M A) :
  (forall s, P' s -> P s) -> orelP P R m -> orelP P' R m.
Proof. intros H Hm s HP; apply Hm, H, HP. Qed.

Lemma orel_weaken {A} (R1 R2 : interp -> res unit -> interp -> Prop) (m : M A) :
  (forall s r s', R1 s r s' -> R2 s r s') -> orel R1 m -> orel R2 m.
Proof. intros H Hm s; apply H, Hm. Qed.

(* The bind rule for three relations: a step of [R1], then a step of [R2], make a step of [R3].  [orel_bind] is the case
   of one relation that composes with itself.  The statement-level judgements of RunInv and TurnProofs ("keeps the
   invariant, or leaves it once"; "at most one record shown") do not, and are sequenced with a relation that does on
   one side. *)
Lemma orel_bind3 {A B} (R1 R2 R3 : interp -> res unit -> interp -> Prop) (m : M A) (f : A -> M B) :
  (forall a b c r, R1 a (Ok tt) b -> R2 b r c -> R3 a r c) -> (forall a r b, r <> Ok tt -> R1 a r b -> R3 a r b) ->
  orel R1 m -> (forall a, orel R2 (f a)) -> orel R3 (bind m f).
Proof.
  intros Hc Hi Hm Hf s. rewrite bind_run. specialize (Hm s).
  destruct (m s) as [[a|e l|p| |] s1]; cbn [fst snd forget] in *; try (apply Hi; [discriminate | exact Hm]).
  exact (Hc _ _ _ _ Hm (Hf a s1)).
Qed.

Lemma orel_ext {A} R (m m' : M A) : (forall s, m s = m' s) -> orel R m -> orel R m'.
Proof. intros H Hm s. rewrite <- H. apply Hm. Qed.

(* no rule for [fail_at], [panic], [lift_res]: whether a located error or a panic is allowed is the content of
   the relation, so these are left to the leaf lemmas of the walk *)
Ltac orel_step OC leaf :=
  lazymatch goal with
  | |- orel _ (ret _) => apply (orel_ret _ OC)
  | |- orel _ (fail _) => apply (orel_fail _ OC)
  | |- orel _ out_of_fuel => apply (orel_out_of_fuel _ OC)
  | |- orel _ oracle_miss => apply (orel_oracle_miss _ OC)
  | |- orel _ (get _) => apply (orel_get _ OC)
  | |- orel _ (bind _ _) => first [ solve [leaf] | apply (orel_bind _ OC); [| intro] ]
  | |- orel _ (repeat_m _ _ _) => apply (orel_repeat _ OC); intro
  | |- ?P (match ?x with _ => _ end) => case_scrutinee P x
  | |- _ => solve [leaf]
  end.
Ltac orel_walk OC leaf := repeat (orel_step OC leaf).

(* an outcome the Rust can produce: a value or an error *)
Definition is_val (r : res unit) : Prop :=
  match r with Ok _ | Err _ _ => True | _ => False end.

(* What an EXPRESSION evaluator does, outcome [r] (value forgotten), to a well-formed state: the program, the
   immediate line and the function table stay; no panic; an error location names an existing line; the frames
   of user-function calls are taken off again on a value or an error ([er_stack]: PStackEmpty); on Ok the cursor
   is on the line it was on and has not moved back ([er_loc]: what PRewind, and Termination.v's measure, rest on). *)
Record ER (s : interp) (r : res unit) (s' : interp) : Prop := {
  er_wf : wf s';
  er_toks : st_toks s' = st_toks s;
  er_keys : st_keys s' = st_keys s;
  er_imm : immediate s' = immediate s;
  er_fns : functions s' = functions s;
  er_nopanic : forall p, r <> Panic p;
  er_errloc : forall e l, r = Err e (Some l) -> line_exists s' l;
  er_stack : is_val r -> stack s' = stack s;
  er_loc : r = Ok tt -> loc_line (loc s') = loc_line (loc s) /\ loc_idx (loc s) <= loc_idx (loc s') }.

(* with the well-formedness of the start state as a premise, so that it is an [ocat] and can be walked *)
Definition ERw (s : interp) (r : res unit) (s' : interp) : Prop := wf s -> ER s r s'.

Lemma ERw_ocat : ocat ERw.
Proof.
  split.
  - intros s Hwf. split; auto; try discriminate.
  - intros a b c r H1 H2 Hwf.
    destruct (H1 Hwf) as [A1 A2 A3 A4 A5 A6 A7 A8 A9].
    destruct (H2 A1) as [B1 B2 B3 B4 B5 B6 B7 B8 B9].
    split; [exact B1|congruence|congruence|congruence|congruence|exact B6|exact B7| |].
    + intros Hv. rewrite (B8 Hv). apply A8; exact I.
    + intros Hr. destruct (B9 Hr) as [C1 C2]. destruct (A9 eq_refl) as [D1 D2]. split; [congruence|lia].
  - intros s e Hwf. split; auto; try discriminate.
  - intros s Hwf. split; auto; try discriminate.
  - intros s Hwf. split; auto; try discriminate.
Qed.

Lemma ER_frame s s' :
  st_toks s' = st_toks s -> st_keys s' = st_keys s -> immediate s' = immediate s -> loc s' = loc s ->
  breakpoint s' = breakpoint s -> stack s' = stack s -> loops s' = loops s ->
  functions s' = functions s -> data_it s' = data_it s -> arrays s' = arrays s ->
  ERw s (Ok tt) s'.
Proof.
  intros Ht Hk Hi Hl Hb Hs Hlp Hf Hd Ha Hwf.
  split; auto; try discriminate.
  - eapply wf_ext; eauto using f_equal.
  - intros _. rewrite Hl. split; [reflexivity|lia].
Qed.

Lemma er_modify_frame f :
  (forall s, st_toks (f s) = st_toks s /\ st_keys (f s) = st_keys s /\ immediate (f s) = immediate s
             /\ loc (f s) = loc s /\ breakpoint (f s) = breakpoint s /\ stack (f s) = stack s
             /\ loops (f s) = loops s /\ functions (f s) = functions s /\ data_it (f s) = data_it s
             /\ arrays (f s) = arrays s) ->
  orel ERw (modify f).
Proof.
  intros H. apply orel_modify. intros s.
  destruct (H s) as (H1 & H2 & H3 & H4 & H5 & H6 & H7 & H8 & H9 & H10). apply ER_frame; assumption.
Qed.

Ltac frame_tac := apply er_modify_frame; intros; repeat split; reflexivity.

Definition cur_toks (s : interp) : list token :=
  match loc_line (loc s) with
  | None => immediate s
  | Some n => match toks_get n (st_toks s) with Some ts => ts | None => [] end
  end.

Definition bump (s : interp) : interp := set_reads (S (reads s)) s.

Definition adv (s : interp) : interp := set_loc (mkloc (loc_line (loc s)) (S (loc_idx (loc s)))) (bump s).

Lemma wf_bump s : wf s -> wf (bump s).
Proof. apply wf_ext; reflexivity. Qed.

Lemma wf_adv s : wf s -> wf (adv s).
Proof. intros H. apply wf_set_loc; [apply wf_bump, H | exact (wf_loc _ H)]. Qed.

(* THE CURSOR.  Each read of the cursor as an equation in [cur_toks], [bump] (a read that takes nothing) and [adv]
   (a read that takes the token).  The [_run] forms hold of every state: without its line the cursor reads
   nothing and the operation panics.  The [_eq] forms are what is left when the line exists (any [wf] state;
   any state on the immediate line). *)
Lemma cur_tokens_run s :
  cur_tokens s = (Ok (cur_toks s), s) \/ cur_toks s = [] /\ exists p, cur_tokens s = (Panic p, s).
Proof.
  unfold cur_tokens, cur_toks, tokens_for_line. rewrite bind_get.
  destruct (loc_line (loc s)) as [n|]; [destruct (toks_get n (st_toks s))|]; eauto.
Qed.

Lemma cur_tokens_eq s : line_exists s (loc s) -> cur_tokens s = (Ok (cur_toks s), s).
Proof.
  unfold cur_tokens, cur_toks, line_exists, line_ok. rewrite bind_get. unfold tokens_for_line.
  destruct (loc_line (loc s)) as [n|]; [|reflexivity].
  destruct (toks_get n (st_toks s)); [reflexivity|congruence].
Qed.

(* "the cursor reads [toks]", as a run of [cur_tokens] and in the terms used here *)
Lemma cur_tokens_iff s toks : fst (cur_tokens s) = Ok toks <-> line_exists s (loc s) /\ cur_toks s = toks.
Proof.
  split; [|intros [Hle <-]; rewrite (cur_tokens_eq s Hle); reflexivity].
  unfold cur_tokens, cur_toks, line_exists, line_ok. rewrite bind_get. unfold tokens_for_line.
  destruct (loc_line (loc s)) as [n|]; cbn [fst].
  - destruct (toks_get n (st_toks s)) as [ts|]; cbn [fst]; intros H; [|discriminate].
    inversion H. split; [discriminate | reflexivity].
  - intros H. inversion H. split; [exact I | reflexivity].
Qed.

Lemma peek_eq s :
  line_exists s (loc s) ->
  peek_next_token s = (Ok (nth_error (cur_toks s) (loc_idx (loc s))), bump s).
Proof.
  intros H. unfold peek_next_token. rewrite bind_modify. fold (bump s).
  rewrite bind_run, (cur_tokens_eq (bump s) H). reflexivity.
Qed.

Lemma peek_run s :
  peek_next_token s = (Ok (nth_error (cur_toks s) (loc_idx (loc s))), bump s)
  \/ cur_toks s = [] /\ exists p, peek_next_token s = (Panic p, bump s).
Proof.
  unfold peek_next_token. rewrite bind_modify. fold (bump s). rewrite bind_run.
  destruct (cur_tokens_run (bump s)) as [E|[H [p E]]]; rewrite E; [left; reflexivity | right; split; [exact H | exists p; reflexivity]].
Qed.

Lemma next_token_run s :
  match nth_error (cur_toks s) (loc_idx (loc s)) with
  | Some t => next_token s = (Ok (Some t), adv s)
  | None => exists r, next_token s = (r, bump s) /\ forall t, r <> Ok (Some t)
  end.
Proof.
  unfold next_token. rewrite bind_run.
  destruct (peek_run s) as [E|[E0 [p E]]]; rewrite E.
  - destruct (nth_error (cur_toks s) (loc_idx (loc s))); [reflexivity | eexists; split; [reflexivity | discriminate]].
  - rewrite E0. destruct (loc_idx (loc s)); eexists; split; try reflexivity; discriminate.
Qed.

Lemma next_token_eq s :
  line_exists s (loc s) ->
  next_token s =
    match nth_error (cur_toks s) (loc_idx (loc s)) with
    | Some t => (Ok (Some t), adv s)
    | None => (Ok None, bump s)
    end.
Proof.
  intros H. unfold next_token. rewrite bind_run, (peek_eq s H).
  destruct (nth_error (cur_toks s) (loc_idx (loc s))); reflexivity.
Qed.

Lemma accept_eq t s : line_exists s (loc s) ->
  accept_next_token t s =
  match nth_error (cur_toks s) (loc_idx (loc s)) with
  | Some t' => if token_eqb t' t then (Ok true, adv s) else (Ok false, bump s)
  | None => (Ok false, bump s)
  end.
Proof.
  intros H. unfold accept_next_token. rewrite bind_run, (peek_eq s H).
  destruct (nth_error (cur_toks s) (loc_idx (loc s))) as [t'|]; [destruct (token_eqb t' t)|]; reflexivity.
Qed.

Lemma try_eq {B} (f : token -> option B) s : line_exists s (loc s) ->
  try_next_token f s =
  match nth_error (cur_toks s) (loc_idx (loc s)) with
  | Some t' => match f t' with Some b => (Ok (Some b), adv s) | None => (Ok None, bump s) end
  | None => (Ok None, bump s)
  end.
Proof.
  intros H. unfold try_next_token. rewrite bind_run, (peek_eq s H).
  destruct (nth_error (cur_toks s) (loc_idx (loc s))) as [t'|]; [destruct (f t')|]; reflexivity.
Qed.

Lemma peek_is_eq e s :
  line_exists s (loc s) ->
  peek_is e s = (Ok (match nth_error (cur_toks s) (loc_idx (loc s)) with
                     | Some t => token_eqb t e
                     | None => false
                     end), bump s).
Proof. intros H. unfold peek_is. rewrite bind_run, (peek_eq s H). reflexivity. Qed.

Lemma rewind_loop_step j e s : line_exists s (loc s) ->
  rewind_loop (S j) e s =
    let s1 := bump (set_loc (mkloc (loc_line (loc s)) j) s) in
    if match nth_error (cur_toks s) j with Some t => token_eqb t e | None => false end
    then (Ok tt, s1) else rewind_loop j e s1.
Proof.
  intros Hl. cbn [rewind_loop]. rewrite bind_modify. set (s1 := set_loc _ s).
  rewrite bind_run, (peek_is_eq e s1 Hl).
  change (nth_error (cur_toks s1) (loc_idx (loc s1))) with (nth_error (cur_toks s) j).
  destruct (match nth_error (cur_toks s) j with Some t => token_eqb t e | None => false end); reflexivity.
Qed.

(* The scan back finds the INPUT it was sent for: [i] is the last index below the cursor [i + S d] that holds one.
   One read per token passed; the cursor is left ON the token. *)
Definition rewound (i d : nat) (s : interp) : interp :=
  set_reads (reads s + S d) (set_loc (mkloc (loc_line (loc s)) i) s).

Lemma rewind_loop_finds i : forall d s, line_exists s (loc s) ->
  nth_error (cur_toks s) i = Some TInput ->
  (forall q, i < q -> q <= i + d -> nth_error (cur_toks s) q <> Some TInput) ->
  rewind_loop (i + S d) TInput s = (Ok tt, rewound i d s).
Proof.
  induction d as [|d IH]; intros s Hl Hi Hq; rewrite Nat.add_succ_r, (rewind_loop_step _ TInput s Hl); cbv zeta.
  - rewrite Nat.add_0_r, Hi. unfold rewound, bump. cbn [token_eqb]. rewrite Nat.add_1_r. reflexivity.
  - assert (Hne : match nth_error (cur_toks s) (i + S d) with Some t => token_eqb t TInput | None => false end = false).
    { destruct (nth_error (cur_toks s) (i + S d)) as [t|] eqn:Et; [|reflexivity].
      destruct t; try reflexivity. destruct (Hq (i + S d)); [lia | lia | exact Et]. }
    rewrite Hne. set (s1 := bump _). rewrite (IH s1 Hl Hi) by (intros q H1 H2; apply Hq; lia).
    unfold rewound, s1, bump. destruct s as [? ? ? [? ?] ? ? ? ? ? ? ? ? ? ? ? ? ? ? rd]. cbn.
    replace (S (rd + S d)) with (rd + S (S d)) by lia. reflexivity.
Qed.

Lemma await_finds s i d : line_exists s (loc s) -> loc_idx (loc s) = i + S d ->
  nth_error (cur_toks s) i = Some TInput ->
  (forall q, i < q -> q <= i + d -> nth_error (cur_toks s) q <> Some TInput) ->
  rewind_program_and_await_input s = (Ok tt, set_state AwaitingInput (rewound i d s)).
Proof.
  intros Hl Hidx Hi Hq. unfold rewind_program_and_await_input, rewind_before_token.
  rewrite bind_assoc, bind_get, Hidx, bind_run, (rewind_loop_finds i d s Hl Hi Hq). reflexivity.
Qed.

Lemma next_line_cases s :
  next_line s = match loc_line (loc s) with
                | None => (Ok false, s)
                | Some n => match store_after n s with
                            | Some n' => (Ok true, set_loc (mkloc (Some n') 0) s)
                            | None => (Ok false, s)
                            end
                end.
Proof.
  unfold next_line. rewrite bind_get. destruct (loc_line (loc s)) as [n|]; [|reflexivity].
  rewrite bind_get. destruct (store_after n s); reflexivity.
Qed.

Lemma next_line_eq s n : loc_line (loc s) = Some n ->
  next_line s = match keys_after n (st_keys s) with
                | Some n' => (Ok true, set_loc (mkloc (Some n') 0) s)
                | None => (Ok false, s)
                end.
Proof. intros Hl. rewrite next_line_cases, Hl. reflexivity. Qed.

Lemma next_line_imm s : loc_line (loc s) = None -> next_line s = (Ok false, s).
Proof. intros Hl. rewrite next_line_cases, Hl. reflexivity. Qed.

Lemma cur_toks_same s s' :
  st_toks s' = st_toks s -> immediate s' = immediate s -> loc_line (loc s') = loc_line (loc s) ->
  cur_toks s' = cur_toks s.
Proof. unfold cur_toks. intros -> -> ->. reflexivity. Qed.

Lemma er_peek : orel ERw peek_next_token.
Proof.
  intros s Hwf. rewrite (peek_eq s (wf_loc _ Hwf)). cbn [fst snd forget].
  apply ER_frame; auto; reflexivity.
Qed.

Lemma er_cur_tokens : orel ERw cur_tokens.
Proof.
  intros s Hwf. rewrite (cur_tokens_eq s (wf_loc _ Hwf)). cbn [fst snd forget].
  apply (oc_ok _ ERw_ocat); exact Hwf.
Qed.

Lemma er_advance : orel ERw advance.
Proof.
  apply orel_modify. intros s Hwf. split; try reflexivity; try discriminate.
  - apply wf_set_loc; [exact Hwf|]. exact (wf_loc _ Hwf).
  - intros _. proj_simpl. split; [reflexivity|lia].
Qed.

Lemma er_fail_at_loc {A} e : orel ERw (l <- get loc ;; @fail_at A e l).
Proof.
  intros s Hwf. cbn. split; auto; try discriminate.
  intros e' l' H. inversion H; subst. exact (wf_loc _ Hwf).
Qed.

Create HintDb erdb discriminated.
#[export] Hint Resolve er_peek er_cur_tokens er_advance er_fail_at_loc : erdb.

Ltac er_leaf := solve [ auto 2 with erdb nocore | frame_tac ].
Ltac er_walk := orel_walk ERw_ocat er_leaf.

Lemma er_has_next : orel ERw has_next_token.
Proof. unfold has_next_token; er_walk. Qed.
Lemma er_next_token : orel ERw next_token.
Proof. unfold next_token; er_walk. Qed.
#[export] Hint Resolve er_has_next er_next_token : erdb.
Lemma er_next_unwrapped : orel ERw next_unwrapped_token.
Proof. unfold next_unwrapped_token; er_walk. Qed.
#[export] Hint Resolve er_next_unwrapped : erdb.
Lemma er_expect t : orel ERw (expect_next_token t).
Proof. unfold expect_next_token; er_walk. Qed.
Lemma er_accept t : orel ERw (accept_next_token t).
Proof. unfold accept_next_token; er_walk. Qed.
Lemma er_peek_is t : orel ERw (peek_is t).
Proof. unfold peek_is; er_walk. Qed.
Lemma er_try {B} (g : token -> option B) : orel ERw (try_next_token g).
Proof. unfold try_next_token; er_walk. Qed.
#[export] Hint Resolve er_expect er_accept er_peek_is er_try : erdb.

Lemma er_find_var n : orel ERw (find_variable_value_in_stack n).
Proof. unfold find_variable_value_in_stack; er_walk. Qed.
Lemma er_variables_get n : orel ERw (variables_get n).
Proof. unfold variables_get; er_walk. Qed.
Lemma er_push_output o : orel ERw (push_output o).
Proof. unfold push_output; er_walk. Qed.
Lemma er_get_line_number : orel ERw get_line_number.
Proof. unfold get_line_number; er_walk. Qed.
#[export] Hint Resolve er_find_var er_variables_get er_push_output er_get_line_number : erdb.
Lemma er_warn m : orel ERw (warn m).
Proof. unfold warn; er_walk. Qed.
#[export] Hint Resolve er_warn : erdb.
Lemma er_maybe_warn n : orel ERw (maybe_warn_undeclared_array n).
Proof. unfold maybe_warn_undeclared_array; er_walk. Qed.
Lemma er_rng_rnd x : orel ERw (rng_rnd x).
Proof. unfold rng_rnd; er_walk. Qed.
Lemma er_eval_unary o v : orel ERw (eval_unary o v).
Proof. unfold eval_unary; er_walk. Qed.
Lemma er_eval_addsub o a b : orel ERw (eval_addsub o a b).
Proof. unfold eval_addsub; er_walk. Qed.
Lemma er_eval_muldiv o a b : orel ERw (eval_muldiv o a b).
Proof. unfold eval_muldiv; er_walk. Qed.
Lemma er_eval_eq o a b : orel ERw (eval_eq o a b).
Proof. unfold eval_eq; er_walk. Qed.
Lemma er_eval_and a b : orel ERw (eval_and a b).
Proof. unfold eval_and; er_walk. Qed.
Lemma er_eval_or a b : orel ERw (eval_or a b).
Proof. unfold eval_or; er_walk. Qed.
Lemma er_eval_pow a b : orel ERw (eval_pow a b).
Proof. unfold eval_pow; er_walk. Qed.
Lemma er_expect_number v : orel ERw (expect_number v).
Proof. unfold expect_number; er_walk. Qed.
#[export] Hint Resolve er_maybe_warn er_rng_rnd er_eval_unary er_eval_addsub er_eval_muldiv er_eval_eq
  er_eval_and er_eval_or er_eval_pow er_expect_number : erdb.

(* pure results that are either a value or an error without location *)
Definition res_plain {A} (r : res A) : Prop :=
  match r with Ok _ | Err _ None => True | _ => False end.

Lemma er_lift_res {A} (r : res A) : res_plain r -> orel ERw (lift_res r).
Proof.
  intros H s. unfold lift_res; cbn [fst snd].
  destruct r as [a|e [l|]|p| |]; cbn in H; try contradiction; cbn [forget].
  - apply (oc_ok _ ERw_ocat).
  - apply (oc_err _ ERw_ocat).
Qed.

(* arrays: PArrayUnwrap and PCellIndex *)

Lemma dims_prod_fold l : dims_prod l = fold_right N.mul 1%N l.
Proof. induction l as [|d l IH]; cbn [dims_prod fold_right]; [|rewrite IH]; reflexivity. Qed.

Lemma array_create_value_plain name mi : res_plain (array_create_value name mi).
Proof.
  unfold array_create_value. destruct mi as [|m mi]; [exact I|].
  destruct (existsb _ _); [exact I|].
  destruct (checked_product _ _); [|exact I].
  destruct (max_dim_total <? n)%N; exact I.
Qed.

Lemma created_arr_ok name mi a : array_create_value name mi = Ok a -> arr_ok a.
Proof.
  intros H. destruct (Caps.array_create_value_ok name mi a H) as (_ & Hlen & _).
  unfold arr_ok. rewrite dims_prod_fold. exact Hlen.
Qed.

Lemma array_linear_index_plain a idx : res_plain (array_linear_index a idx).
Proof.
  unfold array_linear_index. destruct (negb _); [exact I|]. destruct (linear_index _ _ _ _); exact I.
Qed.

Lemma array_linear_index_bound a idx i :
  arr_ok a -> array_linear_index a idx = Ok i -> N.to_nat i < length (ar_cells a).
Proof.
  unfold array_linear_index, arr_ok. intros Hok.
  destruct (Nat.eqb (length idx) (length (ar_dims a))) eqn:E; cbn [negb]; [|discriminate].
  apply Nat.eqb_eq in E.
  destruct (linear_index idx (ar_dims a) 0 1) as [j|] eqn:El; [|discriminate].
  intros H; inversion H; subst. apply Caps.linear_index_lt in El; [|exact E|lia].
  rewrite dims_prod_fold in Hok. unfold Caps.dims_product in El. lia.
Qed.

Lemma ER_set_arrays v s : Forall (fun kv => arr_ok (snd kv)) v -> ERw s (Ok tt) (set_arrays v s).
Proof.
  intros Hv Hwf. split; try reflexivity; try discriminate.
  - apply wf_set_arrays; assumption.
  - intros _; split; [reflexivity|apply le_n].
Qed.

Lemma arr_ok_of_get s name a : wf s -> alist_get name (arrays s) = Some a -> arr_ok a.
Proof.
  intros Hwf Hg. destruct (Forall_alist_get _ _ _ _ (wf_arrays _ Hwf) Hg) as [k H]. exact H.
Qed.

(* the common tail of DIM and of the default array *)
Lemma er_new_array name mi :
  orel ERw (a <- lift_res (array_create_value name mi) ;;
            modify (fun s => set_arrays (alist_set name a (arrays s)) s)).
Proof.
  intros s Hwf. rewrite bind_run. unfold lift_res.
  pose proof (array_create_value_plain name mi) as Hp.
  destruct (array_create_value name mi) as [a|e [l|]|p| |] eqn:E; cbn in Hp; try contradiction.
  - unfold modify; cbn [fst snd forget]. apply ER_set_arrays; [|exact Hwf].
    apply Forall_alist_set; [|exact (wf_arrays _ Hwf)].
    intros k; cbn [snd]. eapply created_arr_ok; exact E.
  - cbn [fst snd forget]. apply (oc_err _ ERw_ocat); exact Hwf.
Qed.
#[export] Hint Resolve er_new_array : erdb.

Lemma sp_maybe_default name d :
  ospec (fun _ => True) ERw (maybe_create_default_array name d) (fun _ s' => alist_has name (arrays s') = true).
Proof.
  apply ospec_post; [unfold maybe_create_default_array; er_walk|].
  intros s u s' _. unfold maybe_create_default_array. rewrite bind_get.
  destruct (alist_has name (arrays s)) eqn:Hh; [intros E; inversion E; subst; exact Hh|].
  rewrite bind_run. unfold lift_res.
  destruct (array_create_value name (repeat DEFAULT_ARRAY_SIZE d)) as [a|e l|p| |]; try discriminate.
  intros E; inversion E. unfold alist_has; proj_simpl. rewrite alist_get_set_same. reflexivity.
Qed.

Lemma er_maybe_default name d : orel ERw (maybe_create_default_array name d).
Proof. exact (orel_ospec _ _ _ (sp_maybe_default name d)). Qed.

Lemma er_arrays_get name idx : orel ERw (arrays_get name idx).
Proof.
  unfold arrays_get. eapply (orel_ospec _ _ (fun _ _ => True)), (ospec_bind _ ERw_ocat); [apply sp_maybe_default|].
  - intros _ s Hhas. split; [|trivial]. intros Hwf. rewrite bind_get. unfold alist_has in Hhas.
    destruct (alist_get name (arrays s)) as [a|] eqn:Hg; [|discriminate].
    rewrite bind_run. unfold lift_res.
    pose proof (array_linear_index_plain a idx) as Hp.
    destruct (array_linear_index a idx) as [i|e [l|]|p| |] eqn:E; cbn in Hp; try contradiction.
    + pose proof (array_linear_index_bound a idx i (arr_ok_of_get _ _ _ Hwf Hg) E) as Hlt.
      destruct (nth_error (ar_cells a) (N.to_nat i)) as [v|] eqn:En.
      * apply (oc_ok _ ERw_ocat); exact Hwf.
      * apply nth_error_None in En. lia.
    + apply (oc_err _ ERw_ocat); exact Hwf.
Qed.

Lemma er_arrays_set name idx v : orel ERw (arrays_set name idx v).
Proof.
  unfold arrays_set. destruct (negb (type_matches name v)); [apply (orel_fail _ ERw_ocat)|].
  eapply (orel_ospec _ _ (fun _ _ => True)), (ospec_bind _ ERw_ocat); [apply sp_maybe_default|].
  - intros _ s Hhas. split; [|trivial]. intros Hwf. rewrite bind_get. unfold alist_has in Hhas.
    destruct (alist_get name (arrays s)) as [a|] eqn:Hg; [|discriminate].
    destruct (negb (Bool.eqb _ _)); [apply (oc_err _ ERw_ocat); exact Hwf|].
    rewrite bind_run. unfold lift_res.
    pose proof (array_linear_index_plain a idx) as Hp.
    destruct (array_linear_index a idx) as [i|e [l|]|p| |] eqn:E; cbn in Hp; try contradiction.
    + pose proof (array_linear_index_bound a idx i (arr_ok_of_get _ _ _ Hwf Hg) E) as Hlt.
      apply Nat.ltb_lt in Hlt. rewrite Hlt. unfold modify; cbn [fst snd forget].
      apply ER_set_arrays; [|exact Hwf].
      apply Forall_alist_set; [|exact (wf_arrays _ Hwf)].
      intros k; cbn [snd]. unfold arr_ok; cbn [ar_cells ar_dims]. rewrite Caps.list_update_length.
      exact (arr_ok_of_get _ _ _ Hwf Hg).
    + apply (oc_err _ ERw_ocat); exact Hwf.
Qed.

Lemma er_arrays_create name mi : orel ERw (arrays_create name mi).
Proof. unfold arrays_create; er_walk. Qed.
#[export] Hint Resolve er_maybe_default er_arrays_get er_arrays_set er_arrays_create : erdb.

Lemma er_variables_set n v : orel ERw (variables_set n v).
Proof. unfold variables_set; er_walk. Qed.
#[export] Hint Resolve er_variables_set : erdb.

Lemma er_assign lv v : orel ERw (assign_value lv v).
Proof. unfold assign_value; er_walk. Qed.

(* error locations name existing lines *)

Lemma data_location_ok s l : wf s -> get_data_location s = Some l -> line_exists s l.
Proof.
  intros Hwf. unfold get_data_location. destruct (data_it s) as [d|] eqn:Hd; [|discriminate].
  destruct (nth_error (di_chunks d) (di_ci d)) as [[l0 items]|] eqn:En; [|discriminate].
  intros H; inversion H; subst. pose proof (wf_data _ Hwf _ Hd) as Hall.
  rewrite Forall_forall in Hall. apply nth_error_In in En. exact (Hall _ En).
Qed.

Lemma populate_loc_ok s e l l' :
  wf s -> (forall l0, l = Some l0 -> line_exists s l0) ->
  populate_error_location e l s = Some l' -> line_exists s l'.
Proof.
  intros Hwf Hl. unfold populate_error_location. destruct l as [l0|].
  - intros H; inversion H; subst. apply Hl; reflexivity.
  - destruct e; try (intros H; inversion H; subst; exact (wf_loc _ Hwf)).
    apply data_location_ok; exact Hwf.
Qed.

(* user-defined function calls: PFunctionMustExist and PStackEmpty *)

Lemma pop_frame_eq s st fr :
  stack s = st ++ [fr] -> pop_function_call s = (Ok tt, set_loc (fr_ret fr) (set_stack st s)).
Proof. intros H. rewrite Caps.pop_eq, H, rev_unit, rev_involutive. reflexivity. Qed.

Lemma wf_stack_split s st fr :
  wf s -> stack s = st ++ [fr] ->
  Forall (fun fr => line_exists s (fr_ret fr)) st /\ line_exists s (fr_ret fr).
Proof.
  intros Hwf H. pose proof (wf_stack _ Hwf) as Hall. rewrite H in Hall.
  apply Forall_app in Hall. destruct Hall as [H1 H2]. split; [exact H1|]. inversion H2; assumption.
Qed.

Lemma wf_pop_frame s st fr : wf s -> stack s = st ++ [fr] -> wf (set_loc (fr_ret fr) (set_stack st s)).
Proof.
  intros Hwf H. destruct (wf_stack_split s st fr Hwf H) as [F1 F2].
  apply wf_set_loc; [apply wf_set_stack; assumption | exact F2].
Qed.

Definition fn_known (name : bytes) (d : fn_def) (s : interp) : Prop :=
  alist_get name (functions s) = Some d.

Lemma wf_push_frame name d b s :
  wf s -> fn_known name d s ->
  wf (set_loc (mkloc (Some (fn_line d)) (fn_idx d)) (set_stack (stack s ++ [mkframe (loc s) b]) s)).
Proof.
  intros Hwf Hd. apply wf_set_loc; [apply wf_set_stack; [exact Hwf|]|].
  - apply Forall_app; split; [exact (wf_stack _ Hwf)|]. constructor; [exact (wf_loc _ Hwf)|constructor].
  - destruct (Forall_alist_get _ _ _ _ (wf_fns _ Hwf) Hd) as [k H]. exact H.
Qed.

(* the function table is the same after every step of an expression *)
Lemma fn_known_carried {A} name d (m : M A) :
  orel ERw m -> ospec (fun s => wf s /\ fn_known name d s) ERw m (fun _ s' => wf s' /\ fn_known name d s').
Proof.
  apply ospec_carried; [auto|]. intros s s' [Hwf Hf] H. destruct (H Hwf) as [A1 A2 A3 A4 A5 A6 A7 A8 A9].
  split; [exact A1|]. unfold fn_known. rewrite A5. exact Hf.
Qed.

(* [ER] for the body of a user-function call, entered with the frame [fr] on top of [st]: the stack comes back
   to [st] and the cursor to the frame's return address, not to where the body began *)
Record CB (s : interp) (st : list frame) (ret_loc : location) (r : res unit) (s' : interp) : Prop := {
  cb_wf : wf s';
  cb_toks : st_toks s' = st_toks s;
  cb_keys : st_keys s' = st_keys s;
  cb_imm : immediate s' = immediate s;
  cb_fns : functions s' = functions s;
  cb_nopanic : forall p, r <> Panic p;
  cb_errloc : forall e l, r = Err e (Some l) -> line_exists s' l;
  cb_stack : is_val r -> stack s' = st;
  cb_loc : r = Ok tt -> loc s' = ret_loc }.

Section ExprSafe.
  Variable fuel : nat.
  Variable rec : M value.
  Hypothesis Hrec : orel ERw rec.

  Lemma er_bind_arguments args : forall i n b, orel ERw (bind_arguments rec args i n b).
  Proof.
    induction args as [|a args IH]; intros i n b; cbn [bind_arguments]; er_walk.
  Qed.

  Lemma call_body_spec s st fr :
    wf s -> stack s = st ++ [fr] ->
    CB s st (fr_ret fr) (forget (fst (call_body rec s))) (snd (call_body rec s)).
  Proof.
    intros Hwf Hst. unfold call_body. destruct (Hrec s Hwf) as [A1 A2 A3 A4 A5 A6 A7 A8 A9].
    destruct (rec s) as [[v|e l|p| |] s1]; cbn [fst snd forget] in *.
    - assert (Hst1 : stack s1 = st ++ [fr]) by (rewrite A8; auto; exact I).
      rewrite (pop_frame_eq s1 st fr Hst1). cbn [fst snd forget].
      split; proj_simpl; auto using wf_pop_frame; discriminate.
    - assert (Hst1 : stack s1 = st ++ [fr]) by (rewrite A8; auto; exact I).
      rewrite (pop_frame_eq s1 st fr Hst1). cbn [fst snd forget].
      split; proj_simpl; auto using wf_pop_frame; try discriminate.
      intros e0 l0 H; inversion H; subst.
        apply (populate_loc_ok s1 e0 l l0 A1); [|assumption].
        intros l1 ->. eapply A7; reflexivity.
    - exfalso; eapply A6; reflexivity.
    - split; auto; try discriminate. intros [].
    - split; auto; try discriminate. intros [].
  Qed.

  Lemma er_call_tail name d b :
    orelP (fun s => wf s /\ fn_known name d s) ERw
          (push_function_call name b ;;; v <- call_body rec ;; ret (Some v)).
  Proof.
    intros s [Hwf Hd] _. rewrite bind_run, Caps.push_eq, (Hd : alist_get _ _ = _). cbv zeta.
    destruct (Nat.eqb (length (stack s)) stack_limit); [apply (oc_err _ ERw_ocat); exact Hwf|].
    set (s1 := set_loc _ _).
    assert (Hwf1 : wf s1) by (apply (wf_push_frame name); assumption).
    rewrite bind_run.
    destruct (call_body_spec s1 (stack s) (mkframe (loc s) b) Hwf1 eq_refl) as [C1 C2 C3 C4 C5 C6 C7 C8 C9].
    destruct (call_body rec s1) as [[v|e l|p| |] s2]; cbn [fst snd forget ret] in *;
      subst s1; proj_simpl; (split; auto; try discriminate).
    - intros _. rewrite C9 by reflexivity. cbn [fr_ret]. split; [reflexivity|apply le_n].
  Qed.

  Lemma er_user_function_call name : orel ERw (user_function_call rec name).
  Proof.
    intros s Hwf. unfold user_function_call. rewrite bind_get.
    destruct (alist_get name (functions s)) as [d|] eqn:Hd; [|apply (oc_ok _ ERw_ocat); exact Hwf].
    enough (H : ospec (fun s => wf s /\ fn_known name d s) ERw
                  (expect_next_token TLeftParen ;;;
                   bindings <- bind_arguments rec (fn_args d) 0 (length (fn_args d)) [] ;;
                   expect_next_token TRightParen ;;;
                   push_function_call name bindings ;;;
                   v <- call_body rec ;; ret (Some v)) (fun _ _ => True))
      by (apply H; [split; assumption|exact Hwf]).
    eapply (ospec_bind _ ERw_ocat); [apply fn_known_carried, er_expect | intros ?].
    eapply (ospec_bind _ ERw_ocat); [apply fn_known_carried, er_bind_arguments | intros b].
    eapply (ospec_bind _ ERw_ocat); [apply fn_known_carried, er_expect | intros ?].
    intros s1 HP. split; [exact (er_call_tail name d b s1 HP) | trivial].
  Qed.

  Lemma er_array_index : orel ERw (evaluate_array_index fuel rec).
  Proof. unfold evaluate_array_index; er_walk. Qed.

  Lemma er_unary_arg : orel ERw (unary_number_function_arg rec).
  Proof. unfold unary_number_function_arg; er_walk. Qed.

  Lemma er_function_call name : orel ERw (function_call rec name).
  Proof.
    unfold function_call.
    orel_walk ERw_ocat ltac:(first [ apply er_unary_arg | apply er_user_function_call | er_leaf ]).
  Qed.

  Lemma er_term : orel ERw (expression_term fuel rec).
  Proof.
    unfold expression_term.
    orel_walk ERw_ocat ltac:(first [ apply er_function_call | apply er_array_index | er_leaf ]).
  Qed.

  Lemma er_paren : orel ERw (parenthesized_expression fuel rec).
  Proof. unfold parenthesized_expression. orel_walk ERw_ocat ltac:(first [ apply er_term | er_leaf ]). Qed.

  Lemma er_unary : orel ERw (unary_operator fuel rec).
  Proof. unfold unary_operator. orel_walk ERw_ocat ltac:(first [ apply er_paren | er_leaf ]). Qed.

  Lemma er_tier {O} (g : M (option O)) (operand : M value) (ap : O -> value -> value -> M value) :
    orel ERw g -> orel ERw operand -> (forall o a b, orel ERw (ap o a b)) ->
    orel ERw (tier fuel g operand ap).
  Proof. intros Hg Ho Ha. unfold tier; er_walk. Qed.

  Lemma er_accept_as {O} t (o : O) : orel ERw (accept_as t o).
  Proof. unfold accept_as; er_walk. Qed.

  Lemma er_logical_or : orel ERw (logical_or_expression fuel rec).
  Proof.
    apply (tiers_ind fuel rec (orel ERw));
      [ intros; apply er_tier; [first [apply er_accept_as | apply er_try] | assumption | intros; er_leaf] ..
      | exact er_unary ].
  Qed.
End ExprSafe.

Lemma er_evaluate_expression fuel : forall n, orel ERw (evaluate_expression fuel n).
Proof.
  induction fuel as [|k IH]; intros n; cbn [evaluate_expression].
  - apply (orel_out_of_fuel _ ERw_ocat).
  - destruct (Nat.eqb n max_nesting); [apply (orel_fail _ ERw_ocat)|].
    apply er_logical_or; apply IH.
Qed.
#[export] Hint Resolve er_evaluate_expression : erdb.

(* What a STATEMENT does: it may jump, push, pop and define, so of [ER] only this is left *)
Record SR (s : interp) (r : res unit) (s' : interp) : Prop := {
  sr_wf : wf s';
  sr_toks : st_toks s' = st_toks s;
  sr_keys : st_keys s' = st_keys s;
  sr_nopanic : forall p, r <> Panic p;
  sr_errloc : forall e l, r = Err e (Some l) -> line_exists s' l }.

Definition SRw (s : interp) (r : res unit) (s' : interp) : Prop := wf s -> SR s r s'.

Lemma SRw_ocat : ocat SRw.
Proof.
  split.
  - intros s Hwf. split; auto; discriminate.
  - intros a b c r H1 H2 Hwf.
    destruct (H1 Hwf) as [A1 A2 A3 A4 A5]. destruct (H2 A1) as [B1 B2 B3 B4 B5].
    split; [exact B1|congruence|congruence|exact B4|exact B5].
  - intros s e Hwf. split; auto; discriminate.
  - intros s Hwf. split; auto; discriminate.
  - intros s Hwf. split; auto; discriminate.
Qed.

Lemma ER_SR s r s' : ERw s r s' -> SRw s r s'.
Proof. intros H Hwf. destruct (H Hwf) as [A1 A2 A3 A4 A5 A6 A7 A8 A9]. split; assumption. Qed.

Lemma sr_of_er {A} (m : M A) : orel ERw m -> orel SRw m.
Proof. apply orel_weaken. exact ER_SR. Qed.

Lemma sr_of_orelP_wf {A} (m : M A) : orelP wf SRw m -> orel SRw m.
Proof. intros H s Hwf. exact (H s Hwf Hwf). Qed.

(* what is left to show of a primitive whose run is given by an equation: the state it leaves is well-formed *)
Lemma SR_plain s (r : res unit) s' :
  res_plain r -> st_toks s' = st_toks s -> st_keys s' = st_keys s -> wf s' -> SR s r s'.
Proof.
  intros Hr Ht Hk Hwf. split; try assumption; [intros p -> | intros e l ->]; destruct Hr.
Qed.

(* strips the setters one by one; the second case is a setter of a field
   that [wf] does not read *)
Ltac wf_solve :=
  repeat first
    [ assumption
    | lazymatch goal with |- wf (_ ?s) => apply (wf_ext s); [reflexivity ..|] end
    | apply wf_set_breakpoint; [| discriminate]
    | apply wf_set_data_it; [| discriminate]
    | apply wf_set_functions; [| constructor]
    | apply wf_set_stack; [| constructor]
    | apply wf_set_loops; [| constructor]
    | apply wf_set_arrays; [| constructor]
    | apply wf_set_loc; [| exact I] ].

Lemma wf_imm_reset ts s : wf s -> wf (imm_reset ts s).
Proof. intros Hwf. unfold imm_reset. destruct (breakpoint s); wf_solve. Qed.

Ltac sr_modify_tac :=
  apply (orel_modify SRw); intros ?s ?Hwf;
  split; [wf_solve | reflexivity | reflexivity | discriminate | discriminate].

Create HintDb srdb discriminated.

#[export] Hint Resolve sr_of_er : srdb.

Ltac sr_leaf :=
  idtac; lazymatch goal with
  | |- orel _ (modify _) => first [ solve [ apply sr_of_er; frame_tac ] | solve [ sr_modify_tac ] ]
  | |- _ => solve [ auto 2 with srdb erdb nocore ]
  end.
Ltac sr_walk := orel_walk SRw_ocat sr_leaf.

Lemma sr_set_imm ts : orel SRw (set_and_goto_immediate_line ts).
Proof.
  rewrite set_imm_is_modify. apply orel_modify. intros s Hwf.
  pose proof (imm_reset_same_store ts s) as [H1 H2].
  split; [apply wf_imm_reset; exact Hwf|exact H1|exact H2|discriminate|discriminate].
Qed.
#[export] Hint Resolve sr_set_imm : srdb.

Lemma sr_program_end : orel SRw program_end.
Proof. unfold program_end; sr_walk. Qed.
Lemma sr_reset_data : orel SRw reset_data_cursor.
Proof. unfold reset_data_cursor; sr_walk. Qed.
#[export] Hint Resolve sr_program_end sr_reset_data : srdb.

Lemma sr_discard : orel SRw discard_remaining_tokens.
Proof.
  unfold discard_remaining_tokens. apply (orel_bind _ SRw_ocat); [sr_leaf|intros ts].
  apply orel_modify. intros s Hwf.
  split; [|reflexivity|reflexivity|discriminate|discriminate].
  apply wf_set_loc; [exact Hwf|exact (wf_loc _ Hwf)].
Qed.
#[export] Hint Resolve sr_discard : srdb.

Lemma sr_variables_set n v : orel SRw (variables_set n v).
Proof. unfold variables_set; sr_walk. Qed.
#[export] Hint Resolve sr_variables_set : srdb.

Lemma drop_loop_same sym s : st_toks (Caps.drop_loop sym s) = st_toks s /\ st_keys (Caps.drop_loop sym s) = st_keys s.
Proof. unfold Caps.drop_loop. destruct (find_loop_rev sym (loops s)); split; reflexivity. Qed.

Lemma wf_drop_loop sym s : wf s -> wf (Caps.drop_loop sym s).
Proof.
  intros Hwf. unfold Caps.drop_loop. destruct (find_loop_rev sym (loops s)); [|exact Hwf].
  apply wf_set_loops; [exact Hwf | apply Forall_firstn', (wf_loops _ Hwf)].
Qed.

Lemma SR_drop_loop sym s r : res_plain r -> wf s -> SR s r (Caps.drop_loop sym s).
Proof. intros Hr Hwf. destruct (drop_loop_same sym s). apply SR_plain; auto using wf_drop_loop. Qed.

Lemma sr_remove_loop sym : orel SRw (remove_loop_with_name sym).
Proof. intros s Hwf. rewrite Caps.remove_loop_eq. apply SR_drop_loop; [exact I | exact Hwf]. Qed.
#[export] Hint Resolve sr_remove_loop : srdb.

Lemma wf_push_loop li s : wf s -> line_exists s (lp_loc li) -> wf (set_loops (loops s ++ [li]) s).
Proof.
  intros Hwf Hl. apply wf_set_loops; [exact Hwf|].
  apply Forall_app; split; [exact (wf_loops _ Hwf) | constructor; [exact Hl | constructor]].
Qed.

Lemma sr_start_loop sym a b c : orel SRw (start_loop sym a b c).
Proof.
  intros s Hwf. rewrite Caps.start_loop_eq. cbv zeta. pose proof (wf_drop_loop sym s Hwf) as H1.
  destruct (Nat.eqb _ stack_limit); [apply SR_drop_loop; [exact I | exact Hwf]|].
  eapply (oc_trans _ SRw_ocat); [|apply sr_variables_set|exact Hwf].
  intros _. destruct (drop_loop_same sym s). apply SR_plain; [exact I | assumption..|].
  apply wf_push_loop; [exact H1 | exact (wf_loc _ H1)].
Qed.

Lemma sr_end_loop sym : orel SRw (end_loop sym).
Proof.
  intros s Hwf. rewrite Caps.end_loop_eq.
  destruct (match alist_get sym _ with Some v => v | None => _ end); [apply (oc_err _ SRw_ocat), Hwf|]. cbv zeta.
  destruct (match find_loop_rev sym _ with Some i => _ | None => _ end) as [li|] eqn:El;
    [|apply SR_drop_loop; [exact I | exact Hwf]].
  eapply (oc_trans _ SRw_ocat); [|apply sr_variables_set|exact Hwf].
  intros _. destruct (if f64_leb _ _ then _ else _); [|apply SR_drop_loop; [exact I | exact Hwf]].
  (* the loop goes on from where its FOR stands, a line that exists *)
  pose proof (wf_drop_loop sym s Hwf) as H1. destruct (drop_loop_same sym s) as [Ht Hk].
  assert (Hl : line_exists (Caps.drop_loop sym s) (lp_loc li)).
  { apply (line_exists_same s _ _ Ht). pose proof (wf_loops _ Hwf) as Hall. rewrite Forall_forall in Hall.
    exact (Hall _ (proj1 (Caps.removed_loop_spec _ _ _ El))). }
  apply SR_plain; [exact I | exact Ht | exact Hk |]. apply (wf_push_loop li (set_loc _ _)); [apply wf_set_loc|]; assumption.
Qed.
#[export] Hint Resolve sr_start_loop sr_end_loop : srdb.

Lemma wf_goto n s : wf s -> store_has n s = true -> wf (set_loc (mkloc (Some n) 0) (set_breakpoint None s)).
Proof.
  intros Hwf H. apply wf_set_loc; [wf_solve|]. unfold store_has in H. unfold line_exists, line_ok; proj_simpl.
  destruct (toks_get n (st_toks s)); [discriminate | discriminate H].
Qed.

Lemma sr_goto n : orel SRw (goto_line_number n).
Proof.
  intros s Hwf. rewrite Caps.goto_eq. destruct (store_has n s) eqn:E; (apply SR_plain; [exact I | reflexivity..|]);
    [apply wf_goto; assumption | wf_solve].
Qed.
#[export] Hint Resolve sr_goto : srdb.

Lemma wf_push_stack fr s : wf s -> line_exists s (fr_ret fr) -> wf (set_stack (stack s ++ [fr]) s).
Proof.
  intros Hwf Hl. apply wf_set_stack; [exact Hwf|].
  apply Forall_app; split; [exact (wf_stack _ Hwf) | constructor; [exact Hl | constructor]].
Qed.

Lemma sr_gosub n : orel SRw (gosub_line_number n).
Proof.
  intros s Hwf. rewrite Caps.gosub_eq. destruct (Nat.eqb _ stack_limit); [apply (oc_err _ SRw_ocat), Hwf|].
  destruct (store_has n s) eqn:E; (apply SR_plain; [exact I | reflexivity..|]); [|wf_solve].
  apply (wf_push_stack (mkframe (loc s) []) (set_loc _ (set_breakpoint None s))); [apply wf_goto; assumption | exact (wf_loc _ Hwf)].
Qed.

Lemma sr_return : orel SRw return_to_last_gosub.
Proof.
  intros s Hwf. rewrite Caps.return_eq.
  destruct (rev (stack s)) as [|fr rest] eqn:E; (apply SR_plain; [exact I | reflexivity..|]); [wf_solve|].
  destruct (Caps.Forall_rev_cons _ _ _ _ E (wf_stack _ Hwf)) as [F2 F1].
  apply wf_set_loc; [apply wf_set_stack; [wf_solve|exact F1]|exact F2].
Qed.
#[export] Hint Resolve sr_gosub sr_return : srdb.

Lemma sr_define_function name args : orel SRw (define_function name args).
Proof.
  intros s Hwf. rewrite Caps.define_function_eq.
  pose proof (wf_loc _ Hwf) as Hl. unfold line_exists, line_ok in Hl.
  destruct (loc_line (loc s)) as [n|]; [|apply (oc_err _ SRw_ocat); exact Hwf].
  apply SR_plain; [exact I | reflexivity..|]. apply wf_set_functions; [exact Hwf|].
  apply Forall_alist_set; [|exact (wf_fns _ Hwf)]. intros k; cbn [snd fn_line]. exact Hl.
Qed.
#[export] Hint Resolve sr_define_function : srdb.

Lemma sr_program_break : orel SRw program_break_at_current_location.
Proof.
  intros s Hwf. rewrite Caps.program_break_eq. set (s1 := set_breakpoint _ s).
  destruct (imm_reset_same_store [] s1). apply SR_plain; [exact I | assumption..|].
  apply wf_imm_reset, wf_set_breakpoint; [exact Hwf|]. intros p. unfold numbered_of.
  pose proof (wf_loc _ Hwf) as Hl. unfold line_exists, line_ok in Hl.
  destruct (loc_line (loc s)) as [n|]; [|discriminate]. intros Hp; inversion Hp; subst. exact Hl.
Qed.
#[export] Hint Resolve sr_program_break : srdb.

Lemma sr_continue_bp : orel SRw continue_from_breakpoint.
Proof.
  intros s Hwf. rewrite Caps.continue_bp_eq.
  pose proof (wf_imm_reset [] s Hwf) as Hwf1. destruct (imm_reset_same_store [] s) as [H1 H2].
  destruct (breakpoint s) as [p|] eqn:E; (apply SR_plain; [exact I | assumption..|]); [|exact Hwf1].
  apply wf_set_breakpoint; [|discriminate]. apply wf_set_loc; [exact Hwf1|].
  unfold line_exists, line_ok, loc_of_numbered; cbn [loc_line]. rewrite H1. exact (wf_bp _ Hwf _ E).
Qed.

Lemma sr_reset_runtime : orel SRw reset_runtime_state.
Proof. unfold reset_runtime_state; sr_walk. Qed.
#[export] Hint Resolve sr_continue_bp sr_reset_runtime : srdb.

Lemma sr_run_from_first : orel SRw run_from_first_numbered_line.
Proof.
  unfold run_from_first_numbered_line. apply (orel_bind _ SRw_ocat); [sr_leaf|intros _].
  apply orel_modify. intros s Hwf. unfold store_first.
  destruct (st_keys s) as [|n ks] eqn:E; cbn [hd_error]; [apply (oc_ok _ SRw_ocat); exact Hwf|].
  split; [|reflexivity|reflexivity|discriminate|discriminate].
  apply wf_set_loc; [exact Hwf|]. unfold line_exists, line_ok; cbn [loc_line].
  destruct (wf_store _ Hwf) as (_ & Hk & _). apply Hk. rewrite E; left; reflexivity.
Qed.

Lemma keys_after_In n l m : keys_after n l = Some m -> In m l.
Proof.
  induction l as [|k l IH]; cbn [keys_after]; [discriminate|].
  destruct (n <? k)%N; [intros H; inversion H; left; reflexivity|intros H; right; auto].
Qed.

Lemma sr_next_line : orel SRw next_line.
Proof.
  intros s Hwf. rewrite next_line_cases.
  destruct (loc_line (loc s)) as [n|]; [|apply (oc_ok _ SRw_ocat); exact Hwf]. unfold store_after.
  destruct (keys_after n (st_keys s)) as [m|] eqn:E; [|apply (oc_ok _ SRw_ocat); exact Hwf].
  apply SR_plain; [exact I | reflexivity..|].
  apply wf_set_loc; [exact Hwf|]. unfold line_exists, line_ok; cbn [loc_line].
  destruct (wf_store _ Hwf) as (_ & Hk & _). apply Hk. eapply keys_after_In; exact E.
Qed.
#[export] Hint Resolve sr_run_from_first sr_next_line : srdb.

(* DATA: PListUnwrap in data_iterator *)

Lemma data_chunks_of_line_locs n ts : forall i,
  Forall (fun c => loc_line (fst c) = Some n) (data_chunks_of_line n ts i).
Proof.
  induction ts as [|t ts IH]; intros i; cbn [data_chunks_of_line]; [constructor|].
  destruct t; try apply IH. constructor; [reflexivity|apply IH].
Qed.

Lemma data_chunks_ok toks keys :
  (forall n, In n keys -> toks_get n toks <> None) ->
  exists cs, data_chunks keys toks = Ok cs /\ Forall (fun c => line_ok toks (loc_line (fst c))) cs.
Proof.
  induction keys as [|n keys IH]; intros H; cbn [data_chunks].
  - exists []; split; [reflexivity|constructor].
  - destruct (toks_get n toks) as [ts|] eqn:E; [|exfalso; apply (H n); [left; reflexivity|exact E]].
    destruct IH as (cs & Hc & Hall); [intros k Hk; apply H; right; exact Hk|].
    rewrite Hc. eexists; split; [reflexivity|]. apply Forall_app; split; [|exact Hall].
    eapply Forall_impl; [|apply data_chunks_of_line_locs].
    intros c Hcl; cbn beta in Hcl. rewrite Hcl. cbn [line_ok]. rewrite E; discriminate.
Qed.

Lemma data_next_chunks fuel : forall d, di_chunks (snd (data_next fuel d)) = di_chunks d.
Proof.
  induction fuel as [|k IH]; intros d; cbn [data_next]; [reflexivity|].
  destruct (nth_error (di_chunks d) (di_ci d)) as [[l items]|]; [|reflexivity].
  destruct (nth_error items (di_ii d)); [reflexivity|]. rewrite IH. reflexivity.
Qed.

Lemma er_next_data : orel ERw next_data_element.
Proof.
  intros s Hwf. unfold next_data_element.
  assert (Hd : exists d, (match data_it s with
                          | Some d => Ok d
                          | None => match data_chunks (st_keys s) (st_toks s) with
                                    | Ok cs => Ok (mkdi cs 0 0)
                                    | Panic p => Panic p
                                    | _ => Panic PListUnwrap
                                    end
                          end) = Ok d /\ Forall (fun c => line_exists s (fst c)) (di_chunks d)).
  { destruct (data_it s) as [d|] eqn:E.
    - exists d; split; [reflexivity|exact (wf_data _ Hwf _ E)].
    - destruct (data_chunks_ok (st_toks s) (st_keys s)) as (cs & Hc & Hall).
      + destruct (wf_store _ Hwf) as (_ & Hk & _). intros n Hn; apply Hk; exact Hn.
      + rewrite Hc. eexists; split; [reflexivity|exact Hall]. }
  destruct Hd as (d & -> & Hall).
  pose proof (data_next_chunks (S (S (length (di_chunks d)))) d) as Hch.
  destruct (data_next (S (S (length (di_chunks d)))) d) as [e d']. cbn [fst snd forget] in *.
  split; try reflexivity; try discriminate; [|intros _; split; [reflexivity | apply le_n]].
  apply wf_set_data_it; [exact Hwf|]. intros d0 H; inversion H; subst. rewrite Hch. exact Hall.
Qed.

Lemma coerce_data_plain name e : res_plain (coerce_data name e).
Proof. unfold coerce_data. destruct (ends_with_dollar name), e; exact I. Qed.

Lemma er_lift_coerce name e : orel ERw (lift_res (coerce_data name e)).
Proof. apply er_lift_res, coerce_data_plain. Qed.
#[export] Hint Resolve er_next_data er_lift_coerce : erdb.

Lemma er_take_input : orel ERw take_input.
Proof. unfold take_input; er_walk. Qed.
Lemma er_is_else : orel ERw is_else_of_then_clause.
Proof. unfold is_else_of_then_clause; er_walk. Qed.
#[export] Hint Resolve er_take_input er_is_else : erdb.

(* the INPUT reply parser always yields at least one item *)
Lemma dp_finish_nonempty q cur elems : dp_finish q cur elems <> [].
Proof.
  unfold dp_finish. destruct (if q then _ else _).
  - destruct elems; discriminate.
  - destruct elems; discriminate.
Qed.

Lemma dp_run_nonempty cs : forall q cur elems n, fst (dp_run cs q cur elems n) <> [].
Proof.
  induction cs as [|c cs IH]; intros q cur elems n; cbn [dp_run].
  - cbn [fst]. apply dp_finish_nonempty.
  - repeat match goal with
           | |- context [if ?b then _ else _] => destruct b
           end; try apply IH; cbn [fst]; apply dp_finish_nonempty.
Qed.

(* INPUT: PRewind *)

(* an INPUT token lies before the cursor on the current line *)
Definition input_before (s : interp) : Prop :=
  exists i, i < loc_idx (loc s) /\ nth_error (cur_toks s) i = Some TInput.

(* an expression step stays on its line and does not move backwards *)
Lemma input_before_carried {A} (m : M A) :
  orel ERw m -> ospec (fun s => wf s /\ input_before s) SRw m (fun _ s' => wf s' /\ input_before s').
Proof.
  apply ospec_carried; [exact ER_SR|]. intros s s1 [Hwf (i & Hi & Hn)] H. destruct (H Hwf) as [A1 A2 A3 A4 A5 A6 A7 A8 A9].
  destruct (A9 eq_refl) as [B1 B2]. split; [exact A1|]. exists i. split; [lia|].
  rewrite (cur_toks_same s s1 A2 A4 B1). exact Hn.
Qed.

Lemma sp_next_token_input : ospec wf SRw next_token (fun t s' => t = Some TInput -> input_before s').
Proof.
  apply ospec_post; [apply sr_of_er, er_next_token|]. intros s t0 s' Hwf. rewrite (next_token_eq s (wf_loc _ Hwf)).
  destruct (nth_error (cur_toks s) (loc_idx (loc s))) as [t|] eqn:E; intros H; inversion H; [|discriminate].
  intros Ht; inversion Ht; subst. exists (loc_idx (loc s)). split; [unfold adv; proj_simpl; lia|exact E].
Qed.

Lemma rewind_loop_safe : forall i s,
  (exists j, j < i /\ nth_error (cur_toks s) j = Some TInput) ->
  SRw s (forget (fst (rewind_loop i TInput s))) (snd (rewind_loop i TInput s)).
Proof.
  induction i as [|i IH]; intros s (j & Hj & Hn) Hwf; [lia|].
  rewrite (rewind_loop_step i TInput s (wf_loc _ Hwf)). cbv zeta.
  set (s1 := bump (set_loc _ s)).
  assert (Hwf1 : wf s1) by (apply wf_bump, wf_set_loc; [exact Hwf|exact (wf_loc _ Hwf)]).
  destruct (match nth_error (cur_toks s) i with Some t => token_eqb t TInput | None => false end) eqn:E.
  - split; [exact Hwf1|reflexivity|reflexivity|discriminate|discriminate].
  - assert (Hj' : j < i).
    { destruct (Nat.eq_dec j i) as [->|Hne]; [|lia]. rewrite Hn in E. discriminate. }
    destruct (IH s1 (ex_intro _ j (conj Hj' Hn)) Hwf1) as [B1 B2 B3 B4 B5].
    split; assumption.
Qed.

Lemma take_input_nonempty s d l s' : take_input s = (Ok (Some (d, l)), s') -> d <> [].
Proof.
  unfold take_input. rewrite bind_get. destruct (input s) as [text|]; [|cbn; discriminate].
  rewrite bind_modify. pose proof (dp_run_nonempty (utf8_chars text) false [] [] 0) as Hne.
  fold (parse_data text) in Hne. destruct (parse_data text) as [elems n]. cbn [ret fst] in *.
  intros H; inversion H; subst. exact Hne.
Qed.

Lemma sr_break : orel SRw break_at_current_location.
Proof. unfold break_at_current_location; sr_walk. Qed.

Lemma sr_goto_stmt : orel SRw evaluate_goto_statement.
Proof. unfold evaluate_goto_statement; sr_walk. Qed.

Lemma sr_gosub_stmt : orel SRw evaluate_gosub_statement.
Proof. unfold evaluate_gosub_statement; sr_walk. Qed.

Lemma sr_next_stmt : orel SRw evaluate_next_statement.
Proof. unfold evaluate_next_statement; sr_walk. Qed.

Section StmtSafe.
  Variable fuel : nat.
  Variable nest : nat.
  Variable rec : M unit.
  Hypothesis Hrec : orel SRw rec.

  Lemma er_expr : orel ERw (expr fuel nest).
  Proof. unfold expr; apply er_evaluate_expression. Qed.

  Lemma er_array_index_expr : orel ERw (evaluate_array_index fuel (expr fuel nest)).
  Proof. apply er_array_index, er_expr. Qed.

  Hint Resolve er_expr er_array_index_expr : erdb.

  Lemma er_optional_index : orel ERw (parse_optional_array_index fuel nest).
  Proof. unfold parse_optional_array_index; er_walk. Qed.
  Hint Resolve er_optional_index : erdb.

  Lemma er_parse_lvalue : orel ERw (parse_lvalue fuel nest).
  Proof. unfold parse_lvalue; er_walk. Qed.

  Hint Resolve er_parse_lvalue er_assign : erdb.

  Lemma sr_rewind_await :
    ospec (fun s => wf s /\ input_before s) SRw rewind_program_and_await_input (fun _ _ => True).
  Proof.
    intros s [Hwf Hib]. split; [intros _|trivial]. unfold rewind_program_and_await_input, rewind_before_token.
    rewrite bind_run, bind_get.
    destruct (rewind_loop_safe (loc_idx (loc s)) s Hib Hwf) as [B1 B2 B3 B4 B5].
    destruct (rewind_loop (loc_idx (loc s)) TInput s) as [[[]|e l|p| |] s1]; cbn [fst snd forget] in *;
      try (split; assumption).
    unfold modify; cbn [fst snd forget]. split; [wf_solve|exact B2|exact B3|discriminate|discriminate].
  Qed.

  Lemma sr_input_statement : orelP input_before SRw (evaluate_input_statement fuel nest).
  Proof.
    enough (H : ospec (fun s => wf s /\ input_before s) SRw (evaluate_input_statement fuel nest) (fun _ _ => True))
      by (intros s Hib Hwf; apply H; [split; assumption|exact Hwf]).
    unfold evaluate_input_statement.
    eapply (ospec_bind _ SRw_ocat)
      with (Q := fun ti s' => (wf s' /\ input_before s') /\ forall d l, ti = Some (d, l) -> d <> []).
    { apply ospec_and; [apply input_before_carried, er_take_input | apply ospec_post; [apply sr_of_er, er_take_input|]].
      intros s ti s' _ E d l ->. exact (take_input_nonempty s d l s' E). }
    intros [[data leftover]|]; [|intros s [HP _]; exact (sr_rewind_await s HP)].
    destruct data as [|first rest]; [intros s [_ Hne]; destruct (Hne _ _ eq_refl eq_refl)|].
    eapply (ospec_bind _ SRw_ocat); [intros s [HP _]; exact (input_before_carried _ er_parse_lvalue s HP)|].
    intros lv. pose proof (coerce_data_plain (lv_sym lv) first) as Hp.
    destruct (coerce_data (lv_sym lv) first) as [v|e [l|]|p| |]; cbn in Hp; try contradiction.
    - apply ospec_orel. sr_walk.
    - destruct e; try (apply ospec_orel, (orel_fail _ SRw_ocat)).
      eapply (ospec_bind _ SRw_ocat); [apply input_before_carried, er_push_output | intros ?; exact sr_rewind_await].
  Qed.

  Hint Resolve sr_break sr_goto_stmt sr_gosub_stmt : srdb.

  Lemma sr_stmt_or_goto : orel SRw (statement_or_goto_line_number rec).
  Proof. unfold statement_or_goto_line_number; sr_walk. Qed.
  Hint Resolve sr_stmt_or_goto : srdb.

  Lemma sr_if : orel SRw (evaluate_if_statement fuel nest rec).
  Proof. unfold evaluate_if_statement; sr_walk. Qed.

  Lemma sr_assignment sym : orel SRw (evaluate_assignment_statement fuel nest sym).
  Proof. unfold evaluate_assignment_statement; sr_walk. Qed.
  Hint Resolve sr_if sr_assignment : srdb.

  Lemma sr_let : orel SRw (evaluate_let_statement fuel nest).
  Proof. unfold evaluate_let_statement; sr_walk. Qed.

  Lemma sr_read : orel SRw (evaluate_read_statement fuel nest).
  Proof. unfold evaluate_read_statement; sr_walk. Qed.

  Lemma sr_dim : orel SRw (evaluate_dim_statement fuel nest).
  Proof. unfold evaluate_dim_statement; sr_walk. Qed.

  Lemma sr_print : orel SRw (evaluate_print_statement fuel nest).
  Proof. unfold evaluate_print_statement; sr_walk. Qed.

  Lemma sr_for : orel SRw (evaluate_for_statement fuel nest).
  Proof. unfold evaluate_for_statement; sr_walk. Qed.

  Lemma sr_def : orel SRw (evaluate_def_statement fuel).
  Proof. unfold evaluate_def_statement; sr_walk. Qed.

  Hint Resolve sr_let sr_read sr_dim sr_print sr_for sr_next_stmt sr_def : srdb.

  Lemma sr_statement_body : orel SRw (evaluate_statement_body fuel nest rec).
  Proof.
    unfold evaluate_statement_body.
    apply (orel_bind _ SRw_ocat); [apply (orel_get _ SRw_ocat)|intros tr].
    apply (orel_bind _ SRw_ocat); [sr_walk|intros _].
    apply sr_of_orelP_wf, (orelP_ospec _ _ _ (fun _ _ => True)).
    eapply (ospec_bind _ SRw_ocat); [apply sp_next_token_input|].
    intros [t|]; [|apply ospec_orel, (orel_ret _ SRw_ocat)].
    (* every statement but one is walked.  INPUT is not in [srdb]: its rewind is safe only because the token
       just taken, INPUT itself, now lies before the cursor, which is what the post of [next_token] hands over *)
    destruct t; try (apply ospec_orel; solve [sr_walk]).
    intros s HQ. split; [apply sr_input_statement, HQ; reflexivity | trivial].
  Qed.
End StmtSafe.

Lemma sr_evaluate_statement fuel : forall n, orel SRw (evaluate_statement fuel n).
Proof.
  induction fuel as [|k IH]; intros n; cbn [evaluate_statement].
  - apply (orel_out_of_fuel _ SRw_ocat).
  - destruct (Nat.eqb n max_nesting); [apply (orel_fail _ SRw_ocat)|].
    apply sr_statement_body; apply IH.
Qed.

Corollary evaluate_expression_safe fuel n s :
  wf s ->
  (forall p, fst (evaluate_expression fuel n s) <> Panic p)
  /\ wf (snd (evaluate_expression fuel n s))
  /\ (forall v, fst (evaluate_expression fuel n s) = Ok v ->
        stack (snd (evaluate_expression fuel n s)) = stack s
        /\ loc_line (loc (snd (evaluate_expression fuel n s))) = loc_line (loc s)
        /\ loc_idx (loc s) <= loc_idx (loc (snd (evaluate_expression fuel n s)))).
Proof.
  intros Hwf. destruct (er_evaluate_expression fuel n s Hwf) as [A1 A2 A3 A4 A5 A6 A7 A8 A9].
  split; [intros p H; apply forget_panic in H; exact (A6 p H)|]. split; [exact A1|].
  intros v Hv. rewrite Hv in *. cbn [forget] in *.
  split; [apply A8; exact I|apply A9; reflexivity].
Qed.

Corollary evaluate_statement_safe fuel n s :
  wf s ->
  (forall p, fst (evaluate_statement fuel n s) <> Panic p) /\ wf (snd (evaluate_statement fuel n s)).
Proof.
  intros Hwf. destruct (sr_evaluate_statement fuel n s Hwf) as [A1 A2 A3 A4 A5].
  split; [intros p H; apply forget_panic in H; exact (A4 p H)|exact A1].
Qed.

Lemma sr_run_next_statement fuel : orel SRw (run_next_statement fuel).
Proof.
  unfold run_next_statement, return_to_idle_state.
  orel_walk SRw_ocat ltac:(first [ apply sr_evaluate_statement | sr_leaf ]).
Qed.

(* LIST: PListUnwrap *)
Lemma sr_list : orel SRw (fun s => (list_lines (st_keys s) (st_toks s), s)).
Proof.
  intros s Hwf. cbn [fst snd].
  destruct (list_lines_ok (st_keys s) (st_toks s)) as (ls & Hl & _).
  - destruct (wf_store _ Hwf) as (_ & Hk & _). intros n Hn; apply Hk; exact Hn.
  - rewrite Hl. cbn [forget]. apply (oc_ok _ SRw_ocat); exact Hwf.
Qed.

Lemma sr_process_command fuel c : orel SRw (process_command fuel c).
Proof.
  destruct c; cbn [process_command];
    orel_walk SRw_ocat ltac:(first [ apply sr_run_next_statement | apply sr_list | sr_leaf ]).
Qed.

(* What a host call does: [SR] without the program, which a numbered line changes *)
Record TR (r : res unit) (s' : interp) : Prop := {
  tr_wf : wf s';
  tr_nopanic : forall p, r <> Panic p;
  tr_errloc : forall e l, r = Err e (Some l) -> line_exists s' l }.

Lemma SR_TR s r s' : SR s r s' -> TR r s'.
Proof. intros [A1 A2 A3 A4 A5]. split; assumption. Qed.

Lemma tr_of_sr (m : M unit) s : orel SRw m -> wf s -> TR (fst (m s)) (snd (m s)).
Proof.
  intros H Hwf. rewrite <- (forget_unit (fst (m s))). eapply SR_TR. apply H; exact Hwf.
Qed.

Lemma arrays_store_set n ts s : arrays (store_set n ts s) = arrays s.
Proof. unfold store_set. destruct ts; reflexivity. Qed.

(* entering, replacing or deleting a program line: the store changes, and
   every reference into the program is dropped *)
Lemma wf_set_numbered_line n ts s : wf s -> wf (snd (set_numbered_line n ts s)).
Proof.
  intros Hwf.
  pose proof (store_set_ok n ts s (wf_store _ Hwf)) as Hs.
  pose proof (arrays_store_set n ts s) as Ha.
  pose proof (wf_arrays _ Hwf) as Harr.
  change (snd (set_numbered_line n ts s))
    with (imm_reset [] (set_loops [] (set_stack [] (set_functions [] (set_data_it None
            (set_breakpoint None (store_set n ts s))))))).
  unfold imm_reset. proj_simpl.
  split; unfold store_ok, line_exists in *; proj_simpl; auto; try discriminate.
  - exact I.
  - rewrite Ha; exact Harr.
Qed.

Lemma tr_evaluate_impl fuel line s :
  wf s -> state s = Idle ->
  TR (fst (evaluate_impl fuel line s)) (snd (evaluate_impl fuel line s)).
Proof.
  intros Hwf Hidle. pose proof (wf_imm_reset [] s Hwf) as Hwf0.
  apply (evaluate_impl_idle (fun x => TR (fst x) (snd x))); [exact Hidle| | | |].
  - intros c _. apply (tr_of_sr (process_command fuel c)); [apply sr_process_command|exact Hwf0].
  - intros n ts _. split; [apply wf_set_numbered_line; exact Hwf0|discriminate|discriminate].
  - intros ts _ _ _. apply (tr_of_sr (run_next_statement fuel)); [apply sr_run_next_statement|].
    apply wf_imm_reset, Hwf.
  - intros ts e _ _. split; [exact Hwf0|discriminate|discriminate].
Qed.

Lemma tr_postprocess (x : res unit * interp) :
  TR (fst x) (snd x) -> TR (fst (postprocess x)) (snd (postprocess x)).
Proof.
  destruct x as [[[]|e l|p| |] s]; cbn [postprocess fst snd]; auto.
  intros [A1 A2 A3]. split; [wf_solve|discriminate|].
  intros e0 l0 H; inversion H; subst.
  apply (populate_loc_ok s e0 l l0 A1); [|assumption]. intros l1 ->. eapply A3; reflexivity.
Qed.

Lemma postprocess_err (x : res unit * interp) e l s1 :
  postprocess x = (Err e l, s1) -> state s1 = Idle.
Proof.
  destruct x as [[[]|e0 l0|p| |] s]; cbn [postprocess]; intros H; inversion H; subst. reflexivity.
Qed.

Lemma tr_call fuel s op :
  wf s -> TR (fst (call_result fuel s op)) (snd (call_result fuel s op)).
Proof.
  intros Hwf. unfold call_result. destruct (legal s op) eqn:Hl; cbn [negb].
  2:{ cbn [fst snd]. split; [exact Hwf|discriminate|discriminate]. }
  assert (Hwf0 : wf (set_reads 0 s)) by (revert Hwf; apply wf_ext; reflexivity).
  destruct op as [text| |text| |seed| |w t|]; cbn [fst snd].
  - unfold legal in Hl. destruct (state s) eqn:Hst; try discriminate.
    unfold start_evaluating. apply tr_postprocess. apply tr_evaluate_impl; [exact Hwf0|exact Hst].
  - unfold legal in Hl. destruct (state s) eqn:Hst; try discriminate.
    unfold continue_evaluating. change (state (set_reads 0 s)) with (state s). rewrite Hst.
    apply tr_postprocess.
    apply (tr_of_sr (run_next_statement fuel)); [apply sr_run_next_statement|exact Hwf0].
  - unfold legal in Hl. destruct (state s) eqn:Hst; try discriminate.
    unfold provide_input. change (state (set_reads 0 s)) with (state s). rewrite Hst. cbn [fst snd].
    split; [wf_solve|discriminate|discriminate].
  - unfold host_break. apply (tr_of_sr break_at_current_location); [apply sr_break|exact Hwf0].
  - unfold randomize, modify; cbn [fst snd]. split; [wf_solve|discriminate|discriminate].
  - split; [apply wf_fresh|discriminate|discriminate].
  - split; [wf_solve|discriminate|discriminate].
  - split; [apply wf_fresh|discriminate|discriminate].
Qed.

Lemma wf_drained s op s1 : wf s1 -> wf (drained s op s1).
Proof.
  intros H. unfold drained. destruct (negb (legal s op)); [exact H|].
  destruct op; wf_solve.
Qed.

Theorem step_no_panic fuel s op :
  wf s ->
  (forall p, fst (call_result fuel s op) <> Panic p) /\ wf (snd (step fuel s op)).
Proof.
  intros Hwf. destruct (tr_call fuel s op Hwf) as [A1 A2 A3]. split; [exact A2|].
  rewrite step_call_result. apply wf_drained; exact A1.
Qed.

Fixpoint run_results (fuel : nat) (s : interp) (ops : list hostop) : list (res unit) :=
  match ops with
  | [] => []
  | op :: r => fst (call_result fuel s op) :: run_results fuel (snd (step fuel s op)) r
  end.

Theorem history_no_panic fuel ops : forall s,
  wf s ->
  Forall (fun r => forall p, r <> Panic p) (run_results fuel s ops) /\ wf (run_state fuel s ops).
Proof.
  induction ops as [|op ops IH]; intros s Hwf; cbn [run_results run_state].
  - split; [constructor|exact Hwf].
  - destruct (step_no_panic fuel s op Hwf) as [H1 H2].
    destruct (IH _ H2) as [H3 H4]. split; [constructor; assumption|exact H4].
Qed.

Corollary session_no_panic fuel oracle ops :
  Forall (fun r => forall p, r <> Panic p) (run_results fuel (fresh oracle) ops).
Proof. apply history_no_panic, wf_fresh. Qed.

Lemma render_caret_ok e l line s :
  (forall l0, l = Some l0 -> line_exists s l0) -> exists ls, render_caret e l line s = Ok ls.
Proof.
  intros Hl. unfold render_caret.
  assert (Hfrom : exists ls,
            match line, e with
            | Some text, ESyntaxTok t =>
                let '(a, b) := error_range t (length text) in
                Ok [text; repeat 32%N a ++ repeat 94%N (b - a)]
            | _, _ => Ok []
            end = Ok ls).
  { destruct line as [text|]; [|eexists; reflexivity].
    destruct e; try (eexists; reflexivity). destruct (error_range _ _); eexists; reflexivity. }
  destruct l as [l0|]; [|exact Hfrom].
  specialize (Hl l0 eq_refl). unfold line_exists, line_ok in Hl.
  unfold program_caret, tokens_for_line.
  destruct (loc_line l0) as [n|]; cbn [fst].
  - destruct (toks_get n (st_toks s)) as [ts|]; [|congruence]. cbn [fst].
    destruct ts; [exact Hfrom|eexists; reflexivity].
  - destruct (immediate s); [exact Hfrom|eexists; reflexivity].
Qed.

(* a call that answers an error was legal: one that is not made answers [Ok] *)
Lemma call_error_legal fuel s op e l s1 : call_result fuel s op = (Err e l, s1) -> legal s op = true.
Proof. unfold call_result. destruct (legal s op); [reflexivity | discriminate]. Qed.

Theorem error_is_value fuel s op e l s1 :
  wf s -> call_result fuel s op = (Err e l, s1) ->
  state s1 = Idle /\ exists ls, render_caret e l (line_of op) s1 = Ok ls.
Proof.
  intros Hwf Hc. pose proof (call_error_legal _ _ _ _ _ _ Hc) as Hl.
  pose proof (tr_call fuel s op Hwf) as [A1 A2 A3]. rewrite Hc in *. cbn [fst snd] in *.
  split; [|apply render_caret_ok; intros l0 ->; eapply A3; reflexivity].
  unfold call_result in Hc. rewrite Hl in Hc. cbn [negb] in Hc.
  destruct op as [text| |text| |seed| |w t|]; try discriminate.
  - unfold start_evaluating in Hc. eapply postprocess_err; exact Hc.
  - unfold continue_evaluating in Hc. destruct (state (set_reads 0 s)); try discriminate.
    eapply postprocess_err; exact Hc.
  - unfold provide_input in Hc. destruct (state (set_reads 0 s)); discriminate.
Qed.

Theorem errors_are_values fuel s op e l s1 :
  wf s -> legal s op = true -> call_result fuel s op = (Err e l, s1) ->
  state s1 = Idle /\ exists ls, render_caret e l (line_of op) s1 = Ok ls.
Proof. intros Hwf _. apply error_is_value, Hwf. Qed.

(* after an error the interpreter still accepts lines *)
Corollary line_accepted_after_error fuel s op e l s1 text :
  wf s -> call_result fuel s op = (Err e l, s1) ->
  legal (drained s op s1) (HLine text) = true.
Proof.
  intros Hwf Hc. destruct (error_is_value fuel s op e l s1 Hwf Hc) as [Hidle _].
  unfold drained. rewrite (call_error_legal _ _ _ _ _ _ Hc). cbn [negb].
  destruct op; unfold legal; proj_simpl; rewrite Hidle; reflexivity.
Qed.

Corollary error_then_line_accepted fuel s op e l s1 text :
  wf s -> legal s op = true -> call_result fuel s op = (Err e l, s1) ->
  legal (drained s op s1) (HLine text) = true.
Proof. intros Hwf _. apply line_accepted_after_error, Hwf. Qed.

(* Non-vacuity: a concrete session (two program lines, RUN, continue, break,
   CONT, then a failing line) makes real calls, all legal, none panics, and
   the failing one is an error value. *)

Definition demo_ops : list hostop :=
  [ HLine (bs "10 PRINT 1"); HLine (bs "20 GOTO 10"); HLine (bs "RUN");
    HCont; HBreak; HLine (bs "CONT"); HBreak; HLine (bs "GOTO 30") ].

Fixpoint run_legal (fuel : nat) (s : interp) (ops : list hostop) : list bool :=
  match ops with
  | [] => []
  | op :: r => legal s op :: run_legal fuel (snd (step fuel s op)) r
  end.

Example demo_all_legal :
  run_legal default_fuel (fresh []) demo_ops = [true; true; true; true; true; true; true; true].
Proof. vm_compute. reflexivity. Qed.

Example demo_no_panic :
  run_results default_fuel (fresh []) demo_ops =
    [Ok tt; Ok tt; Ok tt; Ok tt; Ok tt; Ok tt; Ok tt; Err EUndefinedStatement (Some (mkloc None 1))].
Proof. vm_compute. reflexivity. Qed.

(* a session that goes through DEF FN / function call, DIM / array cells,
   INPUT with a rejected reply (the rewind) and an accepted one, READ / DATA,
   an error inside a numbered line, deleting a line, and CONT *)
Definition demo_ops2 : list hostop :=
  [ HLine (bs "10 DEF FNA(X)=X*2"); HLine (bs "20 DIM A(3)"); HLine (bs "30 INPUT B");
    HLine (bs "40 A(1)=FNA(B)"); HLine (bs "50 READ C$"); HLine (bs "60 DATA hello");
    HLine (bs "70 PRINT A(1);C$"); HLine (bs "80 PRINT A(4)"); HLine (bs "RUN");
    HCont; HCont; HReply (bs "x"); HCont; HReply (bs "21"); HCont; HCont; HCont; HCont; HCont; HCont;
    HLine (bs "30"); HLine (bs "CONT") ].

Example demo2_all_legal :
  forallb (fun b => b) (run_legal default_fuel (fresh []) demo_ops2) = true.
Proof. vm_compute. reflexivity. Qed.

Example demo2_no_panic :
  run_results default_fuel (fresh []) demo_ops2 =
    repeat (Ok tt) 19 ++
    [ Err EBadSubscript (Some (mkloc (Some 80%N) 4)); Ok tt;
      Err ECannotContinue (Some (mkloc None 0)) ].
Proof. vm_compute. reflexivity. Qed.

Print Assumptions step_no_panic.
Print Assumptions history_no_panic.
Print Assumptions session_no_panic.
Print Assumptions errors_are_values.
Print Assumptions error_then_line_accepted.
