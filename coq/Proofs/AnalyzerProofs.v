(* C05: the static analysis' bookkeeping.  Pass 1 of [analyze] takes one step
   per file line: tokenize, store, record token classes and source ranges.  The
   token classes and the range record it appends depend on the file line alone
   ([line_classes], [line_record]), so these two components are maps over the
   lines and what C05 says of them is said line by line: the classes' ranges are
   ordered and do not overlap; on a valid line every recorded range (line
   number, tokens, error) lies inside the line, on character boundaries.  What
   is threaded through the steps is [Pass1Inv]: every BASIC-line binding points
   at a recorded file line, every tokenizer-error message at a recorded error
   range.  The walk does not touch the map, so the finished analysis inherits
   all of it. *)
From Coq Require Import List NArith ZArith Bool Lia Arith.
From Abasic Require Import Model.Bytes Model.Lexer Gen.Tables Model.State Model.Analyzer
     Proofs.DataProofs Proofs.LexerRanges.
Import ListNotations.
Local Open Scope nat_scope.

Lemma is_digit_ascii b : is_digit b = true -> (b < 128)%N.
Proof. unfold is_digit. intros H. apply andb_true_iff in H as [H1 H2]. apply N.leb_le in H2. apply N.le_lt_trans with (1 := H2). reflexivity. Qed.

Lemma digit_run_nth s : forall i, i < length (digit_run s) -> exists c, nth_error s i = Some c /\ is_digit c = true.
Proof.
  induction s as [|b s IH]; intros i Hi; cbn [digit_run] in Hi; [cbn in Hi; lia|].
  destruct (is_digit b) eqn:E; [|cbn in Hi; lia].
  destruct i as [|i]; [exists b; split; [reflexivity | exact E] | apply IH; cbn [length] in Hi; lia].
Qed.

(* the byte before position e is the last digit of the line number *)
Lemma parse_line_number_last line n e : parse_line_number line = Some (n, e) ->
  exists k c, e = S k /\ nth_error line k = Some c /\ is_digit c = true.
Proof.
  unfold parse_line_number.
  set (w := skip_ascii_ws line). pose proof (digit_run_nth (skipn w line)) as Hd.
  destruct (digit_run (skipn w line)) as [|d ds]; [discriminate|].
  destruct (_ <=? U64_MAX)%N; [|discriminate]. intros [= <- <-].
  destruct (Hd (length ds)) as (c & Hc & Hdig); [cbn [length]; lia|].
  rewrite nth_error_skipn in Hc. exists (w + length ds), c. cbn [length]. split; [lia | split; assumption].
Qed.

Lemma parse_line_number_le line n e : parse_line_number line = Some (n, e) -> e <= length line.
Proof.
  intros Ep. destruct (parse_line_number_last line n e Ep) as (k & c & -> & Hc & _).
  apply nth_error_Some. congruence.
Qed.

Lemma parse_line_number_end line n e :
  valid_utf8 line = true -> parse_line_number line = Some (n, e) ->
  0 < e /\ e <= length line /\ char_boundary line e = true.
Proof.
  intros Hv Ep. pose proof (parse_line_number_le line n e Ep) as Hle.
  destruct (parse_line_number_last line n e Ep) as (k & c & -> & Hc & Hdig).
  split; [lia|]. split; [exact Hle|].
  apply valid_utf8_Valid in Hv. apply (Valid_char_boundary_nc _ _ Hv).
  eapply Valid_after_ascii; [exact Hv | exact Hc | apply is_digit_ascii, Hdig].
Qed.

Fixpoint ordered (lo : nat) (l : list (N * (nat * nat))) : Prop :=
  match l with
  | [] => True
  | (_, (a, b)) :: r => lo <= a /\ a <= b /\ ordered b r
  end.

Lemma ranges_ok_ordered lo hi ts :
  ranges_ok lo hi ts -> ordered lo (map (fun tr => (token_class (fst tr), snd tr)) ts).
Proof.
  revert lo. induction ts as [|[t [a b]] ts IH]; intros lo H; cbn [map ordered]; [exact I|].
  cbn [ranges_ok] in H. destruct H as (H1 & H2 & H3 & H4). cbn [fst snd].
  split; [exact H1|]. split; [lia|]. apply IH, H4.
Qed.

Definition range_ok (line : bytes) (r : nat * nat) : Prop :=
  fst r <= snd r /\ snd r <= length line
  /\ char_boundary line (fst r) = true /\ char_boundary line (snd r) = true.

Lemma tokenize_range_ok line skip ts :
  valid_utf8 line = true -> char_boundary line skip = true -> skip <= length line ->
  tokenize line skip = TokOk ts -> Forall (range_ok line) (map snd ts).
Proof.
  intros Hv Hb Hs Ht. rewrite Forall_forall. intros [a b] Hin.
  apply in_map_iff in Hin as ([t [a' b']] & E & Hin). cbn [snd] in E. inversion E; subst a' b'.
  pose proof (tokenize_ranges_ok line skip ts Hs Ht) as Hr.
  destruct (ranges_ok_In _ _ _ Hr _ _ _ Hin) as (H1 & H2 & H3).
  destruct (tokenize_char_boundaries line skip ts Hv Hb Hs Ht t a b Hin) as [B1 B2].
  unfold range_ok. cbn [fst snd]. repeat split; (lia || assumption).
Qed.

Lemma widen_end_spec line : forall fuel e, e <= length line ->
  e <= widen_end fuel line e /\ widen_end fuel line e <= length line.
Proof.
  induction fuel as [|f IH]; intros e He; cbn [widen_end]; [split; lia|].
  destruct (char_boundary line e) eqn:Eb; [split; lia|].
  assert (e < length line).
  { unfold char_boundary in Eb. destruct e as [|e]; [discriminate|].
    destruct (nth_error line (S e)) as [b|] eqn:En.
    - apply nth_error_Some. congruence.
    - apply Nat.eqb_neq in Eb. lia. }
  destruct (IH (S e)) as (I1 & I2); [lia|]. split; lia.
Qed.

Lemma good_char_len c : good_char c -> 1 <= length c <= 4.
Proof.
  destruct c as [|b0 tl]; [intros []|]. intros (_ & Hl & _). rewrite Hl. unfold utf8_len.
  destruct (b0 <? 192)%N, (b0 <? 224)%N, (b0 <? 240)%N; lia.
Qed.

Lemma boundary_within_3 s : Valid s -> forall e, e <= length s -> exists k, k <= 3 /\ nc s (e + k).
Proof.
  induction 1 as [|c r Hc Hr IH]; intros e He.
  - exists 0. split; [lia|]. left. cbn in *. lia.
  - pose proof (good_char_len c Hc) as Hl.
    destruct (Nat.lt_ge_cases e (length c)) as [Hlt|Hge].
    + destruct e as [|e].
      * exists 0. split; [lia|]. apply Valid_nc_0. constructor; assumption.
      * exists (length c - S e). split; [lia|].
        replace (S e + (length c - S e)) with (length c + 0) by lia. apply nc_app, Valid_nc_0, Hr.
    + rewrite app_length in He. destruct (IH (e - length c)) as (k & Hk & Hn); [lia|].
      exists k. split; [exact Hk|]. replace (e + k) with (length c + (e - length c + k)) by lia.
      apply nc_app, Hn.
Qed.

Lemma widen_end_boundary s : Valid s -> forall fuel e k, e <= length s -> k < fuel -> nc s (e + k) ->
  nc s (widen_end fuel s e).
Proof.
  intros Hv. induction fuel as [|f IH]; intros e k He Hk Hn; [lia|]. cbn [widen_end].
  destruct (char_boundary s e) eqn:Eb; [apply (Valid_char_boundary_nc _ _ Hv), Eb|].
  destruct k as [|k].
  - rewrite Nat.add_0_r in Hn. apply (Valid_char_boundary_nc _ _ Hv) in Hn. congruence.
  - assert (e < length s).
    { unfold char_boundary in Eb. destruct e as [|e]; [discriminate|].
      destruct (nth_error s (S e)) as [b|] eqn:En; [apply nth_error_Some; congruence|].
      apply Nat.eqb_neq in Eb. lia. }
    apply (IH (S e) k); [lia|lia|]. replace (S e + k) with (e + S k) by lia. exact Hn.
Qed.

(* The Rust loop that widens an error range to a character boundary is
   unbounded (source_file_analyzer.rs:118-121); the model gives it 4 steps,
   which suffice on valid UTF-8: a character is at most 4 bytes long. *)
Lemma widen4_ok s e : valid_utf8 s = true -> e <= length s ->
  e <= widen_end 4 s e /\ widen_end 4 s e <= length s /\ char_boundary s (widen_end 4 s e) = true.
Proof.
  intros Hv He. destruct (widen_end_spec s 4 e He) as (H1 & H2). split; [exact H1|]. split; [exact H2|].
  apply valid_utf8_Valid in Hv. apply (Valid_char_boundary_nc _ _ Hv).
  destruct (boundary_within_3 s Hv e He) as (k & Hk & Hn). apply (widen_end_boundary s Hv 4 e k); (lia || assumption).
Qed.

Lemma tokenize_error_range_ok line skip ts err :
  valid_utf8 line = true -> char_boundary line skip = true -> skip <= length line ->
  tokenize line skip = TokErr ts err ->
  range_ok line (fst (error_range err (length line)), widen_end 4 line (snd (error_range err (length line)))).
Proof.
  intros Hv Hb Hs Et.
  destruct (tokenize_err_ranges_ok line skip ts err Hs Et) as (_ & Hrng & _).
  destruct (tokenize_char_boundaries_err line skip ts err Hv Hb Hs Et) as (_ & Hba).
  pose proof (tokenize_err_end line skip ts err Hs Et) as Hend.
  destruct (error_range err (length line)) as [a b]. cbn [fst snd] in *. destruct Hrng as (R1 & R2 & R3).
  destruct (widen4_ok line b Hv Hend) as (W1 & W2 & W3).
  split; [exact (Nat.le_trans _ _ _ R3 W1)|]. split; [exact W2|]. split; [exact Hba|exact W3].
Qed.

Definition redefinition_msg (i : nat) (n : N) (p : pass1) : list message :=
  if store_has n (p_prog p) then [MWarning i None (bs "Redefinition of pre-existing BASIC line.")] else [].

(* A step of pass 1, by kind of file line: the program, the messages added, the
   bindings, the range record and the token list it appends; only a line that
   stores tokens binds its number. *)
Inductive pass1_case (i : nat) (line : bytes) (p : pass1) :
  interp -> list message -> list (N * nat) -> line_ranges -> list (N * (nat * nat)) -> Prop :=
| P1_blank : line = [] ->
    pass1_case i line p (p_prog p) [] (sm_lines (p_map p)) empty_ranges []
| P1_unnumbered : line <> [] -> parse_line_number line = None ->
    pass1_case i line p (p_prog p) [MWarning i None (bs "Line has no line number, ignoring it.")]
      (sm_lines (p_map p)) empty_ranges []
| P1_empty n e : line <> [] -> parse_line_number line = Some (n, e) -> tokenize line e = TokOk [] ->
    pass1_case i line p (p_prog p)
      (redefinition_msg i n p ++ [MWarning i None (bs "Line contains no statements and will not be defined.")])
      (sm_lines (p_map p)) (mkranges e (Some []) None (length line)) [(number_class, (0, e))]
| P1_stored n e ts : line <> [] -> parse_line_number line = Some (n, e) -> tokenize line e = TokOk ts -> ts <> [] ->
    pass1_case i line p (snd (set_numbered_line n (map fst ts) (p_prog p))) (redefinition_msg i n p)
      ((n, length (sm_ranges (p_map p))) :: sm_lines (p_map p))
      (mkranges e (Some (map snd ts)) None (length line))
      ((number_class, (0, e)) :: map (fun tr => (token_class (fst tr), snd tr)) ts)
| P1_error n e ts err : line <> [] -> parse_line_number line = Some (n, e) -> tokenize line e = TokErr ts err ->
    pass1_case i line p (p_prog p) (redefinition_msg i n p ++ [MError i (ESyntaxTok err) None])
      (sm_lines (p_map p))
      (mkranges e None (Some (fst (error_range err (length line)),
                              widen_end 4 line (snd (error_range err (length line))))) (length line))
      [(number_class, (0, e))].

Lemma pass1_line_case i line p : exists prog new binds lr lt,
  pass1_case i line p prog new binds lr lt
  /\ pass1_line i line p
     = mkpass1 prog (p_msgs p ++ new) (mkmap binds (sm_ranges (p_map p) ++ [lr])) (p_toks p ++ [lt]).
Proof.
  unfold pass1_line. destruct line as [|b0 rest] eqn:El.
  { eexists _, _, _, _, _. split; [apply P1_blank; reflexivity | rewrite app_nil_r; reflexivity]. }
  rewrite <- El. assert (Hne : line <> []) by (rewrite El; discriminate). clear El.
  destruct (parse_line_number line) as [[n e]|] eqn:Ep.
  2:{ eexists _, _, _, _, _. split; [apply P1_unnumbered; assumption | reflexivity]. }
  assert (Hr : (if store_has n (p_prog p)
                then p_msgs p ++ [MWarning i None (bs "Redefinition of pre-existing BASIC line.")]
                else p_msgs p) = p_msgs p ++ redefinition_msg i n p).
  { unfold redefinition_msg. destruct (store_has n (p_prog p)); [reflexivity | symmetry; apply app_nil_r]. }
  rewrite Hr.
  destruct (tokenize line e) as [[|t0 ts0]|ts err] eqn:Et.
  - eexists _, _, _, _, _. split; [eapply P1_empty; eassumption | rewrite <- app_assoc; reflexivity].
  - eexists _, _, _, _, _. split; [eapply P1_stored; [eassumption..|discriminate] | reflexivity].
  - destruct (error_range err (length line)) as [a b] eqn:Er.
    eexists _, _, _, _, _. split; [eapply P1_error; eassumption | rewrite Er, <- app_assoc; reflexivity].
Qed.

(* The range record and the token classes a step appends depend on the file
   line alone: these two components of pass 1 are maps over the lines.  Only
   the program, the bindings and the messages are threaded. *)
Definition line_record (line : bytes) : line_ranges :=
  match line, parse_line_number line with
  | [], _ | _, None => empty_ranges
  | _, Some (n, e) =>
      match tokenize line e with
      | TokOk ts => mkranges e (Some (map snd ts)) None (length line)
      | TokErr _ err =>
          mkranges e None (Some (fst (error_range err (length line)),
                                 widen_end 4 line (snd (error_range err (length line))))) (length line)
      end
  end.

Definition line_classes (line : bytes) : list (N * (nat * nat)) :=
  match line, parse_line_number line with
  | [], _ | _, None => []
  | _, Some (n, e) =>
      (number_class, (0, e)) ::
      match tokenize line e with
      | TokOk ts => map (fun tr => (token_class (fst tr), snd tr)) ts
      | TokErr _ _ => []
      end
  end.

Lemma pass1_case_line i line p prog new binds lr lt :
  pass1_case i line p prog new binds lr lt -> lr = line_record line /\ lt = line_classes line.
Proof.
  unfold line_record, line_classes.
  intros [-> | Hne Ep | n e Hne Ep Et | n e ts Hne Ep Et Hts | n e ts err Hne Ep Et];
    [split; reflexivity | destruct line; [congruence|] ..]; rewrite Ep, ?Et; split; reflexivity.
Qed.

Lemma pass1_lines_out : forall lines i p,
  p_toks (pass1_lines i lines p) = p_toks p ++ map line_classes lines
  /\ sm_ranges (p_map (pass1_lines i lines p)) = sm_ranges (p_map p) ++ map line_record lines.
Proof.
  induction lines as [|l lines IH]; intros i p; cbn [pass1_lines map]; [rewrite !app_nil_r; split; reflexivity|].
  destruct (IH (S i) (pass1_line i l p)) as [-> ->].
  destruct (pass1_line_case i l p) as (prog & msgs & binds & lr & lt & C & ->).
  destruct (pass1_case_line _ _ _ _ _ _ _ _ C) as [-> ->]. cbn [p_toks p_map sm_ranges].
  rewrite <- !app_assoc. split; reflexivity.
Qed.

Lemma pass1_line_ranges i line p :
  sm_ranges (p_map (pass1_line i line p)) = sm_ranges (p_map p) ++ [line_record line].
Proof. exact (proj2 (pass1_lines_out [line] i p)). Qed.

Lemma line_classes_ordered line : ordered 0 (line_classes line).
Proof.
  unfold line_classes. destruct line as [|b l]; [exact I|]. set (line := b :: l).
  destruct (parse_line_number line) as [[n e]|] eqn:Ep; [|exact I]. cbn [ordered]. split; [lia|]. split; [lia|].
  destruct (tokenize line e) as [ts|ts err] eqn:Et; [|exact I].
  eapply ranges_ok_ordered, tokenize_ranges_ok; [exact (parse_line_number_le line n e Ep) | exact Et].
Qed.

(* empty_ranges records length 0; the model uses it for blank and unnumbered
   lines, whose recorded length is never read for them (no range of such a line
   is ever produced except the line-number range (0, 0)) — so the invariant for
   those lines is stated on the ranges only *)
Definition lr_ok' (line : bytes) (lr : line_ranges) : Prop :=
  range_ok line (0, lr_number_end lr)
  /\ (forall trs, lr_token_ranges lr = Some trs -> Forall (range_ok line) trs)
  /\ (forall r, lr_error_range lr = Some r -> range_ok line r).

Lemma lr_ok'_empty line : lr_ok' line empty_ranges.
Proof.
  unfold lr_ok', empty_ranges. cbn. split; [unfold range_ok; cbn; repeat split; lia|].
  split; intros ? H; discriminate.
Qed.

Lemma numbered_range line n e :
  valid_utf8 line = true -> parse_line_number line = Some (n, e) ->
  e <= length line /\ char_boundary line e = true /\ range_ok line (0, e).
Proof.
  intros Hv Ep. destruct (parse_line_number_end line n e Hv Ep) as (He0 & He & Hbe).
  split; [exact He|]. split; [exact Hbe|]. unfold range_ok; cbn. repeat split; (lia || assumption).
Qed.

Lemma line_record_ok line : valid_utf8 line = true -> lr_ok' line (line_record line).
Proof.
  intros Hv. unfold line_record. destruct line as [|b l]; [apply lr_ok'_empty|]. set (line := b :: l) in *.
  destruct (parse_line_number line) as [[n e]|] eqn:Ep; [|apply lr_ok'_empty].
  destruct (numbered_range line n e Hv Ep) as (He & Hbe & Hnum).
  destruct (tokenize line e) as [ts|ts err] eqn:Et; (split; [exact Hnum|]); cbn [lr_token_ranges lr_error_range].
  - split; [|intros ? H; discriminate]. intros trs H; injection H as <-. eapply tokenize_range_ok; eauto.
  - split; [intros ? H; discriminate|]. intros r H. injection H as <-. eapply tokenize_error_range_ok; eassumption.
Qed.

(* the messages a step adds name the line itself; a tokenizer error comes with
   the line's error range *)
Definition new_msg (i : nat) (lr : line_ranges) (msg : message) : Prop :=
  match msg with
  | MWarning fl None _ => fl = i
  | MError fl (ESyntaxTok _) None => fl = i /\ lr_error_range lr <> None
  | _ => False
  end.

Lemma pass1_case_msgs i line p prog new binds lr lt :
  pass1_case i line p prog new binds lr lt -> Forall (new_msg i lr) new.
Proof.
  assert (R : forall lr n, Forall (new_msg i lr) (redefinition_msg i n p)).
  { intros lr' n. unfold redefinition_msg. destruct (store_has n (p_prog p)); repeat constructor. }
  intros [El | Hne Ep | n e Hne Ep Et | n e ts Hne Ep Et Hts | n e ts err Hne Ep Et];
    try apply Forall_app; repeat split; try apply R; repeat constructor; discriminate.
Qed.

Definition msg_ok (ranges : list line_ranges) (msg : message) : Prop :=
  match msg with
  | MError fl (ESyntaxTok _) _ =>
      exists lr r, nth_error ranges fl = Some lr /\ lr_error_range lr = Some r
  | _ => True
  end.

Lemma msg_ok_app ranges extra msg : msg_ok ranges msg -> msg_ok (ranges ++ extra) msg.
Proof.
  destruct msg as [fl l t|fl e l]; cbn; auto. destruct e; auto.
  intros (lr & r & H1 & H2). exists lr, r. split; [|exact H2]. rewrite nth_error_app1; [exact H1|].
  apply nth_error_Some. congruence.
Qed.

Lemma Forall_msg_ok_app ranges extra msgs :
  Forall (msg_ok ranges) msgs -> Forall (msg_ok (ranges ++ extra)) msgs.
Proof. apply Forall_impl. intros m. apply msg_ok_app. Qed.

(* what is threaded through pass 1 beside the two maps: every binding points at a
   recorded file line, every tokenizer-error message at a recorded error range *)
Record Pass1Inv (p : pass1) : Prop := {
  q_bind : Forall (fun kv => snd kv < length (sm_ranges (p_map p))) (sm_lines (p_map p));
  q_msgs : Forall (msg_ok (sm_ranges (p_map p))) (p_msgs p) }.

(* a step's index is the number of records so far *)
Lemma Pass1Inv_step p line : Pass1Inv p -> Pass1Inv (pass1_line (length (sm_ranges (p_map p))) line p).
Proof.
  intros [Hbind Hmsgs].
  destruct (pass1_line_case (length (sm_ranges (p_map p))) line p) as (prog & msgs & binds & lr & lt & C & ->).
  assert (Hb : Forall (fun kv => snd kv < length (sm_ranges (p_map p) ++ [lr])) (sm_lines (p_map p))).
  { rewrite app_length, Nat.add_1_r. revert Hbind. apply Forall_impl. intros; lia. }
  split; cbn [p_map p_msgs sm_ranges sm_lines].
  - destruct C; try exact Hb. constructor; [cbn [snd]; rewrite app_length; cbn [length]; lia | exact Hb].
  - apply Forall_app. split; [apply Forall_msg_ok_app, Hmsgs|].
    generalize (pass1_case_msgs _ _ _ _ _ _ _ _ C). apply Forall_impl.
    intros [fl [l|] w|fl [] [l|]]; cbn; try tauto. intros [-> Hr].
    destruct (lr_error_range lr) as [r|] eqn:Er; [|congruence]. exists lr, r. split; [|exact Er].
    rewrite nth_error_app2, Nat.sub_diag by apply le_n. reflexivity.
Qed.

Lemma Pass1Inv_lines : forall lines p,
  Pass1Inv p -> Pass1Inv (pass1_lines (length (sm_ranges (p_map p))) lines p).
Proof.
  induction lines as [|l lines IH]; intros p Hp; cbn [pass1_lines]; [exact Hp|].
  pose proof (IH _ (Pass1Inv_step p l Hp)) as H.
  rewrite pass1_line_ranges, app_length, Nat.add_1_r in H. exact H.
Qed.

Definition pass1_of (text : bytes) : pass1 :=
  pass1_lines 0 (split_lines text) (mkpass1 init_interp [] (mkmap [] []) []).

Lemma pass1_inv text : Pass1Inv (pass1_of text).
Proof. apply (Pass1Inv_lines (split_lines text) (mkpass1 init_interp [] (mkmap [] []) [])). split; constructor. Qed.

Lemma pass1_out text :
  p_toks (pass1_of text) = map line_classes (split_lines text)
  /\ sm_ranges (p_map (pass1_of text)) = map line_record (split_lines text).
Proof. exact (pass1_lines_out (split_lines text) 0 _). Qed.

(* the walk only appends messages, and each is the message of one line's walk *)
Lemma walk_lines_adds fuel m (P : message -> Prop) :
  (forall k st msg st', walk_line fuel k m st = (Ok (Some msg), st') -> P msg) ->
  forall n msgs st r msgs' st',
  walk_lines fuel n m msgs st = (r, msgs', st') -> exists more, msgs' = msgs ++ more /\ Forall P more.
Proof.
  intros HP. induction n as [|n IH]; intros msgs st r msgs' stf E; cbn [walk_lines] in E.
  - injection E as _ <- _. exists []. split; [symmetry; apply app_nil_r | constructor].
  - destruct (walk_line fuel _ m st) as [[om|e l|p| |] st'] eqn:Ew;
      try (injection E as _ <- _; exists []; split; [symmetry; apply app_nil_r | constructor]).
    assert (H1 : exists x, match om with Some msg => msgs ++ [msg] | None => msgs end = msgs ++ x /\ Forall P x).
    { destruct om as [msg|]; [|exists []; split; [symmetry; apply app_nil_r | constructor]].
      exists [msg]. split; [reflexivity|]. constructor; [exact (HP _ _ _ _ Ew) | constructor]. }
    destruct H1 as (x & Hx & HPx). rewrite Hx in E.
    destruct (next_line (fst st')) as [[[|]|e l|p| |] p1];
      try (injection E as _ <- _; exists x; split; [reflexivity | exact HPx]).
    destruct (IH _ _ _ _ _ E) as (y & -> & Hy). exists (x ++ y). split; [rewrite app_assoc; reflexivity|].
    apply Forall_app. split; assumption.
Qed.

Lemma analyze_walk fuel text : exists n r msgs st,
  walk_lines fuel n (p_map (pass1_of text)) (p_msgs (pass1_of text))
             (snd (run_from_first_numbered_line (p_prog (pass1_of text))), []) = (r, msgs, st)
  /\ an_map (analyze fuel text) = p_map (pass1_of text)
  /\ an_tokens (analyze fuel text) = p_toks (pass1_of text)
  /\ an_nlines (analyze fuel text) = length (split_lines text)
  /\ an_program (analyze fuel text) = fst st
  /\ an_result (analyze fuel text) =
     match r with
     | Ok _ => match symbol_messages (p_map (pass1_of text)) (symbol_warnings (snd st)) with
               | Some _ => Ok tt
               | None => Panic PUnwrapLine
               end
     | other => other
     end
  /\ exists more, an_messages (analyze fuel text) = msgs ++ more.
Proof.
  unfold analyze. fold (pass1_of text).
  destruct (walk_lines _ _ _ _ _) as [[r msgs] st] eqn:Ew.
  eexists _, r, msgs, st. split; [exact Ew|].
  destruct r as [u|e l|pp| |]; [destruct (symbol_messages _ _) as [sm|]|..]; cbn;
    repeat (split; [reflexivity|]); first [exists sm; reflexivity | exists []; symmetry; apply app_nil_r].
Qed.

Lemma analyze_fields fuel text :
  an_map (analyze fuel text) = p_map (pass1_of text)
  /\ an_tokens (analyze fuel text) = p_toks (pass1_of text)
  /\ an_nlines (analyze fuel text) = length (split_lines text)
  /\ exists more, an_messages (analyze fuel text) = p_msgs (pass1_of text) ++ more.
Proof.
  destruct (analyze_walk fuel text) as (n & r & msgs & st & Ew & H1 & H2 & H3 & _ & _ & more & Hm).
  destruct (walk_lines_adds _ _ _ (fun _ _ _ _ _ => I) _ _ _ _ _ _ Ew) as (more0 & -> & _).
  repeat (split; [assumption|]). exists (more0 ++ more). rewrite Hm. symmetry. apply app_assoc.
Qed.

Theorem analysis_shape fuel text :
  length (an_tokens (analyze fuel text)) = length (split_lines text)
  /\ an_nlines (analyze fuel text) = length (split_lines text)
  /\ length (sm_ranges (an_map (analyze fuel text))) = length (split_lines text).
Proof.
  destruct (analyze_fields fuel text) as (H1 & H2 & H3 & _). rewrite H1, H2, H3.
  destruct (pass1_out text) as [-> ->]. rewrite !map_length. repeat split.
Qed.

Theorem analysis_tokens_ordered fuel text : Forall (fun lt => ordered 0 lt) (an_tokens (analyze fuel text)).
Proof.
  destruct (analyze_fields fuel text) as (_ & -> & _). rewrite (proj1 (pass1_out text)).
  apply Forall_forall. intros lt Hin. apply in_map_iff in Hin as (line & <- & _). apply line_classes_ordered.
Qed.

Lemma pass1_ranges_ok text : Forall (fun l => valid_utf8 l = true) (split_lines text) ->
  Forall2 lr_ok' (split_lines text) (sm_ranges (p_map (pass1_of text))).
Proof.
  rewrite (proj2 (pass1_out text)). induction 1 as [|l ls Hl _ IH]; cbn [map]; constructor; [apply line_record_ok, Hl | exact IH].
Qed.

Lemma Forall2_at {A B} (R : A -> B -> Prop) l1 l2 i b :
  Forall2 R l1 l2 -> nth_error l2 i = Some b -> exists a, nth_error l1 i = Some a /\ R a b.
Proof.
  intros H. revert i. induction H as [|x y l1 l2 Hxy _ IH]; intros i Hi; [destruct i; discriminate|].
  destruct i as [|i]; [inversion Hi; subst; exists x; split; [reflexivity|exact Hxy]|apply IH, Hi].
Qed.

Lemma map_location_in_bounds lines m l fl r :
  Forall2 lr_ok' lines (sm_ranges m) -> map_location_to_source m l = Some (fl, r) ->
  exists line, nth_error lines fl = Some line /\ range_ok line r.
Proof.
  intros HF. unfold map_location_to_source.
  destruct (loc_line l) as [n|]; [|discriminate].
  destruct (sm_lookup n (sm_lines m)) as [fl'|]; [|discriminate].
  destruct (nth_error (sm_ranges m) fl') as [lr|] eqn:En; [|discriminate].
  destruct (lr_token_ranges lr) as [trs|] eqn:Et; [|discriminate].
  destruct (nth_error trs _) as [r'|] eqn:Er; [|discriminate].
  intros H; inversion H; subst fl' r'.
  destruct (Forall2_at _ _ _ _ _ HF En) as (line & Hl & (_ & Htr & _)).
  exists line. split; [exact Hl|]. specialize (Htr trs Et). rewrite Forall_forall in Htr.
  apply Htr. eapply nth_error_In; exact Er.
Qed.

Theorem mapped_in_bounds fuel text msg fl r :
  Forall (fun l => valid_utf8 l = true) (split_lines text) ->
  msg_ok (sm_ranges (an_map (analyze fuel text))) msg ->
  map_to_source (an_map (analyze fuel text)) msg = Some (fl, r) ->
  exists line, nth_error (split_lines text) fl = Some line /\ range_ok line r.
Proof.
  intros Hv Hok. destruct (analyze_fields fuel text) as (H1 & _). rewrite H1 in *.
  pose proof (pass1_ranges_ok text Hv) as HF.
  set (m := p_map (pass1_of text)) in *.
  destruct msg as [mfl [l|] t|mfl e l]; cbn [map_to_source].
  - apply map_location_in_bounds, HF.
  - destruct (nth_error (sm_ranges m) mfl) as [lr|] eqn:En; [|discriminate].
    intros H; inversion H; subst. destruct (Forall2_at _ _ _ _ _ HF En) as (line & Hl & (Hn & _)).
    exists line. split; assumption.
  - destruct e; try (destruct l as [l|]; [apply map_location_in_bounds, HF|discriminate]).
    cbn in Hok. destruct Hok as (lr & r' & En & Er). rewrite En, Er.
    intros H; inversion H; subst. destruct (Forall2_at _ _ _ _ _ HF En) as (line & Hl & (_ & _ & He)).
    exists line. split; [exact Hl|]. apply He, Er.
Qed.

Theorem pass1_messages_ok fuel text :
  exists more, an_messages (analyze fuel text) = p_msgs (pass1_of text) ++ more
               /\ Forall (msg_ok (sm_ranges (an_map (analyze fuel text)))) (p_msgs (pass1_of text)).
Proof.
  destruct (analyze_fields fuel text) as (H1 & _ & _ & (more & Hm)).
  exists more. split; [exact Hm|]. rewrite H1. exact (q_msgs _ (pass1_inv text)).
Qed.

Theorem bindings_in_file fuel text :
  Forall (fun kv => snd kv < length (split_lines text)) (sm_lines (an_map (analyze fuel text))).
Proof.
  destruct (analyze_fields fuel text) as (H1 & _). rewrite H1.
  pose proof (q_bind _ (pass1_inv text)) as H. rewrite (proj2 (pass1_out text)), map_length in H. exact H.
Qed.

(* Nothing uses what follows: what [digit_run] and [skip_ascii_ws] compute; [char_boundary] at the end of a
   line; [lr_ok], which asks of a range record what [lr_ok'] asks and the recorded length of the line, which
   the records of blank and unnumbered lines do not have (see [lr_ok']). *)
Lemma digit_run_split s : exists r, s = digit_run s ++ r /\ Forall (fun b => is_digit b = true) (digit_run s).
Proof.
  induction s as [|b s IH]; cbn [digit_run]; [exists []; split; [reflexivity|constructor]|].
  destruct (is_digit b) eqn:E; [|exists (b :: s); split; [reflexivity|constructor]].
  destruct IH as (r & Hr & Hf). exists r. split; [cbn; congruence|constructor; assumption].
Qed.

Lemma skip_ascii_ws_le s : skip_ascii_ws s <= length s.
Proof. induction s as [|b s IH]; cbn [skip_ascii_ws length]; [lia|]. destruct (is_ascii_ws b); lia. Qed.

Definition lr_ok (line : bytes) (lr : line_ranges) : Prop :=
  lr_length lr = length line
  /\ range_ok line (0, lr_number_end lr)
  /\ (forall trs, lr_token_ranges lr = Some trs -> Forall (range_ok line) trs)
  /\ (forall r, lr_error_range lr = Some r -> range_ok line r).

Lemma lr_ok_empty line : line = [] \/ True -> range_ok line (0, 0).
Proof. intros _. unfold range_ok. cbn. repeat split; lia. Qed.

Lemma lr_ok_empty_ranges line : lr_ok line (mkranges 0 None None (length line)).
Proof.
  unfold lr_ok. cbn. split; [reflexivity|]. split; [unfold range_ok; cbn; repeat split; lia|].
  split; intros ? H; discriminate.
Qed.

Lemma char_boundary_len line : char_boundary line (length line) = true.
Proof.
  unfold char_boundary. destruct (length line) as [|n] eqn:E; [reflexivity|].
  destruct (nth_error line (S n)) as [b|] eqn:En; [|apply Nat.eqb_refl].
  assert (S n < length line) by (apply nth_error_Some; congruence). lia.
Qed.
