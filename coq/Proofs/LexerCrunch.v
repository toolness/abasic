(* C12, line crunching: the tokenizer model (Model/Lexer.v) ignores blanks and
   letter case outside literal text.  [ins_at i w line] inserts the blank [w]
   before byte [i], [flip_at i line] changes the case of byte [i]; protected
   positions are computed from the tokenizer's own ranges.  Each attempt of the
   dispatcher is related to itself on the perturbed text (ins_rel, flip_rel),
   the relation is lifted to the dispatcher (LexerRanges.first_hit_rel) and
   along the line (LexerRanges.toks_ind).  For the matchers that read through
   the cruncher (Cruncher.v) the relation is [lifted_edit]: a blank leaves [nb]
   alone and moves [off] by [sh] (nb_ins, off_ins), a flip changes neither
   (nb_off_case).  The DATA item parser decides from what it consumes
   (DataProofs.parse_data_local); its own insensitivity to blanks is in
   DataProofs.v. *)
From Coq Require Import List NArith ZArith Bool Lia Arith ZifyBool Relations.
From Abasic Require Import Model.Bytes Model.Token Model.Data Model.Lexer Gen.Tables
     Proofs.DataProofs Proofs.Cruncher Proofs.LexerRanges.
Import ListNotations.
Local Open Scope nat_scope.

Definition ins_at (i : nat) (b : N) (s : bytes) : bytes := firstn i s ++ b :: skipn i s.

Definition flipc (b : N) : N :=
  if is_upper b then (b + 32)%N else if is_lower b then (b - 32)%N else b.

Fixpoint flip_at (i : nat) (s : bytes) : bytes :=
  match s with
  | [] => []
  | b :: t => match i with O => flipc b :: t | S i' => b :: flip_at i' t end
  end.

(* [sh j n]: a length / end offset [n] after a byte was inserted at offset [j];
   strict, because an insertion point [j] lies in front of byte [j]: a span of
   length [j] does not contain it.  The same reading makes the tests on
   insertion points ([<?] against an end) and on bytes differ by one below. *)
Definition sh (j n : nat) : nat := if j <? n then S n else n.

Lemma sh_lt j n : j < n -> sh j n = S n.
Proof. unfold sh. intros H. destruct (Nat.ltb_spec j n); lia. Qed.
Lemma sh_ge j n : n <= j -> sh j n = n.
Proof. unfold sh. intros H. destruct (Nat.ltb_spec j n); lia. Qed.
Lemma sh_S j n : sh (S j) (S n) = S (sh j n).
Proof. unfold sh. change (S j <? S n) with (j <? n). destruct (j <? n); reflexivity. Qed.

Lemma ins_at_0 b s : ins_at 0 b s = b :: s.
Proof. reflexivity. Qed.
Lemma ins_at_S j b x t : ins_at (S j) b (x :: t) = x :: ins_at j b t.
Proof. reflexivity. Qed.
Lemma ins_at_nil j b : ins_at j b [] = [b].
Proof. destruct j; reflexivity. Qed.

Lemma length_ins_at j b s : length (ins_at j b s) = S (length s).
Proof.
  unfold ins_at. rewrite app_length. cbn [length].
  rewrite Nat.add_succ_r, <- app_length, firstn_skipn. reflexivity.
Qed.

Lemma skipn_ins_le : forall s j n b, j <= n -> skipn (S n) (ins_at j b s) = skipn n s.
Proof.
  induction s as [|x t IH]; intros j n b H.
  - rewrite ins_at_nil. cbn [skipn]. now rewrite !skipn_nil.
  - destruct j as [|j]; [reflexivity|]. destruct n as [|n]; [lia|].
    rewrite ins_at_S. cbn [skipn]. apply (IH j n b). lia.
Qed.

Lemma skipn_ins_ge : forall n j s b, n <= j -> j <= length s ->
  skipn n (ins_at j b s) = ins_at (j - n) b (skipn n s).
Proof.
  induction n as [|n IH]; intros j s b H1 H2.
  - now rewrite Nat.sub_0_r.
  - destruct j as [|j]; [lia|]. destruct s as [|x t]; [cbn in H2; lia|].
    rewrite ins_at_S. cbn [skipn Nat.sub]. apply IH; cbn in H2; lia.
Qed.

Lemma firstn_ins_ge : forall n j s b, n <= j -> j <= length s ->
  firstn n (ins_at j b s) = firstn n s.
Proof.
  induction n as [|n IH]; intros j s b H1 H2; [reflexivity|].
  destruct j as [|j]; [lia|]. destruct s as [|x t]; [cbn in H2; lia|].
  rewrite ins_at_S. cbn [firstn]. f_equal. apply IH; cbn in H2; lia.
Qed.

Lemma crunch_next_pos s c n : crunch_next s = Some (c, n) -> 1 <= n.
Proof. intros H. pose proof (crunch_next_nb s) as N. rewrite H in N. destruct N as (-> & _). rewrite off_pos. lia. Qed.

(* Protection relative to the start of a token: [s] = the text from its first
   byte, [n] = its length, [j >= 1] = offset of the insertion point / byte. *)

Definition prot_tok_ins (s : bytes) (t : token) (n j : nat) : bool :=
  match t with
  | TString _ => j <? n
  | TRemark c => n - length c <=? j
  | TData _ => match chomp_keyword data_keyword s with
               | Some k => (k <=? j) && (j <=? n)
               | None => false
               end
  | _ => false
  end.

Definition prot_tok_byte (s : bytes) (t : token) (n j : nat) : bool :=
  match t with
  | TString _ => S j <? n
  | TRemark c => n - length c <=? j
  | TData _ => match chomp_keyword data_keyword s with
               | Some k => (k <=? j) && (j <? n)
               | None => false
               end
  | _ => false
  end.

Lemma prot_tok_ins_plain s t n j : verb_tok t = false -> prot_tok_ins s t n j = false.
Proof. destruct t; cbn; congruence. Qed.

Section Ins.
Variable bl : N.
Hypothesis Hbl : is_basic_ws bl = true.

Lemma nb_ins : forall s j, nb (ins_at j bl s) = nb s.
Proof.
  induction s as [|x t IH]; intros j; [rewrite ins_at_nil; cbn [nb]; now rewrite Hbl|].
  destruct j as [|j]; [rewrite ins_at_0; cbn [nb]; now rewrite Hbl|].
  rewrite ins_at_S. cbn [nb]. now rewrite IH.
Qed.

Lemma off_ins : forall s j k, j <= length s -> off (ins_at j bl s) k = sh j (off s k).
Proof.
  induction s as [|x t IH]; intros j k Hj.
  - replace j with 0 by (cbn in Hj; lia). destruct k as [|k]; [reflexivity|]. rewrite ins_at_0, off_cons, Hbl. reflexivity.
  - destruct k as [|k]; [now rewrite !off_0|]. destruct j as [|j].
    + rewrite ins_at_0, off_cons, Hbl, (off_pos (x :: t)). reflexivity.
    + rewrite ins_at_S, !off_cons, IH by (cbn in Hj; lia). now rewrite sh_S.
Qed.

(* No lifted matcher sees the blank: its answer moves with the offsets. *)
Lemma lifted_ins {A} (f m : bytes -> option (A * nat)) s j : lifted f m -> j <= length s ->
  m (ins_at j bl s) = match m s with Some (a, n) => Some (a, sh j n) | None => None end.
Proof. intros L Hj. apply (lifted_edit f m L); [apply nb_ins|intros k; now apply off_ins]. Qed.

Lemma chomp_keyword_ins kw s j : j <= length s ->
  chomp_keyword kw (ins_at j bl s) = option_map (sh j) (chomp_keyword kw s).
Proof. intros Hj. apply chomp_keyword_edit; [apply nb_ins|intros k; now apply off_ins]. Qed.

Definition sh_tok (j : nat) (r : option (token * nat)) : option (token * nat) :=
  match r with Some (t, n) => Some (t, sh j n) | None => None end.

Lemma chomp_any_keyword_ins s j : j <= length s ->
  chomp_any_keyword (ins_at j bl s) = sh_tok j (chomp_any_keyword s).
Proof. exact (lifted_ins _ _ s j any_keyword_lifted). Qed.

Lemma leading_ws_ins s j : j <= length s ->
  leading_ws (ins_at j bl s) = if j <=? leading_ws s then S (leading_ws s) else leading_ws s.
Proof.
  intros Hj. rewrite !leading_ws_off, off_ins, off_pos by exact Hj. cbn [Nat.pred]. unfold sh.
  destruct (Nat.ltb_spec j (S (Nat.pred (off s 1)))), (Nat.leb_spec j (Nat.pred (off s 1))); cbn [Nat.pred]; lia.
Qed.

(* What an attempt says on [s] and on [s] with a blank inserted at offset [j]:
   outside a verbatim region the same token, its length moved by [sh j]; inside
   one, some token that still holds [j]. *)
Definition ins_rel (s : bytes) (j : nat) (r r' : chomp token) : Prop :=
  match r with
  | Match t n =>
      if prot_tok_ins s t n j
      then exists t' n', r' = Match t' n' /\ prot_tok_byte (ins_at j bl s) t' n' j = true
      else r' = Match t (sh j n)
  | NoMatch => r' = NoMatch
  | Fail _ => exists e', r' = Fail e'
  end.

Lemma ins_rel_opt s j o :
  (forall t n, o = Some (t, n) -> verb_tok t = false) ->
  ins_rel s j (of_opt o) (of_opt (sh_tok j o)).
Proof.
  intros Hv. destruct o as [[t n]|]; cbn [of_opt sh_tok ins_rel]; [|reflexivity].
  now rewrite prot_tok_ins_plain by (eapply Hv; reflexivity).
Qed.

Lemma any_keyword_ins_rel s j : j <= length s ->
  ins_rel s j (of_opt (chomp_any_keyword s)) (of_opt (chomp_any_keyword (ins_at j bl s))).
Proof.
  intros Hj. rewrite chomp_any_keyword_ins by exact Hj. apply ins_rel_opt.
  intros t n H. now apply chomp_any_keyword_spec in H.
Qed.

Lemma chomp_one_or_two_ins s j : j <= length s ->
  chomp_one_or_two (ins_at j bl s) = sh_tok j (chomp_one_or_two s).
Proof. exact (lifted_ins _ _ s j one_or_two_lifted). Qed.

Lemma one_or_two_ins_rel s j : j <= length s ->
  ins_rel s j (of_opt (chomp_one_or_two s)) (of_opt (chomp_one_or_two (ins_at j bl s))).
Proof.
  intros Hj. rewrite chomp_one_or_two_ins by exact Hj. apply ins_rel_opt.
  intros t n H. now apply chomp_one_or_two_spec in H.
Qed.

Lemma bl_not_quote : (bl =? 34)%N = false.
Proof. unfold is_basic_ws, is_ascii_ws in Hbl. lia. Qed.

Lemma find_quote_ins : forall t j,
  find_quote (ins_at j bl t) =
  match find_quote t with Some k => Some (if j <=? k then S k else k) | None => None end.
Proof.
  induction t as [|x t IH]; intros j.
  - rewrite ins_at_nil. cbn [find_quote]. now rewrite bl_not_quote.
  - destruct j as [|j].
    + rewrite ins_at_0. cbn [find_quote]. rewrite bl_not_quote.
      destruct (x =? 34)%N; [reflexivity|]. destruct (find_quote t); reflexivity.
    + rewrite ins_at_S. cbn [find_quote]. destruct (x =? 34)%N; [reflexivity|].
      rewrite IH. destruct (find_quote t) as [k|]; [|reflexivity].
      change (S j <=? S k) with (j <=? k). destruct (j <=? k); reflexivity.
Qed.

Lemma chomp_string_ins p s j : 1 <= j <= length s ->
  ins_rel s j (chomp_string p s) (chomp_string p (ins_at j bl s)).
Proof.
  intros Hj. rewrite !chomp_string_eq. destruct s as [|b r]; [cbn in Hj; lia|].
  destruct j as [|j]; [lia|]. rewrite ins_at_S. cbn [length] in Hj.
  destruct (b =? 34)%N; [|reflexivity]. rewrite find_quote_ins.
  destruct (find_quote r) as [k|] eqn:Ek; [|cbn; eauto].
  cbn [ins_rel prot_tok_ins]. destruct (Nat.ltb_spec (S j) (k + 2)) as [Hlt|Hge].
  - destruct (Nat.leb_spec j k); [|lia]. do 2 eexists. split; [reflexivity|].
    cbn [prot_tok_byte]. apply Nat.ltb_lt. lia.
  - destruct (Nat.leb_spec j k); [lia|]. rewrite firstn_ins_ge by lia. now rewrite sh_ge by lia.
Qed.

Lemma chomp_number_ins p s j : j <= length s ->
  ins_rel s j (chomp_number p s) (chomp_number p (ins_at j bl s)).
Proof.
  intros Hj. rewrite !chomp_number_eq, (lifted_ins _ _ _ _ number_lifted Hj).
  destruct (number_m s) as [[d n]|]; [|reflexivity]. destruct (num_val d); cbn; eauto.
Qed.

Lemma chomp_symbol_ins s j : j <= length s ->
  ins_rel s j (chomp_symbol s) (chomp_symbol (ins_at j bl s)).
Proof.
  intros Hj. rewrite !chomp_symbol_eq, (lifted_ins _ _ _ _ symbol_lifted Hj).
  now destruct (symbol_m s) as [[ch n]|].
Qed.

Lemma nth_error_ins_lt : forall s j m (b : N), m < j -> j <= length s -> nth_error (ins_at j b s) m = nth_error s m.
Proof.
  intros s j m b Hm Hj. unfold ins_at. rewrite nth_error_app1 by (rewrite firstn_length; lia).
  rewrite <- (firstn_skipn j s) at 2. now rewrite nth_error_app1 by (rewrite firstn_length; lia).
Qed.

(* A blank behind what the parser consumed changes nothing; one inside it is
   consumed as well. *)
Lemma parse_data_ins text j r m :
  parse_data text = (r, m) -> j <= length text ->
  if m <? j then parse_data (ins_at j bl text) = (r, m) else j < snd (parse_data (ins_at j bl text)).
Proof.
  intros H Hj. destruct (parse_data_stop _ _ _ H) as [Hm Hs]. destruct (Nat.ltb_spec m j) as [Hlt|Hge].
  - apply (parse_data_local text _ _ _ H); [apply firstn_ins_ge; lia|].
    destruct Hs as [Hs|Hs]; [lia|right]. now rewrite nth_error_ins_lt by lia.
  - (* were the parser to stop at or in front of the blank, it would stop there without the blank *)
    destruct (parse_data (ins_at j bl text)) as [r' m'] eqn:H'. cbn [snd].
    destruct (Nat.lt_ge_cases j m') as [|Hm']; [assumption|exfalso].
    destruct (parse_data_stop _ _ _ H') as [_ Hs']. rewrite length_ins_at in Hs'.
    destruct Hs' as [Hs'|Hs']; [lia|]. destruct (Nat.eq_dec m' j) as [->|Hne].
    + unfold ins_at in Hs'. rewrite nth_error_app2, firstn_length, Nat.min_l, Nat.sub_diag in Hs' by (rewrite ?firstn_length; lia).
      injection Hs' as ->. discriminate Hbl.
    + assert (E : parse_data text = (r', m')).
      { apply (parse_data_local _ _ _ _ H'); [symmetry; apply firstn_ins_ge; lia|].
        rewrite nth_error_ins_lt in Hs' by lia. right. split; [exact Hs'|]. now rewrite nth_error_ins_lt by lia. }
      rewrite H in E. injection E as _ ->. lia.
Qed.

Lemma chomp_remark_ins s j : j <= length s ->
  ins_rel s j (chomp_remark s) (chomp_remark (ins_at j bl s)).
Proof.
  intros Hj. unfold chomp_remark. rewrite chomp_keyword_ins by exact Hj.
  destruct (chomp_keyword rem_keyword s) as [k|] eqn:Ek; cbn [option_map]; [|reflexivity].
  cbn [ins_rel prot_tok_ins]. replace (k + length (skipn k s) - length (skipn k s)) with k by lia.
  destruct (Nat.leb_spec k j) as [Hle|Hgt].
  - rewrite sh_ge by lia. rewrite skipn_ins_ge by lia. do 2 eexists. split; [reflexivity|].
    cbn [prot_tok_byte]. apply Nat.leb_le. lia.
  - rewrite (sh_lt j k) by lia. rewrite skipn_ins_le by lia. now rewrite sh_lt by lia.
Qed.

Lemma chomp_data_ins s j : j <= length s ->
  ins_rel s j (chomp_data s) (chomp_data (ins_at j bl s)).
Proof.
  intros Hj. unfold chomp_data. rewrite chomp_keyword_ins by exact Hj.
  destruct (chomp_keyword data_keyword s) as [k|] eqn:Ek; cbn [option_map]; [|reflexivity].
  destruct (parse_data (skipn k s)) as [el m] eqn:Ep.
  cbn [ins_rel prot_tok_ins]. rewrite Ek.
  destruct (Nat.leb_spec k j) as [Hle|Hgt]; cbn [andb].
  - rewrite (sh_ge j k) by lia. rewrite skipn_ins_ge by lia.
    pose proof (parse_data_ins (skipn k s) (j - k) el m Ep) as Hin.
    rewrite skipn_length in Hin. specialize (Hin ltac:(lia)).
    destruct (Nat.ltb_spec m (j - k)) as [Hlt|Hge].
    + destruct (Nat.leb_spec j (k + m)); [lia|]. rewrite Hin. now rewrite sh_ge by lia.
    + destruct (Nat.leb_spec j (k + m)); [|lia].
      destruct (parse_data (ins_at (j - k) bl (skipn k s))) as [el' m'] eqn:Ep'.
      cbn [snd] in Hin. do 2 eexists. split; [reflexivity|]. cbn [prot_tok_byte].
      rewrite chomp_keyword_ins, Ek by exact Hj. cbn [option_map]. rewrite (sh_ge j k) by lia.
      apply andb_true_iff. split; [apply Nat.leb_le|apply Nat.ltb_lt]; lia.
  - rewrite (sh_lt j k) by lia. rewrite skipn_ins_le by lia. rewrite Ep.
    now rewrite sh_lt by lia.
Qed.

Lemma chomp_next_token_ins p s j : 1 <= j <= length s ->
  ins_rel s j (chomp_next_token p s) (chomp_next_token p (ins_at j bl s)).
Proof.
  intros Hj. rewrite !chomp_next_token_eq.
  assert (F : Forall2 (ins_rel s j) (attempts p s) (attempts p (ins_at j bl s))).
  { repeat constructor; [apply any_keyword_ins_rel|apply one_or_two_ins_rel|apply chomp_string_ins
                         |apply chomp_number_ins|apply chomp_remark_ins|apply chomp_data_ins
                         |apply chomp_symbol_ins]; lia. }
  apply (first_hit_rel _ _ _ (fun _ H => H)) in F.
  destruct (first_hit (attempts p s)) as [|t n|e].
  - rewrite F. cbn. eauto.
  - destruct F as (r' & Hr & Hf). cbn [ins_rel] in *. destruct (prot_tok_ins s t n j).
    + destruct Hr as (t' & n' & -> & Hp). rewrite Hf by discriminate. eauto.
    + subst r'. now rewrite Hf by discriminate.
  - destruct F as (r' & [e' ->] & Hf). rewrite Hf by discriminate. cbn. eauto.
Qed.

End Ins.

(* An insertion point [i] ("before byte i"). *)
Definition prot1_ins (line : bytes) (i : nat) (r : ranged) : bool :=
  let '(t, (a, b)) := r in
  (a <? i) &&
  match t with
  | TString _ => i <? b
  | TRemark c => b - length c <=? i
  | TData _ => match chomp_keyword data_keyword (skipn a line) with
               | Some k => (a + k <=? i) && (i <=? b)
               | None => false
               end
  | _ => false
  end.

Definition protected_ins (ts : list ranged) (line : bytes) (i : nat) : bool :=
  existsb (prot1_ins line i) ts.

(* A byte [i] (case flips; the blank to be deleted). *)
Definition prot1_byte (line : bytes) (i : nat) (r : ranged) : bool :=
  let '(t, (a, b)) := r in
  (a <? i) &&
  match t with
  | TString _ => S i <? b
  | TRemark c => b - length c <=? i
  | TData _ => match chomp_keyword data_keyword (skipn a line) with
               | Some k => (a + k <=? i) && (i <? b)
               | None => false
               end
  | _ => false
  end.

Definition protected_byte (ts : list ranged) (line : bytes) (i : nat) : bool :=
  existsb (prot1_byte line i) ts.

Definition protected_flip := protected_byte.

Lemma prot1_ins_rel line a n j t : 1 <= j ->
  prot1_ins line (a + j) (t, (a, a + n)) = prot_tok_ins (skipn a line) t n j.
Proof.
  intros Hj. unfold prot1_ins, prot_tok_ins.
  destruct t; try lia.
  destruct (chomp_keyword data_keyword (skipn a line)); lia.
Qed.

Lemma prot1_byte_rel0 line a n j t :
  prot1_byte line (a + j) (t, (a, a + n)) = (0 <? j) && prot_tok_byte (skipn a line) t n j.
Proof.
  unfold prot1_byte, prot_tok_byte.
  destruct t; try lia.
  destruct (chomp_keyword data_keyword (skipn a line)); lia.
Qed.

Lemma prot1_byte_rel line a n j t : 1 <= j ->
  prot1_byte line (a + j) (t, (a, a + n)) = prot_tok_byte (skipn a line) t n j.
Proof. intros Hj. rewrite prot1_byte_rel0. destruct j; [lia|reflexivity]. Qed.

Lemma protected_ins_lb line i : forall ts lo hi,
  ranges_ok lo hi ts -> i <= lo -> protected_ins ts line i = false.
Proof.
  unfold protected_ins. induction ts as [|[t [a b]] ts IH]; intros lo hi H Hi; [reflexivity|].
  cbn [ranges_ok] in H. destruct H as (H1 & H2 & _ & H4).
  cbn [existsb]. rewrite (IH b hi H4) by lia.
  unfold prot1_ins. destruct (Nat.ltb_spec a i); [lia|reflexivity].
Qed.

(* Ranges after the insertion *)
Definition shift_r (i : nat) (r : ranged) : ranged :=
  let '(t, (a, b)) := r in (t, (if i <=? a then S a else a, sh i b)).

Lemma map_fst_shift_r i ts : map fst (map (shift_r i) ts) = map fst ts.
Proof. rewrite map_map. apply map_ext. intros [t [a b]]. reflexivity. Qed.

Lemma shift_r_lb i : forall ts lo hi,
  ranges_ok lo hi ts -> i <= lo -> map (add_r 1) ts = map (shift_r i) ts.
Proof.
  induction ts as [|[t [a b]] ts IH]; intros lo hi H Hi; [reflexivity|].
  cbn [ranges_ok] in H. destruct H as (H1 & H2 & _ & H4).
  cbn [map]. rewrite (IH b hi H4) by lia. f_equal.
  unfold add_r, shift_r. destruct (Nat.leb_spec i a); [|lia]. rewrite sh_lt by lia. reflexivity.
Qed.

Section InsLine.
Variable bl : N.
Hypothesis Hbl : is_basic_ws bl = true.

Variable line : bytes.
Variable i : nat.
Hypothesis Hi : i <= length line.

Let line' := ins_at i bl line.

Lemma skipn_line' pos : pos <= i -> skipn pos line' = ins_at (i - pos) bl (skipn pos line).
Proof. intros H. unfold line'. now apply skipn_ins_ge. Qed.

Lemma skipn_line'_after p : i <= p -> skipn (1 + p) line' = skipn p line.
Proof. intros H. unfold line'. now apply skipn_ins_le. Qed.

Lemma toks_ins_lead pos :
  pos <= i <= pos + leading_ws (skipn pos line) -> toks line' pos = add_res 1 (toks line pos).
Proof.
  intros Hp. set (a := pos + leading_ws (skipn pos line)) in *.
  rewrite <- (toks_from_blank line' pos (1 + a)).
  - rewrite (toks_suffix line line' 1 a) by (apply skipn_line'_after; lia).
    f_equal. apply toks_from_blank. lia.
  - rewrite skipn_line', (leading_ws_ins bl Hbl) by (rewrite ?skipn_length; lia).
    destruct (Nat.leb_spec (i - pos) (leading_ws (skipn pos line))); lia.
Qed.

Lemma hit_ins pos : pos + leading_ws (skipn pos line) < i ->
  let a := pos + leading_ws (skipn pos line) in
  pos + leading_ws (skipn pos line') = a
  /\ ins_rel bl (skipn a line) (i - a) (chomp_next_token a (skipn a line)) (chomp_next_token a (skipn a line')).
Proof.
  intros Ha. cbv zeta. set (a := pos + leading_ws (skipn pos line)) in *.
  assert (Hpos : pos <= a) by (unfold a; lia).
  rewrite (skipn_line' pos), (skipn_line' a) by lia. split.
  - rewrite (leading_ws_ins bl Hbl) by (rewrite skipn_length; lia).
    destruct (Nat.leb_spec (i - pos) (leading_ws (skipn pos line))); [unfold a in Ha; lia|reflexivity].
  - apply chomp_next_token_ins; [exact Hbl|]. rewrite skipn_length. lia.
Qed.

Lemma toks_after p : i <= p -> toks line' (1 + p) = add_res 1 (toks line p).
Proof. intros H. apply toks_suffix, skipn_line'_after, H. Qed.

(* What the insertion does to a result [r] of [line], whichever it is ("total":
   the token list or the error, the insertion point protected or not).  Since
   every line has a result, this also tells what [line] gives when [line'] is
   known (toks_del). *)
Definition ins_outcome (r r' : tok_result) : Prop :=
  match r with
  | TokOk ts =>
      if protected_ins ts line i then protected_byte (result_toks r') line' i = true
      else r' = TokOk (map (shift_r i) ts)
  | TokErr _ _ => protected_byte (result_toks r') line' i = true \/ exists ts' e', r' = TokErr ts' e'
  end.

Lemma ins_outcome_moved r lo : ranges_ok lo (length line) (result_toks r) -> i <= lo -> ins_outcome r (add_res 1 r).
Proof.
  intros Hr Hlo. destruct r as [ts|ts e]; cbn [ins_outcome add_res result_toks] in *; [|right; eauto].
  rewrite (protected_ins_lb line i _ _ _ Hr Hlo). f_equal. exact (shift_r_lb i _ _ _ Hr Hlo).
Qed.

Lemma ins_outcome_cons t a b b' r0 r0' :
  a < i -> prot1_ins line i (t, (a, b)) = false -> b' = sh i b -> ins_outcome r0 r0' ->
  ins_outcome (prepend [(t, (a, b))] r0) (prepend [(t, (a, b'))] r0').
Proof.
  intros Ha Hp -> H.
  assert (Hs : shift_r i (t, (a, b)) = (t, (a, sh i b)))
    by (unfold shift_r; destruct (Nat.leb_spec i a); [lia|reflexivity]).
  assert (Hb : forall r, protected_byte (result_toks r) line' i = true ->
                 protected_byte (result_toks (prepend [(t, (a, sh i b))] r)) line' i = true).
  { intros r Hr. destruct r; cbn [prepend result_toks app] in *; unfold protected_byte in *;
      cbn [existsb]; rewrite Hr; apply orb_true_r. }
  destruct r0 as [ts0|ts0 e]; cbn [ins_outcome prepend app] in *.
  - unfold protected_ins in *. cbn [existsb]. rewrite Hp. cbn [orb].
    destruct (existsb (prot1_ins line i) ts0); [now apply Hb|]. subst r0'. cbn [prepend app map]. now rewrite Hs.
  - destruct H as [H|(ts' & e' & ->)]; [left; now apply Hb|right; cbn [prepend]; eauto].
Qed.

Lemma ins_outcome_prot t a b t' b' r0 r0' :
  prot1_ins line i (t, (a, b)) = true -> prot1_byte line' i (t', (a, b')) = true ->
  ins_outcome (prepend [(t, (a, b))] r0) (prepend [(t', (a, b'))] r0').
Proof.
  intros Hp Hb.
  assert (H : protected_byte (result_toks (prepend [(t', (a, b'))] r0')) line' i = true)
    by (destruct r0'; cbn [prepend result_toks app]; unfold protected_byte; cbn [existsb]; now rewrite Hb).
  destruct r0; cbn [ins_outcome prepend app]; [|now left].
  unfold protected_ins. cbn [existsb]. now rewrite Hp.
Qed.

Lemma toks_ins_total_lead pos :
  pos <= i <= pos + leading_ws (skipn pos line) -> ins_outcome (toks line pos) (toks line' pos).
Proof.
  intros Hp. rewrite toks_ins_lead by exact Hp.
  rewrite <- (toks_from_blank line pos (pos + leading_ws (skipn pos line))) by lia.
  apply (ins_outcome_moved _ _ (toks_ranges line _)). lia.
Qed.

Lemma toks_ins_total : forall pos, pos <= i -> ins_outcome (toks line pos) (toks line' pos).
Proof.
  intros pos.
  apply (toks_ind line (fun pos r => r = toks line pos -> pos <= i -> ins_outcome r (toks line' pos)));
    [| | |reflexivity]; clear pos.
  - intros pos Hend -> Hpos. apply toks_ins_total_lead. lia.
  - intros pos t n a Ha Em IH Er Hpos.
    destruct (Nat.le_gt_cases i a) as [Hle|Hgt]; [rewrite Er; now apply toks_ins_total_lead|].
    pose proof (chomp_next_token_spec a (skipn a line)) as Hn. rewrite Em in Hn.
    destruct Hn as [Hn _]. rewrite skipn_length in Hn.
    destruct (hit_ins pos Hgt) as [Ea' Hrel]. fold a in Ea', Hrel. rewrite Em in Hrel. cbn [ins_rel] in Hrel.
    assert (Ha' : pos + leading_ws (skipn pos line') < length line')
      by (rewrite Ea'; unfold line'; rewrite length_ins_at; lia).
    pose proof (prot1_ins_rel line a n (i - a) t) as Hp. replace (a + (i - a)) with i in Hp by lia.
    destruct (prot_tok_ins (skipn a line) t n (i - a)).
    + (* inside the verbatim text of the token *)
      destruct Hrel as (t' & n' & Em' & Hb). rewrite <- (skipn_line' a), <- prot1_byte_rel in Hb by lia.
      replace (a + (i - a)) with i in Hb by lia.
      rewrite (toks_hit line' pos t' n' Ha'), Ea' by (rewrite Ea'; exact Em').
      apply ins_outcome_prot; [apply Hp; lia|exact Hb].
    + rewrite (toks_hit line' pos t (sh (i - a) n) Ha'), Ea' by (rewrite Ea'; exact Hrel).
      apply ins_outcome_cons; [exact Hgt|apply Hp; lia|unfold sh; destruct (Nat.ltb_spec (i - a) n), (Nat.ltb_spec i (a + n)); lia|].
      destruct (Nat.lt_ge_cases (i - a) n) as [Hin|Hout].
      * (* inside the token *)
        rewrite sh_lt by lia. replace (a + S n) with (1 + (a + n)) by lia. rewrite toks_after by lia.
        apply (ins_outcome_moved _ _ (toks_ranges line _)). lia.
      * (* behind the token *)
        rewrite sh_ge by lia. apply IH; [reflexivity|lia].
  - intros pos e a Ha Ef Er Hpos.
    destruct (Nat.le_gt_cases i a) as [Hle|Hgt]; [rewrite Er; now apply toks_ins_total_lead|].
    destruct (hit_ins pos Hgt) as [Ea' Hrel]. fold a in Ea', Hrel. rewrite Ef in Hrel. destruct Hrel as [e' Ef'].
    right. exists [], e'. apply toks_fail; rewrite Ea'; [unfold line'; rewrite length_ins_at; lia|exact Ef'].
Qed.

Lemma toks_ins pos ts :
  pos <= i -> toks line pos = TokOk ts -> protected_ins ts line i = false ->
  toks line' pos = TokOk (map (shift_r i) ts).
Proof.
  intros Hpos E Hp. pose proof (toks_ins_total pos Hpos) as H. rewrite E in H. cbn [ins_outcome] in H.
  now rewrite Hp in H.
Qed.

(* The converse: [line] has some result, and only an unprotected [TokOk] is
   compatible with what [line'] gives. *)
Lemma toks_del pos ts' :
  pos <= i -> toks line' pos = TokOk ts' -> protected_byte ts' line' i = false ->
  exists ts, toks line pos = TokOk ts /\ protected_ins ts line i = false.
Proof.
  intros Hpos E Hp. pose proof (toks_ins_total pos Hpos) as H. rewrite E in H.
  destruct (toks line pos) as [ts|ts e]; cbn [ins_outcome result_toks] in H.
  - destruct (protected_ins ts line i) eqn:Ep; [congruence|]. exists ts. auto.
  - destruct H as [H|(? & ? & H)]; congruence.
Qed.

End InsLine.

Theorem crunch_insert_ranges : forall line skip ts i w,
  skip <= i <= length line -> is_basic_ws w = true ->
  tokenize line skip = TokOk ts -> protected_ins ts line i = false ->
  tokenize (ins_at i w line) skip = TokOk (map (shift_r i) ts).
Proof.
  intros line skip ts i w Hi Hw H Hp. rewrite tokenize_toks in *.
  apply (toks_ins w Hw line i); auto; lia.
Qed.

Theorem crunch_insert : forall line skip ts i w,
  skip <= i <= length line -> is_basic_ws w = true ->
  tokenize line skip = TokOk ts -> protected_ins ts line i = false ->
  tokens_of (tokenize (ins_at i w line) skip) = Some (map fst ts).
Proof.
  intros line skip ts i w Hi Hw H Hp.
  rewrite (crunch_insert_ranges line skip ts i w) by assumption.
  cbn [tokens_of]. now rewrite map_fst_shift_r.
Qed.

(* Deleting the blank at index [i] of [ins_at i w line]. *)
Theorem crunch_delete_ranges : forall line skip ts' i w,
  skip <= i <= length line -> is_basic_ws w = true ->
  tokenize (ins_at i w line) skip = TokOk ts' ->
  protected_byte ts' (ins_at i w line) i = false ->
  exists ts, tokenize line skip = TokOk ts /\ protected_ins ts line i = false
             /\ ts' = map (shift_r i) ts.
Proof.
  intros line skip ts' i w Hi Hw H Hp. pose proof H as H0. rewrite tokenize_toks in H.
  destruct (toks_del w Hw line i ltac:(lia) skip ts' ltac:(lia) H Hp) as (ts & Hts & Hpi).
  rewrite <- tokenize_toks in Hts. exists ts. split; [exact Hts|]. split; [exact Hpi|].
  pose proof (crunch_insert_ranges line skip ts i w Hi Hw Hts Hpi) as H1. congruence.
Qed.

Theorem crunch_delete : forall line skip ts' i w,
  skip <= i <= length line -> is_basic_ws w = true ->
  tokenize (ins_at i w line) skip = TokOk ts' ->
  protected_byte ts' (ins_at i w line) i = false ->
  tokens_of (tokenize line skip) = Some (map fst ts').
Proof.
  intros line skip ts' i w Hi Hw H Hp.
  destruct (crunch_delete_ranges line skip ts' i w Hi Hw H Hp) as (ts & Hts & _ & ->).
  rewrite Hts. cbn [tokens_of]. now rewrite map_fst_shift_r.
Qed.

Lemma flip_at_nil j : flip_at j [] = [].
Proof. destruct j; reflexivity. Qed.

Lemma length_flip_at : forall s j, length (flip_at j s) = length s.
Proof. induction s as [|x t IH]; intros [|j]; cbn [flip_at length]; auto. Qed.

Lemma firstn_flip_ge : forall n j s, n <= j -> firstn n (flip_at j s) = firstn n s.
Proof.
  induction n as [|n IH]; intros j s Hj; [reflexivity|].
  destruct j as [|j]; [lia|]. destruct s as [|x t]; [reflexivity|].
  cbn [flip_at firstn]. rewrite IH by lia. reflexivity.
Qed.

Lemma skipn_flip_lt : forall n j s, j < n -> skipn n (flip_at j s) = skipn n s.
Proof.
  induction n as [|n IH]; intros j s Hj; [lia|].
  destruct s as [|x t]; [now rewrite flip_at_nil|].
  destruct j as [|j]; cbn [flip_at skipn]; [reflexivity|]. apply IH. lia.
Qed.

Lemma skipn_flip_ge : forall n j s, n <= j -> skipn n (flip_at j s) = flip_at (j - n) (skipn n s).
Proof.
  induction n as [|n IH]; intros j s Hj; [now rewrite Nat.sub_0_r|].
  destruct j as [|j]; [lia|]. destruct s as [|x t]; [cbn [skipn]; now rewrite !flip_at_nil|].
  cbn [flip_at skipn Nat.sub]. apply IH. lia.
Qed.

Definition case_rel (b b' : N) : Prop := b' = b \/ b' = flipc b.

Lemma case_rel_refl s : Forall2 case_rel s s.
Proof. induction s; constructor; [now left|assumption]. Qed.

Lemma flip_at_case : forall s j, Forall2 case_rel s (flip_at j s).
Proof.
  induction s as [|x t IH]; intros [|j]; cbn [flip_at]; constructor;
    try (now left); try (now right); auto using case_rel_refl.
Qed.

Lemma flipc_cases b : flipc b = b \/ (flipc b = (b + 32)%N /\ (65 <= b <= 90)%N)
                      \/ (flipc b = (b - 32)%N /\ (97 <= b <= 122)%N).
Proof.
  unfold flipc, is_upper, is_lower.
  destruct ((65 <=? b)%N && (b <=? 90)%N) eqn:E1; [right; left; lia|].
  destruct ((97 <=? b)%N && (b <=? 122)%N) eqn:E2; [right; right; lia|]. now left.
Qed.

Lemma case_rel_cases b b' : case_rel b b' ->
  b' = b \/ (b' = (b + 32)%N /\ (65 <= b <= 90)%N) \/ (b' = (b - 32)%N /\ (97 <= b <= 122)%N).
Proof. intros [->| ->]; [now left|]. apply flipc_cases. Qed.

Lemma case_ws b b' : case_rel b b' -> is_basic_ws b' = is_basic_ws b.
Proof. intros H. apply case_rel_cases in H. unfold is_basic_ws, is_ascii_ws. lia. Qed.

Lemma case_up b b' : case_rel b b' -> to_upper b' = to_upper b.
Proof.
  intros H. apply case_rel_cases in H. unfold to_upper, is_lower.
  destruct ((97 <=? b')%N && (b' <=? 122)%N) eqn:E1, ((97 <=? b)%N && (b <=? 122)%N) eqn:E2; lia.
Qed.

Lemma case_quote b b' : case_rel b b' -> (b' =? 34)%N = (b =? 34)%N.
Proof. intros H. apply case_rel_cases in H. lia. Qed.

Lemma nb_off_case s s' : Forall2 case_rel s s' -> nb s' = nb s /\ forall k, off s' k = off s k.
Proof.
  induction 1 as [|b b' s s' Hb _ [IH1 IH2]]; [auto|]. cbn [nb]. rewrite (case_ws _ _ Hb), (case_up _ _ Hb), IH1.
  split; [reflexivity|]. intros [|k]; [reflexivity|]. now rewrite !off_cons, (case_ws _ _ Hb), IH2.
Qed.

(* No lifted matcher sees the case of a letter. *)
Lemma lifted_case {A} (f m : bytes -> option (A * nat)) s s' : lifted f m -> Forall2 case_rel s s' -> m s' = m s.
Proof.
  intros L H. destruct (nb_off_case _ _ H) as [E1 E2]. rewrite (lifted_edit f m L (fun n => n) s s' E1 E2).
  now destruct (m s) as [[a n]|].
Qed.

Lemma chomp_keyword_case s s' kw : Forall2 case_rel s s' -> chomp_keyword kw s' = chomp_keyword kw s.
Proof.
  intros H. destruct (nb_off_case _ _ H) as [E1 E2]. rewrite (chomp_keyword_edit kw (fun n => n) s s' E1 E2).
  now destruct (chomp_keyword kw s).
Qed.

Lemma chomp_any_keyword_case s s' : Forall2 case_rel s s' -> chomp_any_keyword s' = chomp_any_keyword s.
Proof. exact (lifted_case _ _ s s' any_keyword_lifted). Qed.

Lemma chomp_one_or_two_case s s' : Forall2 case_rel s s' -> chomp_one_or_two s' = chomp_one_or_two s.
Proof. exact (lifted_case _ _ s s' one_or_two_lifted). Qed.

Lemma chomp_number_case p s s' : Forall2 case_rel s s' -> chomp_number p s' = chomp_number p s.
Proof. intros H. now rewrite !chomp_number_eq, (lifted_case _ _ _ _ number_lifted H). Qed.

Lemma chomp_symbol_case s s' : Forall2 case_rel s s' -> chomp_symbol s' = chomp_symbol s.
Proof. intros H. now rewrite !chomp_symbol_eq, (lifted_case _ _ _ _ symbol_lifted H). Qed.

Lemma find_quote_case s s' : Forall2 case_rel s s' -> find_quote s' = find_quote s.
Proof.
  induction 1 as [|b b' s s' Hb Hs IH]; cbn [find_quote]; [reflexivity|].
  rewrite (case_quote _ _ Hb), IH. reflexivity.
Qed.

(* What an attempt says on [s] and on [s] with byte [j] flipped: the same
   token, unless [j] lies in its verbatim text. *)
Definition flip_rel (s : bytes) (j : nat) (r r' : chomp token) : Prop :=
  match r with
  | Match t n => (0 <? j) && prot_tok_byte s t n j = false -> r' = Match t n
  | NoMatch => r' = NoMatch
  | Fail _ => True
  end.

Lemma flip_rel_refl s j r : flip_rel s j r r.
Proof. destruct r; cbn; auto. Qed.

Lemma chomp_string_flip p s j : flip_rel s j (chomp_string p s) (chomp_string p (flip_at j s)).
Proof.
  rewrite !chomp_string_eq. destruct s as [|b r]; [now rewrite flip_at_nil|].
  destruct j as [|j]; cbn [flip_at].
  - rewrite (case_quote b (flipc b) (or_intror eq_refl)). destruct (b =? 34)%N; [apply flip_rel_refl|reflexivity].
  - destruct (b =? 34)%N; [|reflexivity].
    rewrite (find_quote_case _ _ (flip_at_case r j)).
    destruct (find_quote r) as [q|]; [|exact I]. cbn [flip_rel prot_tok_byte].
    intros H. rewrite firstn_flip_ge by lia. reflexivity.
Qed.

Lemma chomp_keyword_pos kw s k : chomp_keyword kw s = Some k -> 1 <= k.
Proof.
  destruct kw as [|x kw]; [discriminate|]. unfold chomp_keyword. rewrite ckf_nb. destruct (starts _ _); [|discriminate].
  intros H; injection H as <-. cbn [length]. rewrite off_pos. lia.
Qed.

Lemma chomp_remark_flip s j : flip_rel s j (chomp_remark s) (chomp_remark (flip_at j s)).
Proof.
  unfold chomp_remark. rewrite (chomp_keyword_case _ _ _ (flip_at_case s j)).
  destruct (chomp_keyword rem_keyword s) as [k|] eqn:Ek; [|reflexivity].
  apply chomp_keyword_pos in Ek. cbn [flip_rel prot_tok_byte]. intros Hp.
  rewrite skipn_flip_lt by lia. reflexivity.
Qed.

Lemma nth_error_flip_fixed c : flipc c = c -> forall s j m, nth_error s m = Some c -> nth_error (flip_at j s) m = Some c.
Proof.
  intros Hc. induction s as [|x t IH]; intros j m H; [now rewrite flip_at_nil|].
  destruct j as [|j], m as [|m]; cbn [flip_at nth_error] in *; auto. now injection H as ->; rewrite Hc.
Qed.

Lemma parse_data_flip_after text j r m :
  parse_data text = (r, m) -> m <= j -> parse_data (flip_at j text) = (r, m).
Proof.
  intros H Hj. apply (parse_data_local text _ _ _ H); [now apply firstn_flip_ge|].
  destruct (parse_data_stop _ _ _ H) as [_ [Hs|Hs]]; [left; now rewrite length_flip_at|right].
  split; [|exact Hs]. now apply nth_error_flip_fixed.
Qed.

Lemma chomp_data_flip s j : flip_rel s j (chomp_data s) (chomp_data (flip_at j s)).
Proof.
  unfold chomp_data. rewrite (chomp_keyword_case _ _ _ (flip_at_case s j)).
  destruct (chomp_keyword data_keyword s) as [k|] eqn:Ek; [|reflexivity].
  destruct (parse_data (skipn k s)) as [el m] eqn:Ep.
  cbn [flip_rel prot_tok_byte]. rewrite Ek. apply chomp_keyword_pos in Ek. intros Hp.
  destruct (Nat.lt_ge_cases j k) as [Hj|Hj].
  - rewrite skipn_flip_lt by lia. now rewrite Ep.
  - rewrite skipn_flip_ge by lia. rewrite (parse_data_flip_after _ _ _ _ Ep) by lia. reflexivity.
Qed.

Lemma chomp_next_token_flip p s j :
  flip_rel s j (chomp_next_token p s) (chomp_next_token p (flip_at j s)).
Proof.
  rewrite !chomp_next_token_eq. pose proof (flip_at_case s j) as HR.
  assert (F : Forall2 (flip_rel s j) (attempts p s) (attempts p (flip_at j s))).
  { repeat constructor;
      [rewrite (chomp_any_keyword_case _ _ HR)|rewrite (chomp_one_or_two_case _ _ HR)|apply chomp_string_flip
       |rewrite (chomp_number_case p _ _ HR)|apply chomp_remark_flip|apply chomp_data_flip
       |rewrite (chomp_symbol_case _ _ HR)]; apply flip_rel_refl. }
  apply (first_hit_rel _ _ _ (fun _ H => H)) in F.
  destruct (first_hit (attempts p s)) as [|t n|e]; [now rewrite F| |exact I].
  destruct F as (r' & Hr & Hf). intros Hp. rewrite (Hr Hp) in Hf. now rewrite Hf by discriminate.
Qed.

Lemma leading_ws_case s s' : Forall2 case_rel s s' -> leading_ws s' = leading_ws s.
Proof. intros H. rewrite !leading_ws_off. now rewrite (proj2 (nb_off_case _ _ H)). Qed.

Section Flip.
Variable line : bytes.
Variable i : nat.

Let line' := flip_at i line.

(* a flip moves no blank: the next token starts where it did *)
Lemma leading_ws_flip pos : leading_ws (skipn pos line') = leading_ws (skipn pos line).
Proof.
  unfold line'. destruct (Nat.lt_ge_cases i pos); [now rewrite skipn_flip_lt|].
  rewrite skipn_flip_ge by lia. apply leading_ws_case, flip_at_case.
Qed.

Lemma toks_flip : forall pos ts,
  toks line pos = TokOk ts -> protected_byte ts line i = false -> toks line' pos = TokOk ts.
Proof.
  intros pos.
  apply (toks_ind line (fun pos r => forall ts, r = TokOk ts ->
           protected_byte ts line i = false -> toks line' pos = TokOk ts)); clear pos.
  - intros pos Hend ts E _. rewrite toks_end; [exact E|].
    unfold line' at 1. now rewrite length_flip_at, leading_ws_flip.
  - intros pos t n a Ha Em IH ts E Hp.
    destruct (toks line (a + n)) as [ts0|] eqn:E0; [|discriminate]. cbn [prepend app] in E.
    inversion E; subst ts; clear E.
    unfold protected_byte in Hp. cbn [existsb] in Hp. apply orb_false_iff in Hp. destruct Hp as [Hp1 Hp0].
    assert (Em' : chomp_next_token a (skipn a line') = Match t n).
    { unfold line'. destruct (Nat.lt_ge_cases i a) as [Hlt|Hge]; [now rewrite skipn_flip_lt|].
      rewrite skipn_flip_ge by lia. pose proof (chomp_next_token_flip a (skipn a line) (i - a)) as Hf.
      rewrite Em in Hf. apply Hf. rewrite <- prot1_byte_rel0. now replace (a + (i - a)) with i by lia. }
    rewrite (toks_hit line' pos t n); rewrite leading_ws_flip; [|unfold line'; now rewrite length_flip_at|exact Em'].
    fold a. now rewrite (IH ts0).
  - discriminate.
Qed.

End Flip.

Theorem crunch_flip_ranges : forall line skip ts i,
  tokenize line skip = TokOk ts -> protected_flip ts line i = false ->
  tokenize (flip_at i line) skip = TokOk ts.
Proof. intros line skip ts i H Hp. rewrite tokenize_toks in *. now apply toks_flip. Qed.

Theorem crunch_flip : forall line skip ts i,
  tokenize line skip = TokOk ts -> protected_flip ts line i = false ->
  tokens_of (tokenize (flip_at i line) skip) = Some (map fst ts).
Proof.
  intros line skip ts i H Hp. now rewrite (crunch_flip_ranges line skip ts i H Hp).
Qed.

(* Each step is judged on the text it is applied to, with that text's own
   token ranges. *)

Inductive edit (skip : nat) : bytes -> bytes -> Prop :=
| edit_ins line ts i w :
    skip <= i <= length line -> is_basic_ws w = true ->
    tokenize line skip = TokOk ts -> protected_ins ts line i = false ->
    edit skip line (ins_at i w line)
| edit_del line ts' i w :
    skip <= i <= length line -> is_basic_ws w = true ->
    tokenize (ins_at i w line) skip = TokOk ts' ->
    protected_byte ts' (ins_at i w line) i = false ->
    edit skip (ins_at i w line) line
| edit_flip line ts i :
    tokenize line skip = TokOk ts -> protected_flip ts line i = false ->
    edit skip line (flip_at i line).

Lemma tokens_of_ok r toks : tokens_of r = Some toks -> exists ts, r = TokOk ts /\ toks = map fst ts.
Proof. destruct r as [ts|ts e]; cbn [tokens_of]; [|discriminate]. intros H; inversion H; eauto. Qed.

Theorem edit_preserves skip l l' :
  edit skip l l' -> tokens_of (tokenize l' skip) = tokens_of (tokenize l skip).
Proof.
  intros [line ts i w Hi Hw H Hp|line ts' i w Hi Hw H Hp|line ts i H Hp].
  - now rewrite (crunch_insert line skip ts i w Hi Hw H Hp), H.
  - now rewrite (crunch_delete line skip ts' i w Hi Hw H Hp), H.
  - now rewrite (crunch_flip line skip ts i H Hp), H.
Qed.

Theorem edits_preserve skip l l' :
  clos_refl_trans _ (edit skip) l l' ->
  tokens_of (tokenize l' skip) = tokens_of (tokenize l skip).
Proof.
  induction 1 as [l l' H| |l1 l2 l3 _ IH1 _ IH2]; [|reflexivity|congruence].
  now apply edit_preserves.
Qed.

Corollary crunch_edits : forall skip line line' ts,
  clos_refl_trans _ (edit skip) line line' -> tokenize line skip = TokOk ts ->
  tokens_of (tokenize line' skip) = Some (map fst ts).
Proof. intros skip line line' ts H Ht. rewrite (edits_preserve _ _ _ H), Ht. reflexivity. Qed.

(* Which insertion points of a line the theorems cover, by computation. *)
Definition unprot_everywhere (line : bytes) : bool :=
  match tokenize line 0 with
  | TokOk ts => forallb (fun i => negb (protected_ins ts line i)) (seq 0 (S (length line)))
  | TokErr _ _ => false
  end.

Definition prot_positions (line : bytes) : list nat :=
  match tokenize line 0 with
  | TokOk ts => filter (protected_ins ts line) (seq 0 (S (length line)))
  | TokErr _ _ => []
  end.

Example ex_same_tokens :
  exists x,
    tokens_of (tokenize (bs "P R I N T 1 2 3") 0) = Some [TPrint; TNumber x]
    /\ tokens_of (tokenize (bs "print123") 0) = Some [TPrint; TNumber x]
    /\ tokens_of (tokenize (bs "PRINT 123") 0) = Some [TPrint; TNumber x].
Proof. eexists. vm_compute. repeat split; reflexivity. Qed.

Example ex_unprotected : unprot_everywhere (bs "PRINT 123") = true.
Proof. vm_compute. reflexivity. Qed.

Example ex_string_protected : prot_positions (bs "PRINT ""a b""") = [7; 8; 9; 10].
Proof. vm_compute. reflexivity. Qed.

Example ex_rem_protected : prot_positions (bs "R E M x") = [5; 6; 7].
Proof. vm_compute. reflexivity. Qed.

Example ex_data_protected : prot_positions (bs "DATA 1, 2:PRINT") = [4; 5; 6; 7; 8; 9].
Proof. vm_compute. reflexivity. Qed.
