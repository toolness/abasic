(* The DATA / INPUT item parser (Model/Data.v, data.rs:81-211), a
   character-level state machine, and C12 (second sentence): whitespace where
   a DATA item starts or ends is insignificant (data_blank, parse_data_blank).
   The inductions over a text go through one character (utf8_chars_step) and
   one parser step (dp_run_cons: [dp_stops], [dp_next]); the lemmas about one
   blank (dp_run_cur_eq, dp_blank_leading, dp_blank_trailing) read the cases of
   [dp_run] directly, because they follow one item, not one step.  The parser stops at
   the end of the text or in front of a colon (parse_data_stop) and decides
   from the bytes in front of that (parse_data_local): what the tokenizer
   proofs need of it when a text is cut or a byte of it changes. *)
From Coq Require Import List NArith ZArith Bool Lia Arith.
From Abasic Require Import Model.Bytes Model.Token Model.Data.
Import ListNotations.
Local Open Scope nat_scope.

Lemma utf8_len_pos b : 1 <= utf8_len b.
Proof. unfold utf8_len. destruct (b <? 192)%N, (b <? 224)%N, (b <? 240)%N; lia. Qed.

Lemma utf8_chars_fuel_enough : forall f1 f2 s, length s <= f1 -> length s <= f2 ->
  utf8_chars_fuel f1 s = utf8_chars_fuel f2 s.
Proof.
  induction f1 as [|f1 IH]; intros f2 s H1 H2.
  - destruct s; [|cbn in H1; lia]. destruct f2; reflexivity.
  - destruct s as [|b0 r]; [destruct f2; reflexivity|].
    destruct f2 as [|f2]; [cbn in H2; lia|].
    cbn [utf8_chars_fuel]. f_equal. pose proof (utf8_len_pos b0) as Hl.
    apply IH; rewrite skipn_length; cbn [length] in *; lia.
Qed.

Lemma utf8_chars_step b0 r :
  utf8_chars (b0 :: r) = firstn (utf8_len b0) (b0 :: r) :: utf8_chars (skipn (utf8_len b0) (b0 :: r)).
Proof.
  unfold utf8_chars. cbn [length utf8_chars_fuel]. f_equal.
  apply utf8_chars_fuel_enough; [|apply le_n].
  pose proof (utf8_len_pos b0). rewrite skipn_length. cbn [length]. lia.
Qed.

Lemma utf8_chars_ind (P : list N -> Prop) :
  P [] -> (forall b0 r, P (skipn (utf8_len b0) (b0 :: r)) -> P (b0 :: r)) -> forall s, P s.
Proof.
  intros H0 Hs s. remember (length s) as k eqn:Hk. revert s Hk.
  induction k as [k IH] using lt_wf_ind. intros [|b0 r] Hk; [exact H0|].
  apply Hs. apply (IH (length (skipn (utf8_len b0) (b0 :: r)))); [|reflexivity].
  pose proof (utf8_len_pos b0). rewrite skipn_length. cbn [length] in *. lia.
Qed.

Lemma utf8_chars_concat_id s : concat (utf8_chars s) = s.
Proof.
  induction s as [|b0 r IH] using utf8_chars_ind; [reflexivity|].
  rewrite utf8_chars_step. cbn [concat]. now rewrite IH, firstn_skipn.
Qed.

(* [c] is as long as its first byte announces: what [utf8_chars] cuts off a
   text, except for a last piece that is cut short. *)
Definition whole_char (c : bytes) : Prop :=
  match c with b0 :: _ => length c = utf8_len b0 | [] => False end.

Lemma utf8_chars_cons c s : whole_char c -> utf8_chars (c ++ s) = c :: utf8_chars s.
Proof.
  unfold whole_char. destruct c as [|b0 r]; [tauto|]. intros Hc.
  change ((b0 :: r) ++ s) with (b0 :: r ++ s). rewrite utf8_chars_step, <- Hc.
  change (b0 :: r ++ s) with ((b0 :: r) ++ s).
  rewrite firstn_app, Nat.sub_diag, firstn_all, firstn_O, app_nil_r.
  rewrite skipn_app, Nat.sub_diag, skipn_all, skipn_O. reflexivity.
Qed.

Lemma utf8_chars_concat cs s : Forall whole_char cs -> utf8_chars (concat cs ++ s) = cs ++ utf8_chars s.
Proof.
  induction 1 as [|c cs Hc _ IH]; cbn [concat app]; [reflexivity|].
  rewrite <- app_assoc, (utf8_chars_cons c _ Hc), IH. reflexivity.
Qed.

Lemma utf8_len_ascii b : (b < 128)%N -> utf8_len b = 1.
Proof. intros H. unfold utf8_len. destruct (N.ltb_spec b 192); [reflexivity|lia]. Qed.

Lemma whole_char_ascii b : (b < 128)%N -> whole_char [b].
Proof. intros H. unfold whole_char. now rewrite utf8_len_ascii. Qed.

(* 34, 44, 58: quote, comma, colon *)
Definition dp_stops (c : uchar) (q : bool) : bool := negb q && char_is c 58.

Definition dp_next (c : uchar) (q : bool) (cur : list uchar) (el : list data_elem)
  : bool * list uchar * list data_elem :=
  if q then
    if char_is c 34 then (false, [], el ++ [elem_quoted cur]) else (true, cur ++ [c], el)
  else if char_is c 44 then
    if all_ws cur then (false, cur, el) else (false, [], el ++ [elem_unquoted cur])
  else if char_is c 34 then
    if all_ws cur then (true, [], el) else (false, cur ++ [c], el)
  else (false, cur ++ [c], el).

Lemma dp_run_cons c cs q cur el n :
  dp_run (c :: cs) q cur el n =
  if dp_stops c q then (dp_finish false cur el, n)
  else let '(q', cur', el') := dp_next c q cur el in dp_run cs q' cur' el' (n + length c).
Proof.
  cbn [dp_run]. unfold dp_stops, dp_next. destruct q; cbn [negb andb].
  - destruct (char_is c 34); reflexivity.
  - destruct (char_is c 58); [reflexivity|].
    destruct (char_is c 44); [destruct (all_ws cur); reflexivity|].
    destruct (char_is c 34); [destruct (all_ws cur); reflexivity|reflexivity].
Qed.

(* A colon stops the parser as the end of the text does: what it consumed, what
   it answers on that alone, and why it stopped. *)
Lemma dp_run_prefix cs : forall q cur el n r m,
  dp_run cs q cur el n = (r, m) ->
  exists cs1 cs2, cs = cs1 ++ cs2 /\ m = n + length (concat cs1) /\ dp_run cs1 q cur el n = (r, m)
                  /\ (cs2 = [] \/ exists rest, cs2 = [58%N] :: rest).
Proof.
  induction cs as [|c cs IH]; intros q cur el n r m H.
  { exists [], []. cbn in *. inversion H. repeat split; auto; lia. }
  rewrite dp_run_cons in H. destruct (dp_stops c q) eqn:Es.
  { exists [], (c :: cs). cbn [dp_run concat length app]. unfold dp_stops, char_is in Es.
    destruct q, c as [|x [|]]; try discriminate. apply N.eqb_eq in Es as ->.
    inversion H. repeat split; [lia|]. right. now exists cs. }
  destruct (dp_next c q cur el) as [[q' cur'] el'] eqn:En.
  destruct (IH _ _ _ _ _ _ H) as (cs1 & cs2 & -> & -> & H1 & Hs).
  exists (c :: cs1), cs2. rewrite dp_run_cons, Es, En. cbn [concat app]. rewrite app_length.
  repeat split; [lia|exact H1|exact Hs].
Qed.

Lemma dp_run_mono cs q cur el n r m : dp_run cs q cur el n = (r, m) -> n <= m.
Proof. intros H. apply dp_run_prefix in H. destruct H as (? & ? & _ & -> & _). lia. Qed.

Lemma parse_data_stop s r m : parse_data s = (r, m) -> m <= length s /\ (length s = m \/ nth_error s m = Some 58%N).
Proof.
  unfold parse_data. intros H. apply dp_run_prefix in H as (cs1 & cs2 & Ecs & -> & _ & Hs). cbn [Nat.add].
  rewrite <- (utf8_chars_concat_id s), Ecs, concat_app, app_length. split; [lia|].
  destruct Hs as [->|[rest ->]]; [left; cbn; lia|right]. now rewrite nth_error_app2, Nat.sub_diag by lia.
Qed.

Lemma dp_stops_head b0 r q :
  dp_stops (firstn (utf8_len b0) (b0 :: r)) q = true -> b0 = 58%N.
Proof.
  unfold dp_stops. intros H. apply andb_true_iff in H. destruct H as [_ H].
  pose proof (utf8_len_pos b0) as Hl. destruct (utf8_len b0) as [|l] eqn:El; [lia|].
  cbn [firstn] in H. destruct (firstn l r) eqn:Ef; [|discriminate].
  cbn [char_is] in H. now apply N.eqb_eq in H.
Qed.

Lemma nth_error_skipn {A} (n m : nat) (l : list A) : nth_error (skipn n l) m = nth_error l (n + m).
Proof.
  revert l; induction n as [|n IH]; intros l; [reflexivity|].
  destruct l as [|x l]; [now destruct m|]. cbn [skipn Nat.add nth_error]. apply IH.
Qed.

(* The parser decides from the bytes it consumes and from why it stops: another
   text with the same bytes in front, ending there or going on with a colon
   where this one goes on with a colon, is parsed alike.  (A colon in both: a
   text that ends inside quotes is parsed otherwise once a colon follows.)
   [n0] is the number of bytes chomped before [s], so [m - n0] of [s] are read. *)
Lemma dp_local : forall s s' q cur el n0 r m,
  dp_run (utf8_chars s) q cur el n0 = (r, m) ->
  firstn (m - n0) s' = firstn (m - n0) s ->
  length s' = m - n0 \/ (nth_error s' (m - n0) = Some 58%N /\ nth_error s (m - n0) = Some 58%N) ->
  dp_run (utf8_chars s') q cur el n0 = (r, m).
Proof.
  induction s as [|b0 r0 IH] using utf8_chars_ind; intros s' q cur el n0 r m H Hf Hs.
  { cbn in H. injection H as <- <-. rewrite Nat.sub_diag in Hs.
    destruct Hs as [Hs|[_ Hs]]; [|discriminate]. now destruct s'. }
  pose proof H as Hrun. pose proof (dp_run_prefix _ _ _ _ _ _ _ H) as (cs1 & cs2 & Ecs & Em & _).
  assert (Hm : m - n0 <= length (b0 :: r0)).
  { rewrite <- (utf8_chars_concat_id (b0 :: r0)), Ecs, concat_app, app_length. lia. }
  rewrite utf8_chars_step, dp_run_cons in H. set (s := b0 :: r0) in *. set (len := utf8_len b0) in *.
  destruct (dp_stops (firstn len s) q) eqn:Es.
  - injection H as <- <-. rewrite Nat.sub_diag in *. pose proof (dp_stops_head _ _ _ Es) as Eb.
    unfold dp_stops in Es. destruct q; [discriminate|]. subst s b0.
    destruct s' as [|x t]; [reflexivity|]. destruct Hs as [Hs|[Hs _]]; [discriminate|]. injection Hs as ->.
    now rewrite utf8_chars_step, dp_run_cons.
  - destruct (dp_next (firstn len s) q cur el) as [[q' cur'] el'] eqn:En.
    pose proof (dp_run_mono _ _ _ _ _ _ _ H) as Hmono. rewrite firstn_length in Hmono.
    pose proof (utf8_len_pos b0) as Hl. fold len in Hl.
    destruct (Nat.le_gt_cases len (m - n0)) as [Hle|Hgt].
    + (* a whole character: [s'] has the same one *)
      assert (Hc : firstn len s' = firstn len s).
      { apply (f_equal (firstn len)) in Hf. now rewrite !firstn_firstn, Nat.min_l in Hf by lia. }
      destruct s' as [|x t] eqn:Es'; [destruct len; [lia|discriminate Hc]|].
      assert (x = b0) by (destruct len; [lia|now injection Hc]). subst x. clear Es'.
      rewrite utf8_chars_step, dp_run_cons. fold len. rewrite Hc, Es, En.
      assert (Lc : length (firstn len s) = len) by (rewrite firstn_length; lia). rewrite Lc in *.
      apply (IH _ _ _ _ _ _ _ H); replace (m - (n0 + len)) with (m - n0 - len) by lia.
      * rewrite !firstn_skipn_comm. replace (len + (m - n0 - len)) with (m - n0) by lia. now rewrite Hf.
      * rewrite skipn_length, !nth_error_skipn. replace (len + (m - n0 - len)) with (m - n0) by lia.
        destruct Hs as [Hs|Hs]; [left; lia|now right].
    + (* the text ends inside its last character *)
      assert (Hall : m - n0 = length s) by lia.
      destruct Hs as [Hs|[_ Hs]]; [|assert (m - n0 < length s) by (apply nth_error_Some; congruence); lia].
      replace s' with s; [exact Hrun|].
      rewrite <- (firstn_all s), <- (firstn_all s'), Hs, <- Hall. now symmetry.
Qed.

Lemma parse_data_local s s' r m :
  parse_data s = (r, m) -> firstn m s' = firstn m s ->
  length s' = m \/ (nth_error s' m = Some 58%N /\ nth_error s m = Some 58%N) ->
  parse_data s' = (r, m).
Proof. unfold parse_data. intros H Hf Hs. apply (dp_local s s' false [] [] 0 r m H); now rewrite Nat.sub_0_r. Qed.

Lemma char_ws_not_special w : char_ws w = true ->
  char_is w 34 = false /\ char_is w 44 = false /\ char_is w 58 = false.
Proof.
  unfold char_ws, char_is. destruct w as [|x [|y r]]; try (intros; repeat split; reflexivity).
  cbn [code_point]. intros H. repeat split.
  - destruct (N.eqb_spec x 34) as [->|]; [vm_compute in H; discriminate|reflexivity].
  - destruct (N.eqb_spec x 44) as [->|]; [vm_compute in H; discriminate|reflexivity].
  - destruct (N.eqb_spec x 58) as [->|]; [vm_compute in H; discriminate|reflexivity].
Qed.

Lemma all_ws_app a b : all_ws (a ++ b) = all_ws a && all_ws b.
Proof. unfold all_ws. apply forallb_app. Qed.

Lemma drop_ws_all a : all_ws a = true -> drop_ws a = [].
Proof.
  induction a as [|c r IH]; cbn [all_ws forallb drop_ws]; [reflexivity|].
  intros H. apply andb_true_iff in H as [H1 H2]. rewrite H1. apply IH, H2.
Qed.

Lemma drop_ws_nil_all a : drop_ws a = [] -> all_ws a = true.
Proof.
  induction a as [|c r IH]; cbn [all_ws forallb drop_ws]; [reflexivity|].
  destruct (char_ws c); [intros H; apply IH, H|discriminate].
Qed.

Lemma drop_ws_app a b :
  drop_ws (a ++ b) = if all_ws a then drop_ws b else drop_ws a ++ b.
Proof.
  induction a as [|c r IH]; cbn [all_ws forallb drop_ws app]; [reflexivity|].
  destruct (char_ws c); cbn [andb]; [exact IH|reflexivity].
Qed.

(* Two pending items that differ in leading blanks only.  Leading, because the
   item grows on the right and is trimmed when it is pushed: a blank in front
   stays insignificant whatever follows, one behind only if a separator follows
   ([dp_blank_trailing]). *)
Definition cur_eq (c1 c2 : list uchar) : Prop := drop_ws c1 = drop_ws c2.

Lemma cur_eq_all_ws c1 c2 : cur_eq c1 c2 -> all_ws c1 = all_ws c2.
Proof.
  unfold cur_eq. intros H.
  destruct (all_ws c1) eqn:E1.
  - symmetry. apply drop_ws_nil_all. rewrite <- H. apply drop_ws_all, E1.
  - destruct (all_ws c2) eqn:E2; [|reflexivity].
    rewrite (drop_ws_all c2 E2) in H. apply drop_ws_nil_all in H. congruence.
Qed.

Lemma cur_eq_snoc c1 c2 c : cur_eq c1 c2 -> cur_eq (c1 ++ [c]) (c2 ++ [c]).
Proof.
  intros H. pose proof (cur_eq_all_ws _ _ H) as Ha. unfold cur_eq in *.
  rewrite !drop_ws_app, Ha, H. reflexivity.
Qed.

Lemma cur_eq_trim c1 c2 : cur_eq c1 c2 -> trim_chars c1 = trim_chars c2.
Proof. unfold cur_eq, trim_chars. intros ->. reflexivity. Qed.

Lemma cur_eq_elem c1 c2 : cur_eq c1 c2 -> elem_unquoted c1 = elem_unquoted c2.
Proof. intros H. unfold elem_unquoted. rewrite (cur_eq_trim _ _ H). reflexivity. Qed.

Lemma cur_eq_ws_snoc cur w : char_ws w = true -> all_ws cur = true -> cur_eq (cur ++ [w]) cur.
Proof.
  intros Hw Hc. unfold cur_eq. rewrite drop_ws_app, Hc. cbn [drop_ws]. rewrite Hw.
  symmetry. apply drop_ws_all, Hc.
Qed.

Lemma trim_chars_ws_snoc cur w : char_ws w = true -> trim_chars (cur ++ [w]) = trim_chars cur.
Proof.
  intros Hw. unfold trim_chars. rewrite drop_ws_app.
  destruct (all_ws cur) eqn:E.
  - cbn [drop_ws]. rewrite Hw, (drop_ws_all cur E). reflexivity.
  - rewrite rev_app_distr. cbn [rev app drop_ws]. rewrite Hw. reflexivity.
Qed.

Lemma elem_unquoted_ws_snoc cur w : char_ws w = true -> elem_unquoted (cur ++ [w]) = elem_unquoted cur.
Proof. intros Hw. unfold elem_unquoted. rewrite (trim_chars_ws_snoc _ _ Hw). reflexivity. Qed.

Lemma all_ws_ws_snoc cur w : char_ws w = true -> all_ws (cur ++ [w]) = all_ws cur.
Proof. intros Hw. rewrite all_ws_app. cbn [all_ws forallb]. rewrite Hw. now rewrite !andb_true_r. Qed.

Lemma dp_run_n_irrelevant : forall cs q cur elems n m,
  fst (dp_run cs q cur elems n) = fst (dp_run cs q cur elems m).
Proof.
  induction cs as [|c cs IH]; intros q cur elems n m; [reflexivity|]. rewrite !dp_run_cons.
  destruct (dp_stops c q); [reflexivity|]. destruct (dp_next c q cur elems) as [[q' cur'] el']. apply IH.
Qed.

Lemma dp_finish_cur_eq c1 c2 elems : cur_eq c1 c2 -> dp_finish false c1 elems = dp_finish false c2 elems.
Proof.
  intros H. unfold dp_finish. rewrite (cur_eq_all_ws _ _ H), (cur_eq_elem _ _ H). reflexivity.
Qed.

Lemma dp_run_cur_eq : forall cs c1 c2 elems n m, cur_eq c1 c2 ->
  fst (dp_run cs false c1 elems n) = fst (dp_run cs false c2 elems m).
Proof.
  induction cs as [|c cs IH]; intros c1 c2 elems n m H; cbn [dp_run fst].
  - apply dp_finish_cur_eq, H.
  - destruct (char_is c 58); [cbn [fst]; apply dp_finish_cur_eq, H|].
    rewrite (cur_eq_all_ws _ _ H), (cur_eq_elem _ _ H).
    destruct (char_is c 44).
    { destruct (all_ws c2); [apply IH, H|apply dp_run_n_irrelevant]. }
    destruct (char_is c 34).
    { destruct (all_ws c2); [apply dp_run_n_irrelevant|apply IH, cur_eq_snoc, H]. }
    apply IH, cur_eq_snoc, H.
Qed.

Lemma dp_blank_leading w cs cur elems n m :
  char_ws w = true -> all_ws cur = true ->
  fst (dp_run (w :: cs) false cur elems n) = fst (dp_run cs false cur elems m).
Proof.
  intros Hw Hc. destruct (char_ws_not_special w Hw) as (H34 & H44 & H58).
  cbn [dp_run]. rewrite H58, H44, H34. apply dp_run_cur_eq, cur_eq_ws_snoc; assumption.
Qed.

(* what follows is a comma, the terminating colon, or nothing *)
Definition sep_next (cs : list uchar) : bool :=
  match cs with
  | [] => true
  | c :: _ => char_is c 44 || char_is c 58
  end.

Lemma dp_finish_ws_snoc cur w elems : char_ws w = true ->
  dp_finish false (cur ++ [w]) elems = dp_finish false cur elems.
Proof.
  intros Hw. unfold dp_finish. rewrite (all_ws_ws_snoc _ _ Hw), (elem_unquoted_ws_snoc _ _ Hw). reflexivity.
Qed.

Lemma dp_blank_trailing w cs cur elems n m :
  char_ws w = true -> sep_next cs = true ->
  fst (dp_run (w :: cs) false cur elems n) = fst (dp_run cs false cur elems m).
Proof.
  intros Hw Hs. destruct (char_ws_not_special w Hw) as (H34 & H44 & H58).
  cbn [dp_run]. rewrite H58, H44, H34.
  destruct cs as [|c cs]; cbn [dp_run fst].
  - apply dp_finish_ws_snoc, Hw.
  - cbn [sep_next] in Hs. destruct (char_is c 58); [cbn [fst]; apply dp_finish_ws_snoc, Hw|].
    rewrite orb_false_r in Hs. rewrite Hs.
    rewrite (all_ws_ws_snoc _ _ Hw), (elem_unquoted_ws_snoc _ _ Hw).
    destruct (all_ws cur) eqn:Ea; [|apply dp_run_n_irrelevant].
    apply dp_run_cur_eq, cur_eq_ws_snoc; assumption.
Qed.

Definition dstate := (bool * list uchar * list data_elem)%type.

(* the parser state after a prefix; [None] when a terminating colon was met *)
Fixpoint dp_steps (cs : list uchar) (q : bool) (cur : list uchar) (elems : list data_elem) : option dstate :=
  match cs with
  | [] => Some (q, cur, elems)
  | c :: cs' =>
    if q then
      if char_is c 34 then dp_steps cs' false [] (elems ++ [elem_quoted cur])
      else dp_steps cs' true (cur ++ [c]) elems
    else if char_is c 58 then None
    else if char_is c 44 then
      if all_ws cur then dp_steps cs' false cur elems
      else dp_steps cs' false [] (elems ++ [elem_unquoted cur])
    else if char_is c 34 then
      if all_ws cur then dp_steps cs' true [] elems
      else dp_steps cs' false (cur ++ [c]) elems
    else dp_steps cs' false (cur ++ [c]) elems
  end.

Lemma dp_steps_cons c cs q cur el :
  dp_steps (c :: cs) q cur el =
  if dp_stops c q then None
  else let '(q', cur', el') := dp_next c q cur el in dp_steps cs q' cur' el'.
Proof.
  cbn [dp_steps]. unfold dp_stops, dp_next. destruct q; cbn [negb andb].
  - destruct (char_is c 34); reflexivity.
  - destruct (char_is c 58); [reflexivity|].
    destruct (char_is c 44); [destruct (all_ws cur); reflexivity|].
    destruct (char_is c 34); [destruct (all_ws cur); reflexivity|reflexivity].
Qed.

Lemma dp_run_app : forall cs1 cs2 q cur elems n,
  fst (dp_run (cs1 ++ cs2) q cur elems n) =
  match dp_steps cs1 q cur elems with
  | Some (q', cur', elems') => fst (dp_run cs2 q' cur' elems' 0)
  | None => fst (dp_run cs1 q cur elems n)
  end.
Proof.
  induction cs1 as [|c cs1 IH]; intros cs2 q cur elems n; [apply dp_run_n_irrelevant|].
  cbn [app]. rewrite dp_steps_cons, !dp_run_cons.
  destruct (dp_stops c q); [reflexivity|]. destruct (dp_next c q cur elems) as [[q' cur'] el']. apply IH.
Qed.

Theorem data_blank : forall cs1 cs2 w cur elems,
  char_ws w = true ->
  dp_steps cs1 false [] [] = Some (false, cur, elems) ->       (* not inside a quoted item *)
  all_ws cur = true \/ sep_next cs2 = true ->                  (* an item starts here, or ends here *)
  fst (dp_run (cs1 ++ w :: cs2) false [] [] 0) = fst (dp_run (cs1 ++ cs2) false [] [] 0).
Proof.
  intros cs1 cs2 w cur elems Hw Hst Hpos.
  rewrite !dp_run_app, Hst.
  destruct Hpos as [H|H]; [apply dp_blank_leading|apply dp_blank_trailing]; assumption.
Qed.

(* Inside a quoted item a blank IS significant (the protected region). *)
Example blank_in_quotes_matters :
  fst (dp_run (map (fun b => [b]) [34; 97; 32; 34]%N) false [] [] 0)
  <> fst (dp_run (map (fun b => [b]) [34; 97; 34]%N) false [] [] 0).
Proof. vm_compute. discriminate. Qed.

Lemma basic_ws_char_ws w : is_basic_ws w = true -> char_ws [w] = true /\ (w < 128)%N.
Proof.
  unfold is_basic_ws, is_ascii_ws. intros H. apply andb_true_iff in H as [H _].
  repeat (apply orb_true_iff in H as [H|H]); apply N.eqb_eq in H; subst w; split; (reflexivity || lia).
Qed.

(* [parse_data] on bytes: a space, tab, form feed or carriage return inserted
   after a prefix made of whole characters. *)
Theorem parse_data_blank : forall cs1 s2 w cur elems,
  Forall whole_char cs1 -> is_basic_ws w = true ->
  dp_steps cs1 false [] [] = Some (false, cur, elems) ->
  all_ws cur = true \/ sep_next (utf8_chars s2) = true ->
  fst (parse_data (concat cs1 ++ w :: s2)) = fst (parse_data (concat cs1 ++ s2)).
Proof.
  intros cs1 s2 w cur elems Hcs Hw Hst Hpos. destruct (basic_ws_char_ws w Hw) as [Hcw Hlt].
  unfold parse_data. rewrite !utf8_chars_concat by assumption.
  change (w :: s2) with ([w] ++ s2). rewrite (utf8_chars_cons [w] s2 (whole_char_ascii w Hlt)).
  apply (data_blank cs1 (utf8_chars s2) [w] cur elems); assumption.
Qed.

(* non-vacuity: a padded text and the tight one give the same items *)
Example padded_equals_tight :
  fst (parse_data (bs " 1 , ""a"" , b c  : PRINT")) = fst (parse_data (bs "1,""a"",b c:PRINT")).
Proof. vm_compute. reflexivity. Qed.

Example padded_step :
  let cs1 := map (fun b => [b]) (bs "1") in
  Forall whole_char cs1 /\ dp_steps cs1 false [] [] = Some (false, cs1, [])
  /\ sep_next (utf8_chars (bs ",2")) = true.
Proof. vm_compute. repeat split; repeat constructor. Qed.
