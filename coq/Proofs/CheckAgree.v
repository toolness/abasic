(* Proofs/CheckAgree.v — C06, both directions at once.

   [agree] is the lock step of Proofs/CheckSound.v (both succeed with related results; or the
   interpreter fails with an error that is neither a syntax error nor a type mismatch; or both fail;
   or the model runs out of fuel / oracle) and NEVER the interpreter succeeding where the checker
   reports an error: no valid statement is rejected.  It is [lock true] with the frame forgotten ([lock_agree]). *)
From Abasic Require Import Model.State Model.Eval Model.Analyzer Proofs.CheckSound.
Local Open Scope nat_scope.

Definition agree {A B} (P : A -> B -> Prop) (m : M A) (a : MA B) : Prop :=
  forall s sa acc, R s sa ->
    match m s, a (sa, acc) with
    | (Ok x, s'), (Ok y, (sa', _)) => P x y /\ R s' sa'
    | (Ok _, _), (Err _ _, _) => False
    | (Err e _, _), (Ok _, _) => benign e
    | _, _ => True
    end.

(* [agree] is [lock true] without the frame *)
Lemma lock_agree {F A B} (P : A -> B -> Prop) m a : lock true F P m a -> agree P m a.
Proof.
  intros H s sa acc HR. specialize (H s sa acc HR).
  destruct (m s) as [[x|? ?|?| |] ?], (a (sa, acc)) as [[y|? ?|?| |] [? ?]]; try exact H. split; apply H.
Qed.

Lemma agree_sound {A B} (P : A -> B -> Prop) m a : agree P m a -> sound P m a.
Proof.
  intros H. apply (@lock_sound true (fun _ _ _ => True)). intros s sa acc HR. specialize (H s sa acc HR).
  destruct (m s) as [[x|? ?|?| |] ?], (a (sa, acc)) as [[y|? ?|?| |] [? ?]]; try exact H. split; [apply H | split; [apply H | exact I]].
Qed.

Lemma agree_complete {A B} (P : A -> B -> Prop) m a s sa acc x s' :
  agree P m a -> R s sa -> m s = (Ok x, s') ->
  forall e l st, a (sa, acc) <> (Err e l, st).
Proof.
  intros H HR Em e l st Ea. specialize (H s sa acc HR). rewrite Em, Ea in H. exact H.
Qed.

Definition afails {B} (a : MA B) : Prop := forall x, match a x with (Ok _, _) => False | _ => True end.

Definition atotal {B} (Q : B -> Prop) (b : MA B) : Prop :=
  forall sa acc, exists y acc', b (sa, acc) = (Ok y, (sa, acc')) /\ Q y.

Lemma atotal_ret {B} (Q : B -> Prop) y : Q y -> atotal Q (aret y).
Proof. intros H sa acc. exists y, acc. split; [reflexivity | exact H]. Qed.

Lemma atotal_log sym l w : atotal (fun _ => True) (log_access sym l w).
Proof. intros sa acc. eexists _, _. split; [reflexivity | exact I]. Qed.

Lemma atotal_prev_loc : atotal (fun _ => True) prev_loc.
Proof. intros sa acc. eexists _, _. split; [reflexivity | exact I]. Qed.

Lemma atotal_bind {B B'} (Q : B -> Prop) (Q' : B' -> Prop) (b : MA B) (g : B -> MA B') :
  atotal Q b -> (forall y, Q y -> atotal Q' (g y)) -> atotal Q' (abind b g).
Proof.
  intros Hb Hg sa acc. destruct (Hb sa acc) as (y & acc1 & E & HQ). destruct (Hg y HQ sa acc1) as (z & acc2 & E2 & HQ').
  exists z, acc2. unfold abind. rewrite E. split; [exact E2 | exact HQ'].
Qed.

Lemma atotal_an_assign alv : atotal (fun _ : unit => True) (an_assign alv (type_of_name (alv_sym alv))).
Proof.
  apply (atotal_bind (fun _ => True)); [apply atotal_log|]. intros _ _.
  apply (atotal_bind (fun _ => True)); [|intros; apply atotal_ret; exact I].
  intros sa acc. unfold check. rewrite (proj2 (vtype_eqb_eq _ _) eq_refl). eexists _, _. split; [reflexivity | exact I].
Qed.

Lemma afails_after_total {A B} (Q : A -> Prop) (b : MA A) (g : A -> MA B) :
  atotal Q b -> (forall y, afails (g y)) -> afails (abind b g).
Proof. intros Hb Hg [sa acc]. destruct (Hb sa acc) as (y & acc1 & E & _). unfold abind. rewrite E. apply Hg. Qed.

Theorem expression_check_agrees : forall f1 f2 n, agree K (evaluate_expression f1 n) (analyze_expression f2 n).
Proof. intros f1 f2 n. apply (@lock_agree SL), lock_expression. reflexivity. Qed.

Theorem straight_statement_agrees : forall f1 f2 nest rec arec t, straight_head t = true ->
  agree (fun _ _ => True) (edispatch f1 nest rec t) (adispatch f2 nest arec t).
Proof. intros f1 f2 nest rec arec t Hst. apply (@lock_agree SLF), lock_straight_statement; [reflexivity | exact Hst]. Qed.

Corollary evaluated_expression_is_not_rejected : forall f1 f2 n s sa acc v s',
  R s sa -> evaluate_expression f1 n s = (Ok v, s') ->
  forall e l st, analyze_expression f2 n (sa, acc) <> (Err e l, st).
Proof. intros f1 f2 n s sa acc v s' HR Em. exact (agree_complete K _ _ s sa acc v s' (expression_check_agrees f1 f2 n) HR Em). Qed.

Corollary executed_statement_is_not_rejected : forall f1 f2 nest rec arec t s sa acc u s', straight_head t = true ->
  R s sa -> edispatch f1 nest rec t s = (Ok u, s') ->
  forall e l st, adispatch f2 nest arec t (sa, acc) <> (Err e l, st).
Proof.
  intros f1 f2 nest rec arec t s sa acc u s' Hst HR Em.
  exact (agree_complete (fun _ _ => True) _ _ s sa acc u s' (straight_statement_agrees f1 f2 nest rec arec t Hst) HR Em).
Qed.
