(* C13: tokenizing the text of a token's range on its own yields exactly that
   one token.  Every matcher is prefix-stable: what it decides about a text it
   decides from the bytes it consumes, and a matcher that does not match a text
   matches no prefix of it (the matchers tried before the successful one must
   still fail on the slice).  The delicate cases are the look-aheads: the
   keyword look-ahead inside identifiers (`FORI` is FOR I), the second character
   of `<=` `<>` `>=` behind blanks, blanks inside numbers, and the DATA item
   parser, which stops at a colon exactly as at the end of the text.  For the
   matchers that read through the cruncher both halves are Cruncher.lifted_cut
   and lifted_none, from [decides] of the function on crunched bytes.
   (chomp_next_token_prefix; retok_ok, retok_err) *)
From Coq Require Import List NArith ZArith Lia.
From Abasic Require Import Model.Bytes Model.Data Model.Lexer Gen.Tables
     Proofs.DataProofs Proofs.Cruncher Proofs.LexerRanges.
Import ListNotations.
Local Open Scope nat_scope.

Lemma firstn_firstn_le {A} (l : list A) a b : a <= b -> firstn a (firstn b l) = firstn a l.
Proof. intros H. rewrite firstn_firstn. f_equal. lia. Qed.

Lemma first_keyword_none tbl s m : first_keyword tbl s = None -> first_keyword tbl (firstn m s) = None.
Proof. exact (lifted_none _ _ (first_keyword_lifted tbl) (anykwp_decides tbl) s m). Qed.

Lemma first_keyword_some tbl s t n m : first_keyword tbl s = Some (t, n) -> n <= m ->
  first_keyword tbl (firstn m s) = Some (t, n).
Proof. exact (lifted_cut_ge _ _ (first_keyword_lifted tbl) s t n m (anykwp_mono tbl)). Qed.

Lemma chomp_keyword_none kw s m : chomp_keyword kw s = None -> chomp_keyword kw (firstn m s) = None.
Proof.
  rewrite !chomp_keyword_one. destruct (first_keyword _ s) eqn:E; [discriminate|].
  now rewrite (first_keyword_none _ _ m E).
Qed.

Lemma chomp_keyword_some kw s n m : chomp_keyword kw s = Some n -> n <= m ->
  chomp_keyword kw (firstn m s) = Some n.
Proof.
  rewrite !chomp_keyword_one. destruct (first_keyword _ s) as [[t k]|] eqn:E; [|discriminate].
  intros H Hm; injection H as ->. now rewrite (first_keyword_some _ _ _ _ m E Hm).
Qed.

Lemma any_keyword_none s m : chomp_any_keyword s = None -> chomp_any_keyword (firstn m s) = None.
Proof. apply first_keyword_none. Qed.

Lemma any_keyword_some s t n m : chomp_any_keyword s = Some (t, n) -> n <= m ->
  chomp_any_keyword (firstn m s) = Some (t, n).
Proof. apply first_keyword_some. Qed.

(* The model's loops themselves on a cut text, read off the layer; the
   matchers' lemmas around them do not go through these ([crunch_next_firstn],
   [number_span_last_le] / [_nodigit] / [_prefix], [first_keyword_nil],
   [symbol_span_prefix]). *)
Lemma crunch_next_firstn s : forall m,
  crunch_next (firstn m s) =
  match crunch_next s with Some (b, n) => if n <=? m then Some (b, n) else None | None => None end.
Proof.
  induction s as [|c t IH]; intros m; [now rewrite firstn_nil|].
  destruct m as [|m].
  { change (crunch_next (firstn 0 (c :: t))) with (@None (N * nat)). pose proof (crunch_next_nb (c :: t)) as H.
    destruct (crunch_next (c :: t)) as [[b n]|]; [|reflexivity]. destruct H as (-> & _). now rewrite off_pos. }
  cbn [firstn crunch_next]. destruct (is_basic_ws c); [|reflexivity].
  rewrite IH. destruct (crunch_next t) as [[b n]|]; [|reflexivity].
  change (S n <=? S m) with (n <=? m). now destruct (n <=? m).
Qed.

Lemma one_or_two_some s t n : chomp_one_or_two s = Some (t, n) ->
  chomp_one_or_two (firstn n s) = Some (t, n).
Proof. exact (lifted_cut _ _ one_or_two_lifted op12p_decides s t n). Qed.

Lemma one_or_two_none s m : chomp_one_or_two s = None -> chomp_one_or_two (firstn m s) = None.
Proof. exact (lifted_none _ _ one_or_two_lifted op12p_decides s m). Qed.

Lemma find_quote_prefix s : forall k, find_quote s = Some k -> find_quote (firstn (S k) s) = Some k.
Proof.
  induction s as [|b t IH]; intros k H; [discriminate|]. cbn [find_quote] in H.
  cbn [firstn find_quote]. destruct (b =? 34)%N; [exact H|].
  destruct (find_quote t) as [n|] eqn:E; [|discriminate]. inversion H; subst.
  rewrite (IH n eq_refl). reflexivity.
Qed.

Lemma chomp_string_some pos s t n : chomp_string pos s = Match t n -> forall pos', chomp_string pos' (firstn n s) = Match t n.
Proof.
  rewrite chomp_string_eq. destruct s as [|b r]; [discriminate|].
  destruct (b =? 34)%N eqn:Eb; [|discriminate].
  destruct (find_quote r) as [k|] eqn:E; [|discriminate]. intros H pos'. injection H as <- <-.
  rewrite chomp_string_eq. replace (k + 2) with (S (S k)) by lia. rewrite firstn_cons, Eb.
  rewrite (find_quote_prefix r k E), firstn_firstn_le by lia. replace (S (S k)) with (k + 2) by lia. reflexivity.
Qed.

Lemma chomp_string_nomatch pos s m : chomp_string pos s = NoMatch -> forall pos', chomp_string pos' (firstn m s) = NoMatch.
Proof.
  rewrite chomp_string_eq. intros H pos'. rewrite chomp_string_eq.
  destruct s as [|b r]; [rewrite firstn_nil; reflexivity|].
  destruct m as [|m]; [reflexivity|]. rewrite firstn_cons.
  destruct (b =? 34)%N; [destruct (find_quote r); discriminate | reflexivity].
Qed.

Lemma number_span_last_le s : forall k d last d' n, number_span s k d last = (d', n) -> last <= k -> last <= n.
Proof.
  intros k d last d' n. rewrite number_span_nb. intros H Hk; injection H as _ <-. destruct (digdots (nb s)); lia.
Qed.

Lemma number_span_nodigit t : forall k d last d', last <= k -> number_span t k d last = (d', last) -> d' = d.
Proof.
  intros k d last d' Hk. rewrite number_span_nb. intros H; injection H as <- E.
  destruct (digdots (nb t)) as [|x dd]; [apply app_nil_r|]. cbn [length] in E. rewrite off_pos in E. lia.
Qed.

Lemma number_span_prefix s : forall k d last d' n, number_span s k d last = (d', n) -> last <= k ->
  number_span (firstn (n - k) s) k d last = (d', n).
Proof.
  intros k d last d' n. rewrite !number_span_nb. intros H Hk; injection H as <- <-.
  pose proof (digdots_firstn (nb s)) as Hd.
  destruct (digdots (nb s)) as [|x dd]; [now replace (last - k) with 0 by lia|].
  cbn [length] in *. replace (k + off s (S (length dd)) - k) with (off s (S (length dd))) by lia.
  rewrite nb_firstn, Hd. cbn [length]. now rewrite off_firstn.
Qed.

Lemma chomp_number_some pos s t n : chomp_number pos s = Match t n -> forall pos', chomp_number pos' (firstn n s) = Match t n.
Proof.
  rewrite chomp_number_eq. destruct (number_m s) as [[d k]|] eqn:E; [|discriminate].
  destruct (num_val d) as [x|] eqn:Ex; [|discriminate]. intros H pos'; injection H as <- <-.
  now rewrite chomp_number_eq, (lifted_cut _ _ number_lifted nump_decides _ _ _ E), Ex.
Qed.

Lemma chomp_number_nomatch pos s m : chomp_number pos s = NoMatch -> forall pos', chomp_number pos' (firstn m s) = NoMatch.
Proof.
  rewrite chomp_number_eq. destruct (number_m s) as [[d k]|] eqn:E; [destruct (num_val d); discriminate|].
  intros _ pos'. now rewrite chomp_number_eq, (lifted_none _ _ number_lifted nump_decides _ _ E).
Qed.

Lemma first_keyword_nil tbl : first_keyword tbl [] = None.
Proof. rewrite first_keyword_lifted. cbn [nb]. now rewrite anykwp_nil. Qed.

Lemma symbol_span_prefix s : forall chars consumed pending c' n,
  symbol_span s chars consumed pending = (c', n) ->
  symbol_span (firstn (n - consumed - pending) s) chars consumed pending = (c', n).
Proof.
  intros chars c p c' n. rewrite !symbol_span_nb. pose proof (symp_spec (nb s) chars) as Hc.
  destruct (symp chars (nb s)) as [ch [|k]] eqn:E; intros H; injection H as <- <-.
  - subst ch. now replace (c - c - p) with 0 by lia.
  - replace (c + p + off s (S k) - c - p) with (off s (S k)) by lia.
    now rewrite nb_firstn, (symp_cut _ _ _ _ E), off_firstn.
Qed.

Lemma chomp_symbol_some s t n : chomp_symbol s = Match t n -> chomp_symbol (firstn n s) = Match t n.
Proof.
  rewrite chomp_symbol_eq. destruct (symbol_m s) as [[ch k]|] eqn:E; [|discriminate]. intros H; injection H as <- <-.
  now rewrite chomp_symbol_eq, (lifted_cut _ _ symbol_lifted symbolp_decides _ _ _ E).
Qed.

Lemma parse_data_prefix s elems m : parse_data s = (elems, m) -> parse_data (firstn m s) = (elems, m).
Proof.
  intros H. apply (parse_data_local s _ _ _ H); [apply firstn_firstn_le, le_n|].
  left. rewrite firstn_length. apply parse_data_stop in H. lia.
Qed.

Lemma chomp_data_some s t n : chomp_data s = Match t n -> chomp_data (firstn n s) = Match t n.
Proof.
  unfold chomp_data. destruct (chomp_keyword data_keyword s) as [k|] eqn:Ek; [|discriminate].
  destruct (parse_data (skipn k s)) as [elems m] eqn:Ep. intros H. injection H as <- <-.
  rewrite (chomp_keyword_some _ _ _ (k + m) Ek) by lia.
  rewrite <- firstn_skipn_comm, (parse_data_prefix _ _ _ Ep). reflexivity.
Qed.

Lemma chomp_data_nomatch s m : chomp_data s = NoMatch -> chomp_data (firstn m s) = NoMatch.
Proof.
  unfold chomp_data. destruct (chomp_keyword data_keyword s) as [k|] eqn:Ek.
  - destruct (parse_data (skipn k s)); discriminate.
  - intros _. now rewrite (chomp_keyword_none _ _ m Ek).
Qed.

Lemma chomp_remark_some s t n : chomp_remark s = Match t n -> chomp_remark (firstn n s) = Match t n.
Proof.
  unfold chomp_remark. destruct (chomp_keyword rem_keyword s) as [k|] eqn:Ek; [|discriminate].
  intros H. injection H as <- <-.
  assert (Hk : k <= length s).
  { apply chomp_keyword_spec in Ek; [|apply rem_data_ascii]. apply ends_nb_bounds in Ek. lia. }
  assert (Hall : k + length (skipn k s) = length s) by (rewrite skipn_length; lia).
  rewrite firstn_all2 by lia. rewrite Ek. reflexivity.
Qed.

Lemma chomp_remark_nomatch s m : chomp_remark s = NoMatch -> chomp_remark (firstn m s) = NoMatch.
Proof.
  unfold chomp_remark. destruct (chomp_keyword rem_keyword s) as [k|] eqn:Ek; [discriminate|].
  intros _. now rewrite (chomp_keyword_none _ _ m Ek).
Qed.

(* Down the dispatcher: an attempt in front of the hit finds nothing on the
   slice either ([_none] / [_nomatch]), the hit decides the same on it
   ([_some]).  By hand and not by [first_hit_rel]: the relation between an
   attempt on the text and on the slice depends on [n], the length of the hit,
   which only the hit knows. *)
Theorem chomp_next_token_prefix pos s t n :
  chomp_next_token pos s = Match t n -> forall pos', chomp_next_token pos' (firstn n s) = Match t n.
Proof.
  unfold chomp_next_token. intros H pos'.
  destruct (chomp_any_keyword s) as [[kt kn]|] eqn:E1.
  { injection H as <- <-. rewrite (any_keyword_some s kt kn kn E1 (le_n _)). reflexivity. }
  rewrite (any_keyword_none s n E1).
  destruct (chomp_one_or_two s) as [[ot on]|] eqn:E2.
  { injection H as <- <-. rewrite (one_or_two_some s ot on E2). reflexivity. }
  rewrite (one_or_two_none s n E2).
  destruct (chomp_string pos s) as [|st sn|se] eqn:E3; [|injection H as <- <-; rewrite (chomp_string_some pos s st sn E3 pos'); reflexivity|discriminate].
  rewrite (chomp_string_nomatch pos s n E3 pos').
  destruct (chomp_number pos s) as [|nt nn|ne] eqn:E4; [|injection H as <- <-; rewrite (chomp_number_some pos s nt nn E4 pos'); reflexivity|discriminate].
  rewrite (chomp_number_nomatch pos s n E4 pos').
  destruct (chomp_remark s) as [|rt rn|re] eqn:E5; [|injection H as <- <-; rewrite (chomp_remark_some s rt rn E5); reflexivity|discriminate].
  rewrite (chomp_remark_nomatch s n E5).
  destruct (chomp_data s) as [|dt dn|de] eqn:E6; [|injection H as <- <-; rewrite (chomp_data_some s dt dn E6); reflexivity|discriminate].
  rewrite (chomp_data_nomatch s n E6).
  destruct (chomp_symbol s) as [|yt yn|ye] eqn:E7; [discriminate|injection H as <- <-; rewrite (chomp_symbol_some s yt yn E7); reflexivity|discriminate].
Qed.

(* [chomp_next_token_shift], between any two positions: through position 0 *)
Lemma chomp_string_pos pos pos' s :
  match chomp_string pos s with Fail _ => True | r => chomp_string pos' s = r end.
Proof.
  rewrite <- (Nat.add_0_r pos), <- (Nat.add_0_r pos'), !chomp_string_shift. now destruct (chomp_string 0 s).
Qed.

Lemma chomp_number_pos pos pos' s :
  match chomp_number pos s with Fail _ => True | r => chomp_number pos' s = r end.
Proof.
  rewrite <- (Nat.add_0_r pos), <- (Nat.add_0_r pos'), !chomp_number_shift. now destruct (chomp_number 0 s).
Qed.

Lemma chomp_next_token_pos pos pos' s t n :
  chomp_next_token pos s = Match t n -> chomp_next_token pos' s = Match t n.
Proof.
  rewrite <- (Nat.add_0_r pos), <- (Nat.add_0_r pos'), !chomp_next_token_shift.
  now destruct (chomp_next_token 0 s).
Qed.

Lemma tok_from_nil fuel pos : tok_from fuel pos [] = TokOk [].
Proof. destruct fuel; reflexivity. Qed.

Lemma tokenize_slice p s t n c r :
  s = c :: r -> is_basic_ws c = false -> 1 <= n <= length s ->
  chomp_next_token p s = Match t n ->
  tokenize (firstn n s) 0 = TokOk [(t, (0, n))].
Proof.
  intros Es Hc Hn Hm.
  pose proof (chomp_next_token_prefix p s t n Hm 0) as Hp.
  set (sl := firstn n s) in *.
  assert (Esl : sl = c :: firstn (n - 1) r).
  { unfold sl. rewrite Es. destruct n as [|n]; [lia|]. rewrite firstn_cons. f_equal. f_equal. lia. }
  assert (Hlw : leading_ws sl = 0) by (rewrite Esl; cbn [leading_ws]; rewrite Hc; reflexivity).
  assert (Hnil : skipn n sl = []) by (apply skipn_all2; unfold sl; rewrite firstn_length; lia).
  rewrite tokenize_tok_from. cbn [skipn tok_from]. rewrite Hlw. cbn [skipn Nat.add].
  destruct sl as [|c0 r0] eqn:Esl'; [discriminate|]. rewrite Hp, Hnil, tok_from_nil. reflexivity.
Qed.

Section Retok.
Variable line : bytes.

Fixpoint retoks (ts : list ranged) : Prop :=
  match ts with
  | [] => True
  | (t, (a, b)) :: ts' => tokenize (firstn (b - a) (skipn a line)) 0 = TokOk [(t, (0, b - a))] /\ retoks ts'
  end.

Lemma retoks_app l1 l2 : retoks l1 -> retoks l2 -> retoks (l1 ++ l2).
Proof. induction l1 as [|[t [a b]] l1 IH]; cbn [app retoks]; [auto | intros [H1 H2] H3; split; auto]. Qed.

(* Along the line by induction on the fuel of [tok_from], so for any fuel; with
   enough of it this is what [LexerRanges.chain] gives link by link. *)
Lemma tok_from_retoks : forall fuel pos,
  pos <= length line ->
  match tok_from fuel pos (skipn pos line) with
  | TokOk ts => retoks ts
  | TokErr ts _ => retoks ts
  end.
Proof.
  induction fuel as [|fuel IH]; intros pos Hpos; cbn [tok_from]; [exact I|].
  set (w := leading_ws (skipn pos line)).
  rewrite skipn_skipn'.
  destruct (skipn (pos + w) line) as [|c r] eqn:Es; [exact I|].
  assert (Hc : is_basic_ws c = false).
  { apply (leading_ws_head (skipn pos line) c r). fold w. rewrite skipn_skipn'. exact Es. }
  rewrite <- Es.
  pose proof (chomp_next_token_spec (pos + w) (skipn (pos + w) line)) as Hs.
  destruct (chomp_next_token (pos + w) (skipn (pos + w) line)) as [|t n|e] eqn:Em; [exact I| |exact I].
  destruct Hs as [Hn _]. pose proof Hn as Hn'. rewrite skipn_length in Hn'.
  rewrite skipn_skipn'. specialize (IH (pos + w + n) ltac:(lia)).
  assert (Hone : tokenize (firstn (pos + w + n - (pos + w)) (skipn (pos + w) line)) 0
                 = TokOk [(t, (0, pos + w + n - (pos + w)))]).
  { replace (pos + w + n - (pos + w)) with n by lia.
    exact (tokenize_slice _ _ t n c r Es Hc Hn Em). }
  destruct (tok_from fuel (pos + w + n) (skipn (pos + w + n) line)) as [ts|ts e]; cbn [prepend app retoks];
    (split; [exact Hone | exact IH]).
Qed.

Theorem tokenize_retok skip : skip <= length line ->
  match tokenize line skip with
  | TokOk ts => retoks ts
  | TokErr ts _ => retoks ts
  end.
Proof. intros H. rewrite tokenize_tok_from. apply tok_from_retoks, H. Qed.

End Retok.

Definition slice (line : bytes) (a b : nat) : bytes := firstn (b - a) (skipn a line).

Lemma retoks_Forall line ts : retoks line ts ->
  Forall (fun r => tokenize (slice line (fst (snd r)) (snd (snd r))) 0
                   = TokOk [(fst r, (0, snd (snd r) - fst (snd r)))]) ts.
Proof.
  induction ts as [|[t [a b]] ts IH]; cbn [retoks]; [constructor|].
  intros [H1 H2]. constructor; [exact H1 | apply IH, H2].
Qed.

Theorem retok_ok line skip ts : skip <= length line -> tokenize line skip = TokOk ts ->
  Forall (fun r => tokenize (slice line (fst (snd r)) (snd (snd r))) 0
                   = TokOk [(fst r, (0, snd (snd r) - fst (snd r)))]) ts.
Proof. intros Hs H. pose proof (tokenize_retok line skip Hs) as Hr. rewrite H in Hr. now apply retoks_Forall. Qed.

Theorem retok_err line skip ts e : skip <= length line -> tokenize line skip = TokErr ts e ->
  Forall (fun r => tokenize (slice line (fst (snd r)) (snd (snd r))) 0
                   = TokOk [(fst r, (0, snd (snd r) - fst (snd r)))]) ts.
Proof. intros Hs H. pose proof (tokenize_retok line skip Hs) as Hr. rewrite H in Hr. now apply retoks_Forall. Qed.

(* a front part of the characters of [s] is the characters of a front part of [s], as long as something follows *)
Lemma utf8_chars_prefix : forall cs1 s cs2, utf8_chars s = cs1 ++ cs2 -> cs2 <> [] ->
  utf8_chars (firstn (length (concat cs1)) s) = cs1.
Proof.
  induction cs1 as [|c1 cs1 IH]; intros s cs2 H Hne; [reflexivity|].
  destruct s as [|b0 r]; [discriminate|]. rewrite utf8_chars_step in H. injection H as Hc Hrest.
  (* a character that is not the last is as long as its first byte says *)
  assert (Hw : whole_char c1).
  { pose proof (utf8_len_pos b0). rewrite <- Hc. destruct (utf8_len b0) as [|n] eqn:En; [lia|].
    cbn [firstn whole_char length]. rewrite En. f_equal. apply firstn_length_le.
    destruct (Nat.le_gt_cases n (length r)) as [Hle|Hgt]; [exact Hle|].
    rewrite skipn_all2 in Hrest by (cbn [length]; lia). destruct cs1, cs2; try discriminate; congruence. }
  rewrite <- (firstn_skipn (utf8_len b0) (b0 :: r)), Hc. cbn [concat].
  rewrite app_length, firstn_app_2, (utf8_chars_cons _ _ Hw). f_equal. exact (IH _ cs2 Hrest Hne).
Qed.
