(* C02: the token-stream recursive-descent expression evaluator (Model/Eval.v, section
   Expression and [evaluate_expression]) computes the fold [den] over a syntax tree, for
   every tree and every legal parenthesisation.  No fuel-monotonicity lemma is needed:
   every statement has the form "there is f0 such that for every fuel >= f0 ...", and the
   loop-generalised statement [LSem] counts the loop iterations an operand consumes.  What a piece
   of the evaluator does is stated as [lands]; the pieces are put together by one rule,
   [lands_bind], whose conclusion passes an outcome on as [den] does ([rbind]). *)
From Coq Require Import List ZArith Bool Lia.
From Abasic Require Import Model.Bytes Model.Num Model.Token Model.State Model.Eval Proofs.Monad.
Import ListNotations.
Local Open Scope nat_scope.

Inductive binop :=
| BOr | BAnd | BCmp (o : eq_op) | BAddSub (o : addsub_op) | BMulDiv (o : muldiv_op) | BPow.

Inductive expr :=
| ENum (x : f64) | EStr (s : bytes) | EVar (name : bytes)
| EUn (op : unary_op) (e : expr)
| EBin (op : binop) (a b : expr)
| EAbs (e : expr) | EInt (e : expr)
| EParen (e : expr).

Definition tier_of (op : binop) : nat :=
  match op with
  | BOr => 0 | BAnd => 1 | BCmp _ => 2 | BAddSub _ => 3 | BMulDiv _ => 4 | BPow => 5
  end.

Definition eq_token (o : eq_op) : token :=
  match o with
  | OEqualTo => TEquals | OLessThan => TLessThan | OLessThanOrEqualTo => TLessThanOrEqualTo
  | OGreaterThan => TGreaterThan | OGreaterThanOrEqualTo => TGreaterThanOrEqualTo
  | ONotEqualTo => TNotEquals
  end.

Definition binop_token (op : binop) : token :=
  match op with
  | BOr => TOr
  | BAnd => TAnd
  | BCmp o => eq_token o
  | BAddSub OAdd => TPlus
  | BAddSub OSubtract => TMinus
  | BMulDiv OMultiply => TMultiply
  | BMulDiv ODivide => TDivide
  | BPow => TCaret
  end.

Definition unary_token (op : unary_op) : token :=
  match op with UPositive => TPlus | UNegative => TMinus | UNot => TNot end.

(* [Renders lvl e ts]: [ts] spells [e] and the grammar accepts it at tier [lvl]
   (0 = OR ... 5 = ^, 6 = unary, 7 = atoms). *)
Inductive Renders : nat -> expr -> list token -> Prop :=
| R_num x : Renders 7 (ENum x) [TNumber x]
| R_str b : Renders 7 (EStr b) [TString b]
| R_var name : Renders 7 (EVar name) [TSymbol name]
| R_paren e ts : Renders 0 e ts -> Renders 7 (EParen e) (TLeftParen :: ts ++ [TRightParen])
| R_abs e ts : Renders 0 e ts ->
    Renders 7 (EAbs e) (TSymbol (bs "ABS") :: TLeftParen :: ts ++ [TRightParen])
| R_int e ts : Renders 0 e ts ->
    Renders 7 (EInt e) (TSymbol (bs "INT") :: TLeftParen :: ts ++ [TRightParen])
| R_un op e ts : Renders 7 e ts -> Renders 6 (EUn op e) (unary_token op :: ts)
| R_bin op a b ta tb :
    Renders (tier_of op) a ta -> Renders (S (tier_of op)) b tb ->
    Renders (tier_of op) (EBin op a b) (ta ++ binop_token op :: tb)
| R_incl k e ts : k < 7 -> Renders (S k) e ts -> Renders k e ts.

(* The tier whose loop consumes a token, if any. *)
Definition tok_tier (t : token) : option nat :=
  match t with
  | TOr => Some 0
  | TAnd => Some 1
  | TEquals | TNotEquals | TLessThan | TLessThanOrEqualTo | TGreaterThan
  | TGreaterThanOrEqualTo => Some 2
  | TPlus | TMinus => Some 3
  | TMultiply | TDivide => Some 4
  | TCaret => Some 5
  | _ => None
  end.

(* [stops lvl rest]: the first token of [rest] (if any) is not a binary operator
   of tier >= lvl and is not "(": behind a symbol [expression_term] peeks for "(" to tell a call
   or an array cell from a variable.  Only [EVar] needs that, but the spelling of an expression
   may end in one at every tier. *)
Definition stops (lvl : nat) (rest : list token) : bool :=
  match rest with
  | [] => true
  | TLeftParen :: _ => false
  | t :: _ => match tok_tier t with Some k => k <? lvl | None => true end
  end.

(* how far above its start the nesting counter of [evaluate_expression] gets: parentheses, ABS( and
   INT( call it again, operators do not *)
Fixpoint pdepth (e : expr) : nat :=
  match e with
  | ENum _ | EStr _ | EVar _ => 0
  | EUn _ a => pdepth a
  | EBin _ a b => Nat.max (pdepth a) (pdepth b)
  | EAbs a | EInt a | EParen a => S (pdepth a)
  end.

(* The operator applications of operators.rs, as they are in the model. *)
Definition apply_op (op : binop) : value -> value -> M value :=
  match op with
  | BOr => eval_or
  | BAnd => eval_and
  | BCmp o => eval_eq o
  | BAddSub o => eval_addsub o
  | BMulDiv o => eval_muldiv o
  | BPow => eval_pow
  end.

Definition lookup_var (s : interp) (name : bytes) : value :=
  match find_in_frames name (rev (stack s)) with
  | Some v => v
  | None => match alist_get name (variables s) with
            | Some v => v
            | None => default_value name
            end
  end.

(* The reference fold: strict, left operand first. *)
Fixpoint den (s : interp) (e : expr) : res value :=
  match e with
  | ENum x => Ok (VNum x)
  | EStr b => Ok (VStr b)
  | EVar name => Ok (lookup_var s name)
  | EUn op a =>
      match den s a with
      | Ok v => fst (eval_unary op v s)
      | other => other
      end
  | EBin op a b =>
      match den s a with
      | Ok v => match den s b with
                | Ok w => fst (apply_op op v w s)
                | other => other
                end
      | other => other
      end
  | EAbs a =>
      match den s a with
      | Ok (VNum x) => Ok (VNum (f64_abs x))
      | Ok (VStr _) => Err ETypeMismatch None
      | other => other
      end
  | EInt a =>
      match den s a with
      | Ok (VNum x) => Ok (VNum (f64_floor x))
      | Ok (VStr _) => Err ETypeMismatch None
      | other => other
      end
  | EParen a => den s a
  end.

(* how [den] passes an operand's outcome on: the first that is not a value is the outcome *)
Definition rbind {A B} (R : res A) (f : A -> res B) : res B :=
  match R with
  | Ok v => f v
  | Err e l => Err e l
  | Panic p => Panic p
  | OutOfFuel => OutOfFuel
  | OracleMiss => OracleMiss
  end.

Definition num_arg (g : f64 -> f64) (v : value) : res value :=
  match v with VNum x => Ok (VNum (g x)) | VStr _ => Err ETypeMismatch None end.

Lemma den_un s op a : den s (EUn op a) = rbind (den s a) (fun v => fst (eval_unary op v s)).
Proof. reflexivity. Qed.

Lemma den_bin s op a b :
  den s (EBin op a b) = rbind (den s a) (fun v => rbind (den s b) (fun w => fst (apply_op op v w s))).
Proof. reflexivity. Qed.

Lemma rbind_ok {A} (R : res A) : rbind R Ok = R.
Proof. destruct R; reflexivity. Qed.

Lemma rbind_assoc {A B C} (R : res A) (f : A -> res B) (g : B -> res C) :
  rbind (rbind R f) g = rbind R (fun v => rbind (f v) g).
Proof. destruct R; reflexivity. Qed.

Lemma repeat_m_S {St R} k (body : St -> M (St + R)) acc :
  repeat_m (S k) body acc =
  bind (body acc) (fun r => match r with inl acc' => repeat_m k body acc' | inr r => ret r end).
Proof. reflexivity. Qed.

Lemma evaluate_expression_S f n :
  evaluate_expression (S f) n =
  if Nat.eqb n max_nesting then fail EStackOverflow
  else logical_or_expression f (evaluate_expression f (S n)).
Proof. reflexivity. Qed.

Lemma skipn_cons_nth {A} (l : list A) i t l' :
  skipn i l = t :: l' -> nth_error l i = Some t /\ skipn (S i) l = l'.
Proof.
  revert l; induction i as [|i IH]; intros [|x l] H; cbn in H; try discriminate.
  - inversion H; subst; split; reflexivity.
  - apply IH in H. exact H.
Qed.

Lemma skipn_nil_nth {A} (l : list A) i : skipn i l = [] -> nth_error l i = None.
Proof.
  revert l; induction i as [|i IH]; intros [|x l] H; cbn in *; try discriminate; auto.
Qed.

Lemma skipn_hd {A} (l r : list A) j : skipn j l = r -> nth_error l j = hd_error r.
Proof. destruct r; intros H; [apply skipn_nil_nth, H | apply (skipn_cons_nth _ _ _ _ H)]. Qed.

Lemma skipn_app_len {A} (l a b : list A) i :
  skipn i l = a ++ b -> skipn (i + length a) l = b.
Proof.
  revert i; induction a as [|x a IH]; intros i H; cbn in *.
  - rewrite Nat.add_0_r; exact H.
  - apply skipn_cons_nth in H. destruct H as [_ H]. apply IH in H.
    rewrite Nat.add_succ_r. exact H.
Qed.

(* [at_idx s i r o]: [s] with the cursor at token index [i] of the current line, read counter
   [r] and output list [o] — all that evaluating an expression of [expr] changes (array
   cells, RND and FN calls, which are outside [expr], also touch the arrays, the generator
   and the stack). *)
Definition at_idx (s : interp) (i r : nat) (o : list output) : interp :=
  set_outputs o (set_reads r (set_loc (mkloc (loc_line (loc s)) i) s)).

Lemma at_idx_at_idx s i r o i' r' o' :
  at_idx (at_idx s i r o) i' r' o' = at_idx s i' r' o'.
Proof. reflexivity. Qed.

Lemma at_idx_self s : at_idx s (loc_idx (loc s)) (reads s) (outputs s) = s.
Proof. destruct s as [? ? ? [? ?] ? ? ? ? ? ? ? ? ? ? ? ? ? ? ?]; reflexivity. Qed.

(* [warn], and [warn] behind the two tests of a warning site, with the state they leave written whole *)
Lemma warn_eq msg s :
  warn msg s = (Ok tt, set_outputs (outputs s ++ if enable_warnings s then [OWarning msg (loc_line (loc s))] else []) s).
Proof.
  unfold warn. rewrite bind_get. destruct (enable_warnings s); [reflexivity|].
  rewrite app_nil_r. destruct s; reflexivity.
Qed.

Lemma warn_site (c : bool) msg s :
  (if enable_warnings s && c then warn msg else ret tt) s =
  (Ok tt, set_outputs (outputs s ++ if enable_warnings s && c then [OWarning msg (loc_line (loc s))] else []) s).
Proof.
  destruct c; [rewrite Bool.andb_true_r; destruct (enable_warnings s) eqn:E; [rewrite warn_eq, E; reflexivity|] | rewrite Bool.andb_false_r];
    rewrite app_nil_r; destruct s; reflexivity.
Qed.

Section Cursor.
  Variable s : interp.
  Variable toks : list token.
  Hypothesis Htoks : fst (cur_tokens s) = Ok toks.

  Lemma cur_tokens_at i r o : cur_tokens (at_idx s i r o) = (Ok toks, at_idx s i r o).
  Proof.
    revert Htoks. unfold cur_tokens, bind, get, tokens_for_line. cbn.
    destruct (loc_line (loc s)); cbn.
    - destruct (toks_get n (st_toks s)); cbn; congruence.
    - congruence.
  Qed.

  Lemma peek_at i r o :
    peek_next_token (at_idx s i r o) = (Ok (nth_error toks i), at_idx s i (S r) o).
  Proof.
    unfold peek_next_token. rewrite bind_modify.
    change (set_reads (S (reads (at_idx s i r o))) (at_idx s i r o)) with (at_idx s i (S r) o).
    erewrite bind_ok by apply cur_tokens_at. reflexivity.
  Qed.

  Lemma advance_at i r o : advance (at_idx s i r o) = (Ok tt, at_idx s (S i) r o).
  Proof. reflexivity. Qed.

  Lemma next_some i r o t : nth_error toks i = Some t ->
    next_token (at_idx s i r o) = (Ok (Some t), at_idx s (S i) (S r) o).
  Proof.
    intros H. unfold next_token. erewrite bind_ok by apply peek_at. rewrite H.
    erewrite bind_ok by apply advance_at. reflexivity.
  Qed.

  Lemma next_none i r o : nth_error toks i = None ->
    next_token (at_idx s i r o) = (Ok None, at_idx s i (S r) o).
  Proof. intros H. unfold next_token. erewrite bind_ok by apply peek_at. rewrite H. reflexivity. Qed.

  Lemma next_unwrapped_some i r o t : nth_error toks i = Some t ->
    next_unwrapped_token (at_idx s i r o) = (Ok t, at_idx s (S i) (S r) o).
  Proof.
    intros H. unfold next_unwrapped_token. erewrite bind_ok by (apply next_some; eassumption).
    reflexivity.
  Qed.

  Lemma expect_ok i r o t e : nth_error toks i = Some t -> token_eqb t e = true ->
    expect_next_token e (at_idx s i r o) = (Ok tt, at_idx s (S i) (S r) o).
  Proof.
    intros H E. unfold expect_next_token.
    erewrite bind_ok by (apply next_unwrapped_some; eassumption). rewrite E. reflexivity.
  Qed.

  Lemma accept_yes i r o t e : nth_error toks i = Some t -> token_eqb t e = true ->
    accept_next_token e (at_idx s i r o) = (Ok true, at_idx s (S i) (S r) o).
  Proof.
    intros H E. unfold accept_next_token. erewrite bind_ok by apply peek_at. rewrite H, E.
    erewrite bind_ok by apply advance_at. reflexivity.
  Qed.

  Lemma accept_no i r o e :
    (forall t, nth_error toks i = Some t -> token_eqb t e = false) ->
    accept_next_token e (at_idx s i r o) = (Ok false, at_idx s i (S r) o).
  Proof.
    intros H. unfold accept_next_token. erewrite bind_ok by apply peek_at.
    destruct (nth_error toks i) as [t|]; [rewrite (H t eq_refl)|]; reflexivity.
  Qed.

  Lemma peek_is_at i r o e :
    peek_is e (at_idx s i r o) =
    (Ok (match nth_error toks i with Some t => token_eqb t e | None => false end),
     at_idx s i (S r) o).
  Proof. unfold peek_is. erewrite bind_ok by apply peek_at. reflexivity. Qed.

  Lemma try_some {A} (f : token -> option A) i r o t a :
    nth_error toks i = Some t -> f t = Some a ->
    try_next_token f (at_idx s i r o) = (Ok (Some a), at_idx s (S i) (S r) o).
  Proof.
    intros H E. unfold try_next_token. erewrite bind_ok by apply peek_at. rewrite H, E.
    erewrite bind_ok by apply advance_at. reflexivity.
  Qed.

  Lemma try_none {A} (f : token -> option A) i r o :
    (forall t, nth_error toks i = Some t -> f t = None) ->
    try_next_token f (at_idx s i r o) = (Ok None, at_idx s i (S r) o).
  Proof.
    intros H. unfold try_next_token. erewrite bind_ok by apply peek_at.
    destruct (nth_error toks i) as [t|]; [rewrite (H t eq_refl)|]; reflexivity.
  Qed.

  Lemma accept_as_yes {O} (x : O) i r o t e :
    nth_error toks i = Some t -> token_eqb t e = true ->
    accept_as e x (at_idx s i r o) = (Ok (Some x), at_idx s (S i) (S r) o).
  Proof.
    intros H E. unfold accept_as. erewrite bind_ok by (eapply accept_yes; eassumption).
    reflexivity.
  Qed.

  Lemma accept_as_no {O} (x : O) i r o e :
    (forall t, nth_error toks i = Some t -> token_eqb t e = false) ->
    accept_as e x (at_idx s i r o) = (Ok None, at_idx s i (S r) o).
  Proof.
    intros H. unfold accept_as. erewrite bind_ok by (apply accept_no; assumption).
    reflexivity.
  Qed.
End Cursor.

(* the loop body of [Eval.tier] under a name, so that [tier_tbody] holds by [reflexivity]; [pbody]
   (StmtSim), [read_body] (ProgSim) and [if_scan_body] (InputProofs) are the bodies of the PRINT, READ
   and IF-scan loops of Eval.v written out in the same way, and have to follow it *)
Definition tbody {O} (get_op : M (option O)) (operand : M value)
    (apply : O -> value -> value -> M value) (v : value) : M (value + value) :=
  o <- get_op ;;
  match o with
  | None => ret (inr v)
  | Some op => w <- operand ;; v' <- apply op v w ;; ret (inl v')
  end.

Lemma tier_tbody {O} F (g : M (option O)) operand ap :
  tier F g operand ap = bind operand (repeat_m F (tbody g operand ap)).
Proof. reflexivity. Qed.

(* [tier_ev k F n]: the evaluator of tier [k], with loop fuel and recursion fuel [F],
   at nesting counter [n] (so that a parenthesis calls
   [evaluate_expression F (S n)]). *)
Definition tier_ev (k F n : nat) : M value :=
  let rec := evaluate_expression F (S n) in
  match k with
  | 0 => logical_or_expression F rec
  | 1 => logical_and_expression F rec
  | 2 => equality_expression F rec
  | 3 => plus_or_minus_expression F rec
  | 4 => multiply_or_divide_expression F rec
  | 5 => exponent_expression F rec
  | 6 => unary_operator F rec
  | _ => parenthesized_expression F rec
  end.

Definition tier_body (k F n : nat) : value -> M (value + value) :=
  match k with
  | 0 => tbody (accept_as TOr tt) (tier_ev 1 F n) (fun _ => eval_or)
  | 1 => tbody (accept_as TAnd tt) (tier_ev 2 F n) (fun _ => eval_and)
  | 2 => tbody (try_next_token eq_of_token) (tier_ev 3 F n) eval_eq
  | 3 => tbody (try_next_token addsub_of_token) (tier_ev 4 F n) eval_addsub
  | 4 => tbody (try_next_token muldiv_of_token) (tier_ev 5 F n) eval_muldiv
  | _ => tbody (accept_as TCaret tt) (tier_ev 6 F n) (fun _ => eval_pow)
  end.

Lemma ev_tier k F n : k <= 5 ->
  tier_ev k F n = bind (tier_ev (S k) F n) (repeat_m F (tier_body k F n)).
Proof. intros H. do 6 (destruct k as [|k]; [reflexivity|]). lia. Qed.

Lemma ev_6 F n : tier_ev 6 F n = unary_operator F (evaluate_expression F (S n)).
Proof. reflexivity. Qed.

Lemma ev_7 F n : tier_ev 7 F n = parenthesized_expression F (evaluate_expression F (S n)).
Proof. reflexivity. Qed.

Lemma evaluate_expression_ev F n : n < max_nesting ->
  evaluate_expression (S F) n = tier_ev 0 F n.
Proof.
  intros H. rewrite evaluate_expression_S.
  destruct (Nat.eqb_spec n max_nesting); [lia | reflexivity].
Qed.

Lemma stops_mono k k' rest : stops k rest = true -> k <= k' -> stops k' rest = true.
Proof.
  intros H Hk. destruct rest as [|t rest]; [reflexivity|].
  destruct t; cbn [stops tok_tier] in *; auto; apply Nat.ltb_lt in H; apply Nat.ltb_lt; lia.
Qed.

Lemma stops_op op l : stops (S (tier_of op)) (binop_token op :: l) = true.
Proof. destruct op as [| |[]|[]|[]|]; reflexivity. Qed.

Lemma unary_of_unary_token op : unary_of_token (unary_token op) = Some op.
Proof. destruct op; reflexivity. Qed.

Lemma renders7_head e ts : Renders 7 e ts ->
  exists t ts', ts = t :: ts' /\ unary_of_token t = None.
Proof.
  intros H. inversion H; subst; try (eexists; eexists; split; [reflexivity | reflexivity]).
  - destruct op; discriminate.
  - lia.
Qed.

Definition is_warning (x : output) : Prop :=
  match x with OWarning _ _ => True | _ => False end.

(* an operator leaves the state alone and reads nothing of it but the power oracle *)
Lemma apply_op_oracle op v w s1 s2 : pow_oracle s1 = pow_oracle s2 ->
  apply_op op v w s1 = (fst (apply_op op v w s2), s1).
Proof.
  intros H. destruct op as [| |c|a|m|]; cbn [apply_op]; try reflexivity.
  - unfold eval_eq; destruct v, w; reflexivity.
  - unfold eval_addsub; destruct v, w; reflexivity.
  - unfold eval_muldiv; destruct v, w, m; try reflexivity.
    destruct (f64_eqb x0 f64_zero); reflexivity.
  - unfold eval_pow; destruct v, w; try reflexivity.
    rewrite !bind_get, H. destruct (pow_lookup _ _ _); reflexivity.
Qed.

Section Sem.
  Variable s : interp.
  Variable toks : list token.
  Hypothesis Htoks : fst (cur_tokens s) = Ok toks.

  (* what may happen to the output list: nothing, or (warnings on) some
     warning records are appended *)
  Definition W (o o' : list output) : Prop :=
    if enable_warnings s then exists l, o' = o ++ l /\ Forall is_warning l else o' = o.

  Lemma W_refl o : W o o.
  Proof.
    unfold W. destruct (enable_warnings s); [|reflexivity].
    exists []. rewrite app_nil_r. split; [reflexivity | constructor].
  Qed.

  Lemma W_trans o1 o2 o3 : W o1 o2 -> W o2 o3 -> W o1 o3.
  Proof.
    unfold W. destruct (enable_warnings s); [|congruence].
    intros (l1 & -> & H1) (l2 & -> & H2). exists (l1 ++ l2). rewrite app_assoc.
    split; [reflexivity | apply Forall_app; split; assumption].
  Qed.

  (* [p] is outcome [R] in a state that differs from [s] only in the cursor
     index, the read counter and the outputs; on success the cursor is [iend]. *)
  Definition lands {A} (p : res A * interp) (R : res A) (iend : nat) (o : list output) : Prop :=
    exists i' r' o', p = (R, at_idx s i' r' o') /\ (forall v, R = Ok v -> i' = iend) /\ W o o'.

  Lemma lands_here {A} (R : res A) i r o o0 iend :
    (forall v, R = Ok v -> i = iend) -> W o0 o -> lands (R, at_idx s i r o) R iend o0.
  Proof. intros H HW. exists i, r, o. auto. Qed.

  (* [m], then [K] from where [m] lands: the rule the operand lemmas below are walked with *)
  Lemma lands_bind {A B} (m : M A) (K : A -> M B) x R (f : A -> res B) imid iend o :
    lands (m x) R imid o ->
    (forall v r' o', lands (K v (at_idx s imid r' o')) (f v) iend o') ->
    lands (bind m K x) (rbind R f) iend o.
  Proof.
    intros (i' & r' & o' & E & Hi & HW) HK. erewrite bind_of_run by exact E.
    destruct R as [v| | | |]; cbn [rbind]; try (apply lands_here; [discriminate | assumption]).
    rewrite (Hi v eq_refl). destruct (HK v r' o') as (i2 & r2 & o2 & E2 & Hi2 & HW2).
    exists i2, r2, o2. split; [exact E2|]. split; [exact Hi2 | exact (W_trans _ _ _ HW HW2)].
  Qed.

  Lemma apply_op_at op v w i r o :
    apply_op op v w (at_idx s i r o) = (fst (apply_op op v w s), at_idx s i r o).
  Proof. apply apply_op_oracle. reflexivity. Qed.

  Lemma eval_unary_at op v i r o :
    eval_unary op v (at_idx s i r o) = (fst (eval_unary op v s), at_idx s i r o).
  Proof. destruct op, v; reflexivity. Qed.

  Lemma body_op op F n v i r o :
    nth_error toks i = Some (binop_token op) ->
    tier_body (tier_of op) F n v (at_idx s i r o) =
    bind (tier_ev (S (tier_of op)) F n)
         (fun w => bind (apply_op op v w) (fun v' => ret (inl v'))) (at_idx s (S i) (S r) o).
  Proof.
    intros H. destruct op as [| |c|a|m|]; cbn [tier_of tier_body apply_op]; unfold tbody.
    - erewrite bind_ok by (eapply accept_as_yes; [eassumption | eassumption | reflexivity]).
      reflexivity.
    - erewrite bind_ok by (eapply accept_as_yes; [eassumption | eassumption | reflexivity]).
      reflexivity.
    - erewrite bind_ok by (eapply try_some; [eassumption | eassumption | destruct c; reflexivity]).
      reflexivity.
    - erewrite bind_ok by (eapply try_some; [eassumption | eassumption | destruct a; reflexivity]).
      reflexivity.
    - erewrite bind_ok by (eapply try_some; [eassumption | eassumption | destruct m; reflexivity]).
      reflexivity.
    - erewrite bind_ok by (eapply accept_as_yes; [eassumption | eassumption | reflexivity]).
      reflexivity.
  Qed.

  Lemma stops_nth k i : stops k (skipn i toks) = true ->
    forall t, nth_error toks i = Some t ->
      t <> TLeftParen /\ match tok_tier t with Some k' => k' < k | None => True end.
  Proof.
    intros H t Ht. destruct (skipn i toks) as [|t' l] eqn:E.
    - apply skipn_nil_nth in E. congruence.
    - apply skipn_cons_nth in E. destruct E as [E _]. rewrite E in Ht. inversion Ht; subst t'.
      destruct t; cbn [stops tok_tier] in *; try discriminate;
        (split; [discriminate | try exact I; apply Nat.ltb_lt; assumption]).
  Qed.

  Lemma body_stop k F n v i r o : k <= 5 -> stops k (skipn i toks) = true ->
    tier_body k F n v (at_idx s i r o) = (Ok (inr v), at_idx s i (S r) o).
  Proof.
    intros Hk Hs. pose proof (stops_nth _ _ Hs) as Hn.
    do 6 (destruct k as [|k];
      [ cbn [tier_body]; unfold tbody;
        erewrite bind_ok by
          (first [eapply accept_as_no | eapply try_none];
           [eassumption |
            intros t Ht; destruct (Hn t Ht) as [_ Hlt];
            destruct t; cbn [tok_tier] in Hlt; try reflexivity; lia]);
        reflexivity | ]).
    lia.
  Qed.

  Lemma loop_op op F n j v i r o :
    nth_error toks i = Some (binop_token op) ->
    repeat_m (S j) (tier_body (tier_of op) F n) v (at_idx s i r o) =
    bind (tier_ev (S (tier_of op)) F n)
      (fun w => bind (apply_op op v w) (fun v' => repeat_m j (tier_body (tier_of op) F n) v'))
      (at_idx s (S i) (S r) o).
  Proof.
    intros H. rewrite repeat_m_S. unfold bind at 1. rewrite body_op by assumption. unfold bind.
    destruct (tier_ev _ F n _) as [[w| | | |] s1]; try reflexivity.
    destruct (apply_op op v w s1) as [[v'| | | |] s2]; reflexivity.
  Qed.

  Lemma loop_stop k F n j v i r o : k <= 5 -> stops k (skipn i toks) = true ->
    repeat_m (S j) (tier_body k F n) v (at_idx s i r o) = (Ok v, at_idx s i (S r) o).
  Proof.
    intros Hk Hs. rewrite repeat_m_S. erewrite bind_ok by (apply body_stop; assumption).
    reflexivity.
  Qed.

  (* [Sem k e ts]: the tier-[k] evaluator, started at a spelling [ts] of [e]
     followed by something that no loop of tier >= k consumes, returns [den s e].  The fuel it needs
     depends on the tree and the nesting counter only: [f0] is taken before the position [i] and
     what follows, so that one threshold serves wherever on the line the spelling stands. *)
  Definition Sem (k : nat) (e : expr) (ts : list token) : Prop :=
    forall n, n + pdepth e < max_nesting ->
    exists f0, forall F, f0 <= F -> forall i rest r o, skipn i toks = ts ++ rest -> stops k rest = true ->
      lands (tier_ev k F n (at_idx s i r o)) (den s e) (i + length ts) o.

  (* [LSem k e ts] (k <= 5), the loop-generalised statement, in the shape of [lands_bind]: the
     operand at the head of [ts] and then [d + j] turns of the loop of tier [k] go on as [j] turns
     of that loop from the value [den s e] behind [ts]; [d] is the number of turns that [ts]
     accounts for. *)
  Definition LSem (k : nat) (e : expr) (ts : list token) : Prop :=
    forall n, n + pdepth e < max_nesting ->
    exists d f0, forall F, f0 <= F -> forall i rest j r o, skipn i toks = ts ++ rest -> stops (S k) rest = true ->
    forall (f : value -> res value) iend,
      (forall v r' o', lands (repeat_m j (tier_body k F n) v (at_idx s (i + length ts) r' o')) (f v) iend o') ->
      lands (bind (tier_ev (S k) F n) (repeat_m (d + j) (tier_body k F n)) (at_idx s i r o))
            (rbind (den s e) f) iend o.

  (* what the induction on [Renders] proves at tier [k]: the loop-generalised statement for
     the six binary tiers, the plain one for unary operators and atoms *)
  Definition PSem (k : nat) (e : expr) (ts : list token) : Prop :=
    if k <=? 5 then LSem k e ts else Sem k e ts.

  Lemma LSem_Sem k e ts : k <= 5 -> LSem k e ts -> Sem k e ts.
  Proof.
    intros Hk HL n Hn. destruct (HL n Hn) as (d & f0 & H).
    exists (Nat.max f0 (S d)). intros F HF i rest r o Hsk Hst.
    rewrite ev_tier by assumption. rewrite <- (rbind_ok (den s e)).
    specialize (H F ltac:(lia) i rest (S (F - S d)) r o Hsk (stops_mono _ _ _ Hst (Nat.le_succ_diag_r k))).
    replace (d + S (F - S d)) with F in H by lia. apply H. intros v r' o'.
    rewrite loop_stop; [apply lands_here; [reflexivity | apply W_refl] | assumption |].
    rewrite (skipn_app_len _ _ _ _ Hsk). assumption.
  Qed.

  Lemma Sem_LSem k e ts : Sem (S k) e ts -> LSem k e ts.
  Proof.
    intros HS n Hn. destruct (HS n Hn) as (f0 & H).
    exists 0, f0. intros F HF i rest j r o Hsk Hst f iend HK.
    eapply lands_bind; [apply (H F HF i rest r o Hsk Hst) | exact HK].
  Qed.

  Lemma P_Sem k e ts : PSem k e ts -> Sem k e ts.
  Proof.
    unfold PSem. destruct (Nat.leb_spec k 5); [apply LSem_Sem; assumption | auto].
  Qed.

  Lemma paren_no F rec i r o t :
    nth_error toks i = Some t -> token_eqb t TLeftParen = false ->
    parenthesized_expression F rec (at_idx s i r o) = expression_term F rec (at_idx s i (S r) o).
  Proof.
    intros H E. unfold parenthesized_expression.
    erewrite bind_ok by (eapply accept_no; [eassumption | intros t' Ht'; congruence]).
    reflexivity.
  Qed.

  Lemma sem_num x : Sem 7 (ENum x) [TNumber x].
  Proof.
    intros n Hn. exists 0. intros F _ i rest r o Hsk Hst.
    apply skipn_cons_nth in Hsk. destruct Hsk as [Hnth _].
    rewrite ev_7. erewrite paren_no by (try eassumption; reflexivity).
    unfold expression_term.
    erewrite bind_ok by (eapply next_unwrapped_some; eassumption).
    apply lands_here; [intros; cbn [length]; lia | apply W_refl].
  Qed.

  Lemma sem_str b : Sem 7 (EStr b) [TString b].
  Proof.
    intros n Hn. exists 0. intros F _ i rest r o Hsk Hst.
    apply skipn_cons_nth in Hsk. destruct Hsk as [Hnth _].
    rewrite ev_7. erewrite paren_no by (try eassumption; reflexivity).
    unfold expression_term.
    erewrite bind_ok by (eapply next_unwrapped_some; eassumption).
    apply lands_here; [intros; cbn [length]; lia | apply W_refl].
  Qed.

  Lemma W_warning o (c : bool) msg l : W o (o ++ if enable_warnings s && c then [OWarning msg l] else []).
  Proof.
    unfold W. destruct (enable_warnings s); [|rewrite app_nil_r; reflexivity].
    eexists. split; [reflexivity|]. destruct c; repeat constructor.
  Qed.

  Lemma find_var_at name i r o :
    find_variable_value_in_stack name (at_idx s i r o) =
    (Ok (find_in_frames name (rev (stack s))), at_idx s i r o).
  Proof. reflexivity. Qed.

  Lemma sem_var name : Sem 7 (EVar name) [TSymbol name].
  Proof.
    intros n Hn. exists 0. intros F _ i rest r o Hsk Hst.
    apply skipn_cons_nth in Hsk. destruct Hsk as [Hnth Hsk].
    rewrite ev_7. erewrite paren_no by (try eassumption; reflexivity).
    unfold expression_term.
    erewrite bind_ok by (eapply next_unwrapped_some; eassumption).
    cbv beta iota. erewrite bind_ok by (eapply peek_is_at; eassumption).
    assert (Hp : match nth_error toks (S i) with
                 | Some t => token_eqb t TLeftParen | None => false end = false).
    { destruct (nth_error toks (S i)) as [t|] eqn:E; [|reflexivity].
      rewrite <- Hsk in Hst. destruct (stops_nth _ _ Hst t E) as [Hne _].
      destruct t; try reflexivity. congruence. }
    rewrite Hp.
    erewrite bind_ok by apply find_var_at.
    cbn [den]. unfold lookup_var.
    destruct (find_in_frames name (rev (stack s))) as [v|].
    - apply lands_here; [intros; cbn [length]; lia | apply W_refl].
    - rewrite !bind_get. erewrite bind_ok by apply warn_site.
      apply lands_here; [intros; cbn [length]; lia | apply W_warning].
  Qed.

  (* the recursive call made by a parenthesis, ABS( or INT( *)
  Lemma rec_lands e ts n :
    Sem 0 e ts -> S n + pdepth e < max_nesting ->
    exists f0, forall F, f0 <= F -> forall i rest r o, skipn i toks = ts ++ TRightParen :: rest ->
      lands (evaluate_expression F (S n) (at_idx s i r o)) (den s e) (i + length ts) o.
  Proof.
    intros HS Hn. destruct (HS (S n) Hn) as (f0 & H).
    exists (S f0). intros F HF i rest r o Hsk. destruct F as [|F]; [lia|].
    rewrite evaluate_expression_ev by lia. apply (H F ltac:(lia) i _ r o Hsk eq_refl).
  Qed.

  Lemma paren_lands F rec i r o ts rest R :
    skipn i toks = TLeftParen :: ts ++ TRightParen :: rest ->
    (forall r o, lands (rec (at_idx s (S i) r o)) R (S i + length ts) o) ->
    lands (parenthesized_expression F rec (at_idx s i r o)) R (S (S (i + length ts))) o.
  Proof.
    intros Hsk Hrec. apply skipn_cons_nth in Hsk. destruct Hsk as [Hnth Hsk].
    unfold parenthesized_expression.
    erewrite bind_ok by (eapply accept_yes; [eassumption | eassumption | reflexivity]).
    rewrite <- (rbind_ok R). eapply lands_bind; [apply Hrec|]. intros v r' o'.
    apply skipn_app_len in Hsk. apply skipn_cons_nth in Hsk. destruct Hsk as [Hn2 _].
    erewrite bind_ok by (eapply expect_ok; [eassumption | eassumption | reflexivity]).
    apply lands_here; [reflexivity | apply W_refl].
  Qed.

  Lemma sem_paren e ts : Sem 0 e ts -> Sem 7 (EParen e) (TLeftParen :: ts ++ [TRightParen]).
  Proof.
    intros HS n Hn. cbn [pdepth] in Hn.
    destruct (rec_lands e ts n HS ltac:(lia)) as (f0 & H).
    exists f0. intros F HF i rest r o Hsk Hst. rewrite ev_7. cbn [den].
    cbn [app] in Hsk. rewrite <- app_assoc in Hsk. cbn [app] in Hsk.
    pose proof (proj2 (skipn_cons_nth _ _ _ _ Hsk)) as Hsk2.
    replace (i + length (TLeftParen :: ts ++ [TRightParen])) with (S (S (i + length ts)))
      by (cbn [length]; rewrite app_length; cbn [length]; lia).
    eapply paren_lands; [eassumption|]. intros r0 o0. apply (H F HF _ rest); assumption.
  Qed.

  Lemma function_call_abs rec :
    function_call rec (bs "ABS") =
    (x <- unary_number_function_arg rec ;; ret (Some (VNum (f64_abs x)))).
  Proof. reflexivity. Qed.

  Lemma function_call_int rec :
    function_call rec (bs "INT") =
    (x <- unary_number_function_arg rec ;; ret (Some (VNum (f64_floor x)))).
  Proof. reflexivity. Qed.

  (* ABS and INT: [C] is [EAbs] or [EInt] *)
  Lemma sem_fn name (g : f64 -> f64) (C : expr -> expr) e ts :
    (forall rec, function_call rec name =
                 (x <- unary_number_function_arg rec ;; ret (Some (VNum (g x))))) ->
    pdepth (C e) = S (pdepth e) ->
    den s (C e) = rbind (den s e) (num_arg g) ->
    Sem 0 e ts -> Sem 7 (C e) (TSymbol name :: TLeftParen :: ts ++ [TRightParen]).
  Proof.
    intros Hfc Hpd Hden HS n Hn. rewrite Hpd in Hn. rewrite Hden. destruct (rec_lands e ts n HS ltac:(lia)) as (f0 & H).
    exists f0. intros F HF i rest r o Hsk _.
    cbn [app] in Hsk. rewrite <- app_assoc in Hsk. cbn [app] in Hsk.
    apply skipn_cons_nth in Hsk. destruct Hsk as [Hnth Hsk].
    pose proof (skipn_cons_nth _ _ _ _ Hsk) as [Hnth1 Hsk2].
    rewrite ev_7.
    erewrite paren_no by (try eassumption; reflexivity).
    unfold expression_term.
    erewrite bind_ok by (eapply next_unwrapped_some; eassumption).
    cbv beta iota. erewrite bind_ok by (eapply peek_is_at; eassumption).
    rewrite Hnth1. change (token_eqb TLeftParen TLeftParen) with true. cbv iota.
    rewrite Hfc. unfold unary_number_function_arg. rewrite !bind_assoc.
    erewrite bind_ok by (eapply expect_ok; [eassumption | eassumption | reflexivity]).
    rewrite bind_assoc.
    eapply lands_bind; [apply (H F HF _ rest), Hsk2|]. intros [b|x] r' o'; cbn [num_arg]; rewrite !bind_assoc; cbn [expect_number].
    - rewrite bind_fail. apply lands_here; [discriminate | apply W_refl].
    - apply skipn_app_len in Hsk2. apply skipn_cons_nth in Hsk2. destruct Hsk2 as [Hn2 _].
      rewrite bind_ret, bind_assoc.
      erewrite bind_ok by (eapply expect_ok; [eassumption | eassumption | reflexivity]).
      apply lands_here; [|apply W_refl].
      intros; cbn [length]; rewrite app_length; cbn [length]; lia.
  Qed.

  Lemma sem_abs e ts : Sem 0 e ts ->
    Sem 7 (EAbs e) (TSymbol (bs "ABS") :: TLeftParen :: ts ++ [TRightParen]).
  Proof. exact (sem_fn _ f64_abs EAbs e ts function_call_abs eq_refl eq_refl). Qed.

  Lemma sem_int e ts : Sem 0 e ts ->
    Sem 7 (EInt e) (TSymbol (bs "INT") :: TLeftParen :: ts ++ [TRightParen]).
  Proof. exact (sem_fn _ f64_floor EInt e ts function_call_int eq_refl eq_refl). Qed.

  Lemma sem_un op e ts : Sem 7 e ts -> Sem 6 (EUn op e) (unary_token op :: ts).
  Proof.
    intros HS n Hn. cbn [pdepth] in Hn. destruct (HS n Hn) as (f0 & H).
    exists f0. intros F HF i rest r o Hsk Hst. cbn [app] in Hsk.
    apply skipn_cons_nth in Hsk. destruct Hsk as [Hnth Hsk].
    rewrite ev_6. unfold unary_operator.
    erewrite bind_ok by (eapply try_some; [eassumption | eassumption | apply unary_of_unary_token]).
    pose proof (H F HF _ rest (S r) o Hsk (stops_mono _ _ _ Hst (Nat.le_succ_diag_r 6))) as L.
    rewrite ev_7 in L. rewrite den_un. eapply lands_bind; [exact L|].
    intros v r' o'. rewrite eval_unary_at. apply lands_here; [intros; cbn [length]; lia | apply W_refl].
  Qed.

  Lemma sem_incl6 e ts : Renders 7 e ts -> Sem 7 e ts -> Sem 6 e ts.
  Proof.
    intros HR HS n Hn.
    destruct (renders7_head _ _ HR) as (t & ts' & Hts & Hu).
    destruct (HS n Hn) as (f0 & H).
    exists f0. intros F HF i rest r o Hsk Hst. rewrite ev_6. unfold unary_operator.
    assert (Hnth : nth_error toks i = Some t).
    { subst ts. cbn [app] in Hsk. apply skipn_cons_nth in Hsk. tauto. }
    erewrite bind_ok by (eapply try_none; [eassumption | intros t' Ht'; congruence]).
    pose proof (H F HF i rest (S r) o Hsk (stops_mono _ _ _ Hst (Nat.le_succ_diag_r 6))) as L.
    rewrite ev_7 in L. rewrite <- (rbind_ok (den s e)). eapply lands_bind; [exact L|].
    intros v r' o'. apply lands_here; [reflexivity | apply W_refl].
  Qed.

  Lemma lsem_bin op a b ta tb :
    LSem (tier_of op) a ta -> Sem (S (tier_of op)) b tb ->
    LSem (tier_of op) (EBin op a b) (ta ++ binop_token op :: tb).
  Proof.
    intros Ha Hb n Hn. cbn [pdepth] in Hn.
    destruct (Ha n ltac:(lia)) as (da & fa & HA). destruct (Hb n ltac:(lia)) as (fb & HB).
    exists (S da), (Nat.max fa fb). intros F HF i rest j r o Hsk Hst f iend HK.
    rewrite <- app_assoc in Hsk. cbn [app] in Hsk.
    pose proof (skipn_app_len _ _ _ _ Hsk) as Hsk1.
    apply skipn_cons_nth in Hsk1. destruct Hsk1 as [Hnth Hsk2].
    rewrite den_bin, rbind_assoc. replace (S da + j) with (da + S j) by lia.
    apply (HA F ltac:(lia) i _ (S j) r o Hsk (stops_op op _)). intros va r1 o1.
    rewrite loop_op by assumption. rewrite rbind_assoc.
    eapply lands_bind; [apply (HB F ltac:(lia) _ rest (S r1) o1 Hsk2 Hst)|]. intros vb r2 o2.
    eapply lands_bind; [rewrite apply_op_at; apply lands_here; [reflexivity | apply W_refl]|]. intros v' r3 o3.
    replace (S (i + length ta) + length tb) with (i + length (ta ++ binop_token op :: tb))
      by (rewrite app_length; cbn [length]; lia).
    apply HK.
  Qed.

  Theorem renders_P k e ts : Renders k e ts -> PSem k e ts.
  Proof.
    induction 1 as [x|b|name|e ts _ IH|e ts _ IH|e ts _ IH|op e ts _ IH
                   |op a b ta tb _ IHa _ IHb|k e ts Hk HR IH].
    - apply sem_num.
    - apply sem_str.
    - apply sem_var.
    - apply sem_paren, P_Sem, IH.
    - apply sem_abs, P_Sem, IH.
    - apply sem_int, P_Sem, IH.
    - apply sem_un, IH.
    - assert (Hk : tier_of op <= 5) by (destruct op; cbn; lia).
      unfold PSem in *. apply Nat.leb_le in Hk. rewrite Hk in *.
      apply lsem_bin; [exact IHa | apply P_Sem; exact IHb].
    - apply P_Sem in IH. unfold PSem. destruct (Nat.leb_spec k 5).
      + apply Sem_LSem; assumption.
      + assert (k = 6) by lia. subst k. apply sem_incl6; assumption.
  Qed.

  Theorem renders_sem k e ts : Renders k e ts -> Sem k e ts.
  Proof. intros H. apply P_Sem, renders_P, H. Qed.

  Theorem expr_sem_at e ts : Renders 0 e ts ->
    forall n, n + pdepth e < max_nesting ->
    exists fuel0, forall fuel, fuel0 <= fuel -> forall i rest r o,
      skipn i toks = ts ++ rest -> stops 0 rest = true ->
      lands (evaluate_expression fuel n (at_idx s i r o)) (den s e) (i + length ts) o.
  Proof.
    intros HR n Hn. destruct (renders_sem _ _ _ HR n Hn) as (f0 & H).
    exists (S f0). intros fuel Hf i rest r o Hsk Hst. destruct fuel as [|F]; [lia|].
    rewrite evaluate_expression_ev by lia. apply (H F ltac:(lia) i rest r o Hsk Hst).
  Qed.
End Sem.

Lemma skipn_length_app {A} (pre l : list A) : skipn (length pre) (pre ++ l) = l.
Proof. induction pre as [|x pre IH]; [reflexivity | exact IH]. Qed.

(* warnings on or off: the result is the fold; on success the cursor is just after the
   expression; only cursor index, read counter and outputs change, the outputs by warning
   records and not at all when warnings are off *)
Theorem expr_sem_gen : forall e ts, Renders 0 e ts ->
  forall s pre rest n,
    fst (cur_tokens s) = Ok (pre ++ ts ++ rest) -> loc_idx (loc s) = length pre ->
    stops 0 rest = true ->
    n + pdepth e < max_nesting ->
  exists fuel0, forall fuel, fuel0 <= fuel ->
    let '(r, s') := evaluate_expression fuel n s in
    r = den s e
    /\ (forall v, r = Ok v -> loc s' = mkloc (loc_line (loc s)) (length pre + length ts))
    /\ set_outputs [] (set_reads 0 (set_loc (loc s) s')) = set_outputs [] (set_reads 0 s)
    /\ (if enable_warnings s
        then exists l, outputs s' = outputs s ++ l /\ Forall is_warning l
        else outputs s' = outputs s).
Proof.
  intros e ts HR s pre rest n Htoks Hidx Hst Hn.
  destruct (expr_sem_at s _ Htoks e ts HR n Hn) as (f0 & H).
  exists f0. intros fuel Hf.
  specialize (H fuel Hf (length pre) rest (reads s) (outputs s) (skipn_length_app _ _) Hst).
  rewrite <- Hidx in *. rewrite at_idx_self in H.
  destruct H as (i' & r' & o' & E & Hi & HW). rewrite E.
  split; [reflexivity|]. split; [|split].
  - intros v Hv. rewrite (Hi v Hv). reflexivity.
  - reflexivity.
  - exact HW.
Qed.

(* Warnings off: the statement of C02. *)
Theorem expr_sem : forall e ts, Renders 0 e ts ->
  forall s pre rest n, enable_warnings s = false ->
    fst (cur_tokens s) = Ok (pre ++ ts ++ rest) -> loc_idx (loc s) = length pre ->
    stops 0 rest = true ->
    n + pdepth e < max_nesting ->
  exists fuel0, forall fuel, fuel0 <= fuel ->
    let '(r, s') := evaluate_expression fuel n s in
    r = den s e
    /\ (forall v, r = Ok v ->
          s' = set_reads (reads s')
                 (set_loc (mkloc (loc_line (loc s)) (length pre + length ts)) s))
    /\ (* on every outcome nothing but the cursor index and the read counter changed *)
       set_reads 0 (set_loc (loc s) s') = set_reads 0 s.
Proof.
  intros e ts HR s pre rest n Hw Htoks Hidx Hst Hn.
  destruct (expr_sem_at s _ Htoks e ts HR n Hn) as (f0 & H).
  exists f0. intros fuel Hf.
  specialize (H fuel Hf (length pre) rest (reads s) (outputs s) (skipn_length_app _ _) Hst).
  rewrite <- Hidx in *. rewrite at_idx_self in H.
  destruct H as (i' & r' & o' & E & Hi & HW). rewrite E.
  unfold W in HW. rewrite Hw in HW. subst o'.
  split; [reflexivity|]. split.
  - intros v Hv. rewrite (Hi v Hv).
    destruct s as [? ? ? [? ?] ? ? ? ? ? ? ? ? ? ? ? ? ? ? ?]; reflexivity.
  - destruct s as [? ? ? [? ?] ? ? ? ? ? ? ? ? ? ? ? ? ? ? ?]; reflexivity.
Qed.

Fixpoint erase_parens (e : expr) : expr :=
  match e with
  | EParen a => erase_parens a
  | EUn op a => EUn op (erase_parens a)
  | EBin op a b => EBin op (erase_parens a) (erase_parens b)
  | EAbs a => EAbs (erase_parens a)
  | EInt a => EInt (erase_parens a)
  | ENum _ | EStr _ | EVar _ => e
  end.

Lemma den_erase_parens s e : den s (erase_parens e) = den s e.
Proof.
  induction e as [x|b|name|op a IHa|op a IHa b IHb|a IHa|a IHa|a IHa];
    cbn [erase_parens den]; rewrite ?IHa, ?IHb; reflexivity.
Qed.

Theorem den_parens s e1 e2 : erase_parens e1 = erase_parens e2 -> den s e1 = den s e2.
Proof.
  intros H. rewrite <- (den_erase_parens s e1), <- (den_erase_parens s e2), H. reflexivity.
Qed.

Lemma apply_op_ext op v w s1 s2 : pow_oracle s1 = pow_oracle s2 ->
  fst (apply_op op v w s1) = fst (apply_op op v w s2).
Proof. intros H. rewrite (apply_op_oracle op v w s1 s2 H). reflexivity. Qed.

(* [den] reads only the variables, the call stack and the power oracle. *)
Lemma den_ext s1 s2 e :
  variables s1 = variables s2 -> stack s1 = stack s2 -> pow_oracle s1 = pow_oracle s2 ->
  den s1 e = den s2 e.
Proof.
  intros Hv Hs Ho.
  induction e as [x|b|name|op a IHa|op a IHa b IHb|a IHa|a IHa|a IHa];
    cbn [den]; rewrite ?IHa, ?IHb; try reflexivity.
  - unfold lookup_var. rewrite Hv, Hs. reflexivity.
  - destruct (den s2 a) as [v| | | |]; try reflexivity. destruct op, v; reflexivity.
  - destruct (den s2 a) as [v| | | |]; try reflexivity.
    destruct (den s2 b) as [w| | | |]; try reflexivity.
    apply apply_op_ext; assumption.
Qed.

(* two spellings that differ only in redundant parentheses, in states with the same
   variables, call stack and oracle, give the same value or the same error *)
Theorem expr_parens : forall e1 e2 ts1 ts2,
  Renders 0 e1 ts1 -> Renders 0 e2 ts2 -> erase_parens e1 = erase_parens e2 ->
  forall s1 s2 pre1 pre2 rest1 rest2 n1 n2,
    variables s1 = variables s2 -> stack s1 = stack s2 -> pow_oracle s1 = pow_oracle s2 ->
    fst (cur_tokens s1) = Ok (pre1 ++ ts1 ++ rest1) -> loc_idx (loc s1) = length pre1 ->
    stops 0 rest1 = true -> n1 + pdepth e1 < max_nesting ->
    fst (cur_tokens s2) = Ok (pre2 ++ ts2 ++ rest2) -> loc_idx (loc s2) = length pre2 ->
    stops 0 rest2 = true -> n2 + pdepth e2 < max_nesting ->
  exists fuel0, forall fuel, fuel0 <= fuel ->
    fst (evaluate_expression fuel n1 s1) = fst (evaluate_expression fuel n2 s2).
Proof.
  intros e1 e2 ts1 ts2 R1 R2 He s1 s2 pre1 pre2 rest1 rest2 n1 n2 Hv Hs Ho T1 I1 S1 N1 T2 I2 S2 N2.
  destruct (expr_sem_gen e1 ts1 R1 s1 pre1 rest1 n1 T1 I1 S1 N1) as (f1 & H1).
  destruct (expr_sem_gen e2 ts2 R2 s2 pre2 rest2 n2 T2 I2 S2 N2) as (f2 & H2).
  exists (Nat.max f1 f2). intros fuel Hf.
  specialize (H1 fuel ltac:(lia)). specialize (H2 fuel ltac:(lia)).
  destruct (evaluate_expression fuel n1 s1) as [r1 s1'].
  destruct (evaluate_expression fuel n2 s2) as [r2 s2'].
  destruct H1 as [-> _]. destruct H2 as [-> _]. cbn [fst].
  rewrite (den_ext s1 s2 e1 Hv Hs Ho). apply den_parens, He.
Qed.

Section DenFacts.
  Variable s : interp.
  Variables a b : expr.

  (* errors of the left operand win, then errors of the right operand *)
  Lemma den_left_error op e l : den s a = Err e l -> den s (EBin op a b) = Err e l.
  Proof. intros H; cbn [den]; rewrite H; reflexivity. Qed.

  Lemma den_right_error op v e l :
    den s a = Ok v -> den s b = Err e l -> den s (EBin op a b) = Err e l.
  Proof. intros H1 H2; cbn [den]; rewrite H1, H2; reflexivity. Qed.

  (* comparisons yield 1 or 0: numeric, or byte-wise lexicographic on strings *)
  Lemma den_cmp_num o x y : den s a = Ok (VNum x) -> den s b = Ok (VNum y) ->
    den s (EBin (BCmp o) a b) = Ok (from_bool (cmp_num o x y)).
  Proof. intros H1 H2; cbn [den]; rewrite H1, H2; reflexivity. Qed.

  Lemma den_cmp_str o x y : den s a = Ok (VStr x) -> den s b = Ok (VStr y) ->
    den s (EBin (BCmp o) a b) = Ok (from_bool (cmp_str o x y)).
  Proof. intros H1 H2; cbn [den]; rewrite H1, H2; reflexivity. Qed.

  (* logical operators yield 1 or 0; non-zero numbers and non-empty strings are true *)
  Lemma den_and v w : den s a = Ok v -> den s b = Ok w ->
    den s (EBin BAnd a b) = Ok (VNum (if to_bool v && to_bool w then f64_one else f64_zero)).
  Proof. intros H1 H2; cbn [den]; rewrite H1, H2; reflexivity. Qed.

  Lemma den_or v w : den s a = Ok v -> den s b = Ok w ->
    den s (EBin BOr a b) = Ok (VNum (if to_bool v || to_bool w then f64_one else f64_zero)).
  Proof. intros H1 H2; cbn [den]; rewrite H1, H2; reflexivity. Qed.

  Lemma den_not v : den s a = Ok v ->
    den s (EUn UNot a) = Ok (VNum (if to_bool v then f64_zero else f64_one)).
  Proof. intros H; cbn [den]; rewrite H. destruct (to_bool v) eqn:E; cbn; rewrite E; reflexivity. Qed.

  Lemma to_bool_num x : to_bool (VNum x) = negb (f64_eqb x f64_zero).
  Proof. reflexivity. Qed.

  Lemma to_bool_str x : to_bool (VStr x) = negb (Nat.eqb (length x) 0).
  Proof. destruct x; reflexivity. Qed.

  Lemma den_add x y : den s a = Ok (VNum x) -> den s b = Ok (VNum y) ->
    den s (EBin (BAddSub OAdd) a b) = Ok (VNum (f64_add x y)).
  Proof. intros H1 H2; cbn [den]; rewrite H1, H2; reflexivity. Qed.

  Lemma den_sub x y : den s a = Ok (VNum x) -> den s b = Ok (VNum y) ->
    den s (EBin (BAddSub OSubtract) a b) = Ok (VNum (f64_sub x y)).
  Proof. intros H1 H2; cbn [den]; rewrite H1, H2; reflexivity. Qed.

  Lemma den_mul x y : den s a = Ok (VNum x) -> den s b = Ok (VNum y) ->
    den s (EBin (BMulDiv OMultiply) a b) = Ok (VNum (f64_mul x y)).
  Proof. intros H1 H2; cbn [den]; rewrite H1, H2; reflexivity. Qed.

  Lemma den_div x y : den s a = Ok (VNum x) -> den s b = Ok (VNum y) ->
    f64_eqb y f64_zero = false ->
    den s (EBin (BMulDiv ODivide) a b) = Ok (VNum (f64_div x y)).
  Proof.
    intros H1 H2 Hz; cbn [den]; rewrite H1, H2. cbn [apply_op]. unfold eval_muldiv.
    rewrite Hz. reflexivity.
  Qed.

  (* dividing by +0 or -0 is DIVISION BY ZERO *)
  Lemma den_div_zero x y : den s a = Ok (VNum x) -> den s b = Ok (VNum y) ->
    f64_eqb y f64_zero = true ->
    den s (EBin (BMulDiv ODivide) a b) = Err EDivisionByZero None.
  Proof.
    intros H1 H2 Hz; cbn [den]; rewrite H1, H2. cbn [apply_op]. unfold eval_muldiv.
    rewrite Hz. reflexivity.
  Qed.

  Lemma neg_zero_is_zero :
    f64_eqb f64_zero f64_zero = true /\ f64_eqb (f64_neg f64_zero) f64_zero = true.
  Proof. split; vm_compute; reflexivity. Qed.

  Lemma den_neg x : den s a = Ok (VNum x) -> den s (EUn UNegative a) = Ok (VNum (f64_neg x)).
  Proof. intros H; cbn [den]; rewrite H; reflexivity. Qed.

  Lemma den_pos v : den s a = Ok v -> den s (EUn UPositive a) = Ok v.
  Proof. intros H; cbn [den]; rewrite H; reflexivity. Qed.

  Lemma den_abs x : den s a = Ok (VNum x) -> den s (EAbs a) = Ok (VNum (f64_abs x)).
  Proof. intros H; cbn [den]; rewrite H; reflexivity. Qed.

  Lemma den_int x : den s a = Ok (VNum x) -> den s (EInt a) = Ok (VNum (f64_floor x)).
  Proof. intros H; cbn [den]; rewrite H; reflexivity. Qed.

  (* mixing string and numeric operands is TYPE MISMATCH (AND/OR accept both) *)
  Definition strict_op (op : binop) : bool :=
    match op with BOr | BAnd => false | _ => true end.

  Lemma den_mixed_sn op x y : strict_op op = true ->
    den s a = Ok (VStr x) -> den s b = Ok (VNum y) ->
    den s (EBin op a b) = Err ETypeMismatch None.
  Proof.
    intros Hop H1 H2; cbn [den]; rewrite H1, H2.
    destruct op as [| |c|o|o|]; try discriminate; reflexivity.
  Qed.

  Lemma den_mixed_ns op x y : strict_op op = true ->
    den s a = Ok (VNum x) -> den s b = Ok (VStr y) ->
    den s (EBin op a b) = Err ETypeMismatch None.
  Proof.
    intros Hop H1 H2; cbn [den]; rewrite H1, H2.
    destruct op as [| |c|o|o|]; try discriminate; reflexivity.
  Qed.

  (* arithmetic on two strings is TYPE MISMATCH as well (no concatenation) *)
  Lemma den_arith_str op x y : strict_op op = true -> (forall c, op <> BCmp c) ->
    den s a = Ok (VStr x) -> den s b = Ok (VStr y) ->
    den s (EBin op a b) = Err ETypeMismatch None.
  Proof.
    intros Hop Hc H1 H2; cbn [den]; rewrite H1, H2.
    destruct op as [| |c|o|o|]; try discriminate; try reflexivity.
    destruct (Hc c eq_refl).
  Qed.

  Lemma den_neg_str x : den s a = Ok (VStr x) -> den s (EUn UNegative a) = Err ETypeMismatch None.
  Proof. intros H; cbn [den]; rewrite H; reflexivity. Qed.

  Lemma den_abs_str x : den s a = Ok (VStr x) -> den s (EAbs a) = Err ETypeMismatch None.
  Proof. intros H; cbn [den]; rewrite H; reflexivity. Qed.

  Lemma den_int_str x : den s a = Ok (VStr x) -> den s (EInt a) = Err ETypeMismatch None.
  Proof. intros H; cbn [den]; rewrite H; reflexivity. Qed.

  Lemma den_paren : den s (EParen a) = den s a.
  Proof. reflexivity. Qed.
End DenFacts.

Lemma Renders_le k k' e ts : k' <= k -> k <= 7 -> Renders k e ts -> Renders k' e ts.
Proof.
  induction 1 as [|m Hle IH]; intros Hk H; [exact H|].
  apply IH; [lia|]. apply R_incl; [lia | exact H].
Qed.

Corollary expr_sem_immediate e ts : Renders 0 e ts -> pdepth e < max_nesting ->
  let s := set_immediate ts init_interp in
  exists fuel0, forall fuel, fuel0 <= fuel ->
    fst (evaluate_expression fuel 0 s) = den s e
    /\ (forall v, den s e = Ok v -> loc_idx (loc (snd (evaluate_expression fuel 0 s))) = length ts).
Proof.
  intros HR Hd s.
  destruct (expr_sem_gen e ts HR s [] [] 0) as (f0 & H);
    try reflexivity; try (cbn [app]; rewrite app_nil_r; reflexivity); try assumption.
  exists f0. intros fuel Hf. specialize (H fuel Hf).
  destruct (evaluate_expression fuel 0 s) as [r s']. destruct H as (-> & Hloc & _).
  split; [reflexivity|]. intros v Hv. cbn [snd]. rewrite (Hloc v Hv). reflexivity.
Qed.

(* Every tree has a spelling: parenthesise every compound operand.  Together with
   [den_parens] and [expr_sem]: the fold of any tree is what the evaluator
   computes on some token list (up to the nesting cap). *)
Fixpoint full_parens (e : expr) : expr :=
  match e with
  | ENum _ | EStr _ | EVar _ => e
  | EUn op a => EParen (EUn op (full_parens a))
  | EBin op a b => EParen (EBin op (full_parens a) (full_parens b))
  | EAbs a => EAbs (full_parens a)
  | EInt a => EInt (full_parens a)
  | EParen a => full_parens a
  end.

Lemma erase_full_parens e : erase_parens (full_parens e) = erase_parens e.
Proof.
  induction e as [x|b|name|op a IHa|op a IHa b IHb|a IHa|a IHa|a IHa];
    cbn [erase_parens full_parens]; rewrite ?IHa, ?IHb; reflexivity.
Qed.

Lemma full_parens_renders e : exists ts, Renders 7 (full_parens e) ts.
Proof.
  induction e as [x|b|name|op a [ta IHa]|op a [ta IHa] b [tb IHb]|a [ta IHa]|a [ta IHa]|a IHa];
    cbn [full_parens].
  - eexists; constructor.
  - eexists; constructor.
  - eexists; constructor.
  - eexists. apply R_paren. apply (Renders_le 6); [lia | lia |]. apply R_un. exact IHa.
  - assert (Hk : tier_of op <= 5) by (destruct op; cbn; lia).
    eexists. apply R_paren. apply (Renders_le (tier_of op)); [lia | lia |].
    apply R_bin; (eapply (Renders_le 7); [lia | lia | eassumption]).
  - eexists. apply R_abs. apply (Renders_le 7); [lia | lia | exact IHa].
  - eexists. apply R_int. apply (Renders_le 7); [lia | lia | exact IHa].
  - exact IHa.
Qed.

Theorem every_tree_spelled e :
  exists e' ts, erase_parens e' = erase_parens e /\ Renders 0 e' ts
                /\ forall s, den s e' = den s e.
Proof.
  destruct (full_parens_renders e) as [ts H].
  exists (full_parens e), ts. split; [apply erase_full_parens|]. split.
  - apply (Renders_le 7); [lia | lia | exact H].
  - intros s. apply den_parens, erase_full_parens.
Qed.

(* Non-vacuity: concrete token lists, their derivations, their values *)
Module Examples.
  Definition num (z : Z) : f64 := f64_of_Z z.
  Definition run (ts : list token) : res value :=
    fst (evaluate_expression 20 0 (set_immediate ts init_interp)).

  Ltac up k := apply (Renders_le k); [cbn; lia | cbn; lia |].
  Ltac atom := up 7; constructor.

  (* NOT 1 = 1   is   (NOT 1) = 1   =   0 *)
  Definition t1 := [TNot; TNumber (num 1); TEquals; TNumber (num 1)].
  Definition e1 := EBin (BCmp OEqualTo) (EUn UNot (ENum (num 1))) (ENum (num 1)).
  Example r1 : Renders 0 e1 t1.
  Proof.
    up 2. apply (R_bin (BCmp OEqualTo) _ _ [TNot; TNumber (num 1)] [TNumber (num 1)]).
    - up 6. apply (R_un UNot). constructor.
    - atom.
  Qed.
  Example v1 : run t1 = Ok (VNum f64_zero) /\ den init_interp e1 = Ok (VNum f64_zero).
  Proof. split; vm_compute; reflexivity. Qed.

  (* 8 / 4 / 2 AND 1 OR 0   is   (((8 / 4) / 2) AND 1) OR 0   =   1 *)
  Definition t2 := [TNumber (num 8); TDivide; TNumber (num 4); TDivide; TNumber (num 2);
                    TAnd; TNumber (num 1); TOr; TNumber (num 0)].
  Definition e2 :=
    EBin BOr
      (EBin BAnd
         (EBin (BMulDiv ODivide) (EBin (BMulDiv ODivide) (ENum (num 8)) (ENum (num 4)))
               (ENum (num 2)))
         (ENum (num 1)))
      (ENum (num 0)).
  Example r2 : Renders 0 e2 t2.
  Proof.
    apply (R_bin BOr _ _
             [TNumber (num 8); TDivide; TNumber (num 4); TDivide; TNumber (num 2);
              TAnd; TNumber (num 1)] [TNumber (num 0)]); [|atom].
    up 1.
    apply (R_bin BAnd _ _
             [TNumber (num 8); TDivide; TNumber (num 4); TDivide; TNumber (num 2)]
             [TNumber (num 1)]); [|atom].
    up 4.
    apply (R_bin (BMulDiv ODivide) _ _ [TNumber (num 8); TDivide; TNumber (num 4)]
             [TNumber (num 2)]); [|atom].
    apply (R_bin (BMulDiv ODivide) _ _ [TNumber (num 8)] [TNumber (num 4)]); atom.
  Qed.
  Example v2 : run t2 = Ok (VNum f64_one) /\ den init_interp e2 = Ok (VNum f64_one).
  Proof. split; vm_compute; reflexivity. Qed.

  (* -2 * 2   is   (-2) * 2   =   -4 *)
  Definition t3 := [TMinus; TNumber (num 2); TMultiply; TNumber (num 2)].
  Definition e3 := EBin (BMulDiv OMultiply) (EUn UNegative (ENum (num 2))) (ENum (num 2)).
  Example r3 : Renders 0 e3 t3.
  Proof.
    up 4. apply (R_bin (BMulDiv OMultiply) _ _ [TMinus; TNumber (num 2)] [TNumber (num 2)]).
    - up 6. apply (R_un UNegative). constructor.
    - atom.
  Qed.
  Example v3 : run t3 = Ok (VNum (num (-4))) /\ den init_interp e3 = Ok (VNum (num (-4))).
  Proof. split; vm_compute; reflexivity. Qed.

  (* (1 + 2) * 3   =   9 *)
  Definition t4 := [TLeftParen; TNumber (num 1); TPlus; TNumber (num 2); TRightParen;
                    TMultiply; TNumber (num 3)].
  Definition e4 :=
    EBin (BMulDiv OMultiply) (EParen (EBin (BAddSub OAdd) (ENum (num 1)) (ENum (num 2))))
         (ENum (num 3)).
  Example r4 : Renders 0 e4 t4.
  Proof.
    up 4.
    apply (R_bin (BMulDiv OMultiply) _ _
             [TLeftParen; TNumber (num 1); TPlus; TNumber (num 2); TRightParen]
             [TNumber (num 3)]); [|atom].
    up 7. apply (R_paren _ [TNumber (num 1); TPlus; TNumber (num 2)]).
    up 3. apply (R_bin (BAddSub OAdd) _ _ [TNumber (num 1)] [TNumber (num 2)]); atom.
  Qed.
  Example v4 : run t4 = Ok (VNum (num 9)) /\ den init_interp e4 = Ok (VNum (num 9)).
  Proof. split; vm_compute; reflexivity. Qed.

  (* the same through the theorem: for every sufficient fuel *)
  Example v4_all_fuel : exists fuel0, forall fuel, fuel0 <= fuel ->
    fst (evaluate_expression fuel 0 (set_immediate t4 init_interp)) = Ok (VNum (num 9)).
  Proof.
    destruct (expr_sem_immediate e4 t4 r4) as (f0 & H); [vm_compute; lia|].
    exists f0. intros fuel Hf. destruct (H fuel Hf) as [-> _]. vm_compute. reflexivity.
  Qed.

  (* redundant parentheses: ((1) + (2)) * 3 has the same erasure as (1 + 2) * 3 *)
  Definition e4' :=
    EBin (BMulDiv OMultiply)
         (EParen (EBin (BAddSub OAdd) (EParen (ENum (num 1))) (EParen (ENum (num 2)))))
         (EParen (ENum (num 3))).
  Example v4' : forall s, den s e4' = den s e4.
  Proof. intros s. apply den_parens. reflexivity. Qed.

  (* error kinds: 1 / 0 and "A" + 1 *)
  Example v5 :
    run [TNumber (num 1); TDivide; TNumber (num 0)] = Err EDivisionByZero None
    /\ run [TString (bs "A"); TPlus; TNumber (num 1)] = Err ETypeMismatch None
    /\ run [TString (bs "A"); TLessThan; TString (bs "B")] = Ok (VNum f64_one).
  Proof. repeat split; vm_compute; reflexivity. Qed.
End Examples.

Print Assumptions renders_sem.
Print Assumptions expr_sem_gen.
Print Assumptions expr_sem.
Print Assumptions expr_parens.
Print Assumptions den_parens.
Print Assumptions every_tree_spelled.
Print Assumptions Examples.v4_all_fuel.
