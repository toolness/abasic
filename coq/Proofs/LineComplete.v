(* Proofs/LineComplete.v — C06, the converse clause over the analysis of a whole
   program text: an Error message that the walk of [analyze] adds comes from
   [walk_line] started at the first token of some stored line, in a checker
   state that holds the program, with no function defined (programs without
   DEF: [walk_msg_origin] of Proofs/ProgSound.v); with Proofs/LineAgree.v: if that
   line is straight, executing it — from any interpreter state that holds the program, stands at the start of that
   line, is typed and has no function defined, a fresh one included — does not complete ([reported_error_gen]).
   [reported_error_means_failure] is the same over [analyze], but says only that SOME stored line has this
   property, not that it is the line the message comes from. *)
From Coq Require Import List.
From Abasic Require Import Model.State Model.Analyzer Proofs.StoreProofs Proofs.Safety Proofs.Caps
     Proofs.CheckSound Proofs.AnalyzerSafety Proofs.AnalyzerTermination Proofs.ProgSound Proofs.LineAgree.
Import ListNotations.
Local Open Scope nat_scope.

Lemma walk_lines_imm fuel m nl msgs st0 r msgs' stf :
  loc_line (loc (fst st0)) = None -> immediate (fst st0) = [] ->
  walk_lines fuel nl m msgs st0 = (r, msgs', stf) -> msgs' = msgs.
Proof.
  intros Hl Hi Ew.
  destruct nl as [|nl]; cbn [walk_lines] in Ew; [injection Ew as _ <- _; reflexivity|].
  assert (Ewl : forall k, walk_line fuel (S k) m st0
                = (Ok None, (set_reads (S (reads (fst st0))) (fst st0), snd st0))).
  { intros k. cbn [walk_line]. rewrite (has_next_imm (fst st0) Hl Hi). reflexivity. }
  rewrite Ewl in Ew. cbn [fst snd] in Ew. rewrite next_line_imm in Ew by (destruct (fst st0); exact Hl).
  injection Ew as _ <- _. reflexivity.
Qed.

Lemma not_none_some {A} (o : option A) : o <> None -> exists x, o = Some x.
Proof. destruct o as [x|]; [exists x; reflexivity | congruence]. Qed.

Lemma error_origin_gen fuel (prog : interp) (m : source_map) nl msgs0 r msgs stf :
  wf prog -> nodef_program (st_toks prog) ->
  walk_lines fuel nl m msgs0 (snd (run_from_first_numbered_line prog), []) = (r, msgs, stf) ->
  forall msg, In msg msgs -> In msg msgs0 \/ FromLine (st_toks prog) (st_keys prog) m fuel msg.
Proof.
  intros Hwf Hnodef Ew msg Hin.
  destruct (rffl_fields prog) as (F1 & F2 & F3 & F4 & F5).
  destruct (wf_store _ Hwf) as (Hsorted & Hkeys & _).
  pose proof (store_first_spec prog (wf_store _ Hwf)) as Hfirst.
  destruct (store_first prog) as [ln0|] eqn:Ef.
  2:{ (* an empty program: the walk adds nothing *)
      left.
      rewrite (walk_lines_imm fuel m nl msgs0 (snd (run_from_first_numbered_line prog), @nil access) r msgs stf ltac:(cbn [fst]; rewrite F4; reflexivity) ltac:(cbn [fst]; exact F3) Ew) in Hin.
      exact Hin. }
  destruct Hfirst as (Hinl & Hleast).
  apply (walk_msg_origin (st_toks prog) (st_keys prog) m fuel Hsorted
              (fun k Hk => proj1 (Hkeys k) Hk) Hnodef nl msgs0
              (snd (run_from_first_numbered_line prog), []) r msgs stf ln0); cbn [fst snd]; try assumption.
  - exact (proj2 (walk_start prog Hwf)).
Qed.

(* the line [ln] is the one whose walk, from its first token, answered [msg] *)
Lemma reported_error_gen fuel (prog : interp) (m : source_map) nl msgs0 r msgs stf :
  wf prog -> nodef_program (st_toks prog) ->
  walk_lines fuel nl m msgs0 (snd (run_from_first_numbered_line prog), []) = (r, msgs, stf) ->
  forall msg, In msg msgs ->
  In msg msgs0
  \/ exists ln ts, toks_get ln (st_toks prog) = Some ts
       /\ (exists st1 stmts st1', loc (fst st1) = mkloc (Some ln) 0 /\ walk_line fuel stmts m st1 = (Ok (Some msg), st1'))
       /\ (straight_line ts = true ->
           forall fi s, st_toks s = st_toks prog -> st_keys s = st_keys prog ->
             immediate s = [] -> loc s = mkloc (Some ln) 0 -> caps_inv s -> functions s = [] ->
             (~ exists s', LineRun fi s s') /\ ~ HostLine fi s).
Proof.
  intros Hwf Hnodef Ew msg Hin.
  destruct (wf_store _ Hwf) as (_ & Hkeys & _).
  destruct (error_origin_gen fuel prog m nl msgs0 r msgs stf Hwf Hnodef Ew msg Hin) as [Hp | Horig]; [left; exact Hp|].
  right. destruct Horig as (ln & st1 & stmts & st1' & Hk & O1 & O2 & O3 & O4 & O5 & Ewl).
  pose proof (proj1 (Hkeys ln) Hk) as Hne.
  destruct (toks_get ln (st_toks prog)) as [ts|] eqn:Eg; [|congruence].
  exists ln, ts. split; [exact Eg|]. split; [exists st1, stmts, st1'; split; assumption|].
  intros Hst fi s S1 S2 S3 S4 S5 S6.
  destruct st1 as [sa1 acc1]. cbn [fst] in *.
  assert (HR : R s sa1).
  { split; [repeat split; congruence|]. split; [exact S5|]. split; assumption. }
  assert (Hcl : straight_line (cur_line s) = true).
  { unfold cur_line. rewrite S4. cbn [loc_line]. rewrite S1, Eg. exact Hst. }
  split; [exact (straight_line_error_fails fi fuel stmts m s sa1 acc1 msg st1' HR Hcl Ewl)
         | exact (host_line_error_fails fi fuel stmts m s sa1 acc1 msg st1' HR Hcl Ewl)].
Qed.

Theorem reported_error_means_failure fuel text :
  line_bound text < fuel ->
  nodef_program (st_toks (p_prog (pass1_of' text))) ->
  forall msg, In msg (an_messages (analyze fuel text)) -> is_error_msg msg = true ->
  In msg (p_msgs (pass1_of' text))              (* a tokenization error: the line was never stored *)
  \/ exists ln ts, toks_get ln (st_toks (p_prog (pass1_of' text))) = Some ts
       /\ (straight_line ts = true ->
           forall fi s, st_toks s = st_toks (p_prog (pass1_of' text)) -> st_keys s = st_keys (p_prog (pass1_of' text)) ->
             immediate s = [] -> loc s = mkloc (Some ln) 0 -> caps_inv s -> functions s = [] ->
             (~ exists s', LineRun fi s s') /\ ~ HostLine fi s).
Proof.
  intros _ Hnodef msg Hin Herr.
  destruct (an_walk fuel text) as (nl & r & msgs & stf & Ew & _ & _ & Hrev).
  pose proof (pp_wf _ _ (PP_pass1 text)) as Hwf.
  destruct (reported_error_gen fuel (p_prog (pass1_of' text)) (p_map (pass1_of' text)) nl (p_msgs (pass1_of' text)) r msgs stf
              Hwf Hnodef Ew msg (Hrev msg Hin Herr)) as [H | (ln & ts & H1 & _ & H2)]; [left; exact H | right].
  exists ln, ts. split; assumption.
Qed.
