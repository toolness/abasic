(* On a program without DEF tokens the analysis never changes the function
   table: the walk of AnalyzerFrame.v at [FN].  define_function does not respect
   [FN]; the dispatcher reaches it only after reading a DEF token, which a clean
   store never shows. *)
From Coq Require Import List.
From Abasic Require Import Model.Token Model.State Model.Analyzer Proofs.Safety Proofs.AnalyzerFrame Proofs.CheckSound.
Import ListNotations.
Local Open Scope nat_scope.

Definition clean_tok (t : token) : bool := match t with TElse | TInput | TDef => false | _ => true end.
Definition clean_line (ts : list token) : bool := forallb clean_tok ts.
(* for the function table only DEF matters *)
Definition nodef_tok (t : token) : bool := match t with TDef => false | _ => true end.
Definition nodef_line (ts : list token) : bool := forallb nodef_tok ts.
(* no stored line shows a DEF, and neither does the immediate line, on which the cursor may stand *)
Definition CleanStore (s : interp) : Prop :=
  (forall n ts, toks_get n (st_toks s) = Some ts -> nodef_line ts = true) /\ immediate s = [].

Lemma clean_nodef ts : clean_line ts = true -> nodef_line ts = true.
Proof.
  unfold clean_line, nodef_line. rewrite !forallb_forall. intros H t Ht. specialize (H t Ht).
  destruct t; try reflexivity; discriminate H.
Qed.

(* [CleanStore s] is a premise of the last clause and not of the lemmas about [FN]: so [FN] is a preorder,
   which the walk of AnalyzerFrame.v takes, although DEF-freeness speaks of the start state alone *)
Definition FN (s s' : interp) : Prop :=
  st_toks s' = st_toks s /\ st_keys s' = st_keys s /\ immediate s' = immediate s
  /\ (CleanStore s -> functions s' = functions s).

Lemma FN_refl s : FN s s.
Proof. unfold FN. repeat split. Qed.

Lemma FN_trans a b c : FN a b -> FN b c -> FN a c.
Proof.
  unfold FN, CleanStore. intros (A1 & A2 & A3 & A4) (B1 & B2 & B3 & B4). repeat split; try congruence.
  intros Hc. rewrite B4, A4; try assumption; try reflexivity. rewrite A1, A3. exact Hc.
Qed.

(* as AnalyzerFrame's [RAF]: [orel RFN m] is [mrel FN m] *)
Definition RFN (s : interp) (r : res unit) (s' : interp) : Prop := FN s s'.

Lemma RFN_ocat : ocat RFN.
Proof. split; unfold RFN; intros; try apply FN_refl. eapply FN_trans; eassumption. Qed.

Lemma rfn_modify f : (forall s, FN s (f s)) -> orel RFN (modify f).
Proof. intros H. apply orel_modify. exact H. Qed.

Ltac rfn_frame := apply rfn_modify; intros; unfold FN; repeat split; try reflexivity; intros _; reflexivity.

Lemma rfn_tokens_for_line l : orel RFN (tokens_for_line l).
Proof.
  intros s. unfold tokens_for_line.
  destruct l as [n|]; [destruct (toks_get n (st_toks s))|]; apply FN_refl.
Qed.

Lemma rfn_lift_res {A} (r : res A) : orel RFN (lift_res r).
Proof. intros s. apply FN_refl. Qed.
Lemma rfn_fail_at {A} e l : orel RFN (@fail_at A e l).
Proof. intros s. apply FN_refl. Qed.
Lemma rfn_panic {A} p : orel RFN (@panic A p).
Proof. intros s. apply FN_refl. Qed.

Create HintDb rfndb discriminated.
#[local] Hint Resolve rfn_tokens_for_line rfn_lift_res rfn_fail_at rfn_panic : rfndb.
Ltac rfn_leaf := first [ solve [ auto 3 with rfndb nocore ] | solve [ rfn_frame ] ].
Ltac rfn_walk := orel_walk RFN_ocat rfn_leaf.

Lemma rfn_cur_tokens : orel RFN cur_tokens. Proof. unfold cur_tokens; rfn_walk. Qed.
#[local] Hint Resolve rfn_cur_tokens : rfndb.
Lemma rfn_peek : orel RFN peek_next_token. Proof. unfold peek_next_token; rfn_walk. Qed.
#[local] Hint Resolve rfn_peek : rfndb.
Lemma rfn_has_next : orel RFN has_next_token. Proof. unfold has_next_token; rfn_walk. Qed.
Lemma rfn_advance : orel RFN advance. Proof. unfold advance; rfn_walk. Qed.
#[local] Hint Resolve rfn_has_next rfn_advance : rfndb.
Lemma rfn_next_token : orel RFN next_token. Proof. unfold next_token; rfn_walk. Qed.
#[local] Hint Resolve rfn_next_token : rfndb.
Lemma rfn_next_unwrapped : orel RFN next_unwrapped_token. Proof. unfold next_unwrapped_token; rfn_walk. Qed.
#[local] Hint Resolve rfn_next_unwrapped : rfndb.
Lemma rfn_expect t : orel RFN (expect_next_token t). Proof. unfold expect_next_token; rfn_walk. Qed.
Lemma rfn_accept t : orel RFN (accept_next_token t). Proof. unfold accept_next_token; rfn_walk. Qed.
Lemma rfn_peek_is t : orel RFN (peek_is t). Proof. unfold peek_is; rfn_walk. Qed.
Lemma rfn_try {B} (g : token -> option B) : orel RFN (try_next_token g). Proof. unfold try_next_token; rfn_walk. Qed.
Lemma rfn_reset_data : orel RFN reset_data_cursor. Proof. unfold reset_data_cursor; rfn_walk. Qed.
Lemma rfn_get {A} (f : interp -> A) : orel RFN (get f). Proof. apply (orel_get _ RFN_ocat). Qed.
Lemma rfn_next_line : orel RFN next_line. Proof. unfold next_line; rfn_walk. Qed.

Definition aofn {A} (m : MA A) : Prop := forall s, FN (fst s) (fst (snd (m s))).

Lemma FN_cursor : cursor_rel FN.
Proof.
  split; [split; [exact FN_refl|exact FN_trans] | exact rfn_peek | exact rfn_next_token
         | exact rfn_next_unwrapped | exact rfn_expect | exact rfn_accept | exact rfn_peek_is | exact @rfn_try
         | exact rfn_reset_data].
Qed.

Lemma aofn_enter_nesting n : aofn (enter_nesting n).
Proof. exact (amrel_enter_nesting FN (cr_po FN FN_cursor) n). Qed.

Lemma fn_analyze_expression fuel n : aofn (analyze_expression fuel n).
Proof. exact (w_analyze_expression FN FN_cursor fuel n). Qed.

Lemma fn_statement_or_goto rec : aofn rec -> aofn (an_statement_or_goto rec).
Proof. exact (w_statement_or_goto FN FN_cursor rec). Qed.

Section AStmtF.
  Variable fuel nest : nat.
  Variable rec : MA unit.
  Hypothesis Hrec : aofn rec.

  Lemma fn_dispatch t : t <> Some TDef -> aofn (adispatch fuel nest rec t).
  Proof.
    intros Ht. change (amrel FN (adispatch fuel nest rec t)). pose proof FN_cursor as CR.
    destruct t as [[]|]; try congruence; cbn [adispatch]; amrel_walk (cr_po FN CR).
  Qed.
End AStmtF.

Lemma option_eq_dec_tdef (t : option token) : {t = Some TDef} + {t <> Some TDef}.
Proof. destruct t as [t|]; [destruct t|]; first [left; reflexivity | right; discriminate]. Qed.

Lemma next_token_clean s t s' : CleanStore s -> next_token s = (Ok (Some t), s') -> nodef_tok t = true.
Proof.
  intros [Hc Hi] E. pose proof (next_token_run s) as R.
  destruct (nth_error (cur_toks s) (loc_idx (loc s))) as [t0|] eqn:En.
  - rewrite R in E. injection E as <- _. apply nth_error_In in En. unfold cur_toks in En. rewrite Hi in En.
    destruct (loc_line (loc s)) as [n|]; [|destruct En].
    destruct (toks_get n (st_toks s)) as [ts|] eqn:Et; [|destruct En].
    pose proof (Hc n ts Et) as H. unfold nodef_line in H. rewrite forallb_forall in H. exact (H _ En).
  - destruct R as (r & R & Hr). rewrite R in E. injection E as E _. destruct (Hr _ E).
Qed.

Lemma fn_def_read fuel nest s s1 acc : next_token s = (Ok (Some TDef), s1) ->
  FN s (fst (snd (an_def fuel nest (s1, acc)))).
Proof.
  (* the first three clauses of [FN] are the first three of [AF] *)
  intros E. destruct (af_def_read fuel nest s s1 acc E) as (D1 & D2 & D3 & _).
  split; [exact D1|]. split; [exact D2|]. split; [exact D3|].
  intros Hc. pose proof (next_token_clean _ _ _ Hc E) as Hcl. discriminate Hcl.
Qed.

Lemma fn_analyze_statement fuel n : aofn (analyze_statement fuel n).
Proof. exact (w_analyze_statement FN FN_cursor fn_def_read fuel n). Qed.

Lemma fn_walk_line fuel m stmts st : FN (fst st) (fst (snd (walk_line fuel stmts m st))).
Proof. exact (w_walk_line FN FN_cursor fn_def_read rfn_has_next fuel m stmts st). Qed.
