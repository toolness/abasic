(* Proofs/TurnProofs.v — C09: one host call executes at most one statement.

   Observables of "a statement was executed" are its output records: a PRINT
   statement pushes at most one Print record, INPUT at most one Reenter /
   ExtraIgnored record, STOP one Break record, and every evaluate_statement
   entry pushes one Trace record naming the current line (when tracing is on).
   Expressions (including user-function bodies, which are expressions) push
   nothing but Warning records.

     RQ    expression-level: only Warning records are appended
     O k T at most k shown records were appended, and only records in T;
           the counts of a sequence add up (O_trans)
     R1    one simple statement: O 1 with no Trace record
     SQ L  one statement entered on line L of a well-formed state (an IF
           together with the single statement it selects): O 1 with every
           Trace record naming L
   Main results: one_statement_per_turn, continue_one_statement, start_one_statement. *)
From Coq Require Import List NArith ZArith Bool Lia.
From Abasic Require Import Model.Bytes Model.Token Model.State Model.Eval Model.Interp Proofs.Monad Proofs.StoreProofs
     Proofs.Safety Proofs.ResetProofs Proofs.InputProofs.
Import ListNotations.
Local Open Scope nat_scope.

Definition is_warning (o : output) : Prop := match o with OWarning _ _ => True | _ => False end.

(* records that show a statement was executed *)
Definition shows (o : output) : bool :=
  match o with OPrint _ | OReenter | OExtraIgnored | OBreak _ => true | _ => false end.

Definition trace_ok (L : option N) (o : output) : Prop :=
  match o with OTrace n => L = Some n | _ => True end.

Definition RQ (s : interp) (r : res unit) (s' : interp) : Prop :=
  exists new, outputs s' = outputs s ++ new /\ Forall is_warning new.

Lemma RQ_refl s r : RQ s r s.
Proof. exists []. rewrite app_nil_r. split; [reflexivity|constructor]. Qed.

Lemma RQ_ocat : ocat RQ.
Proof.
  split; try (intros; apply RQ_refl).
  intros a b c r (n1 & H1 & F1) (n2 & H2 & F2). exists (n1 ++ n2).
  rewrite H2, H1, app_assoc. split; [reflexivity|apply Forall_app; split; assumption].
Qed.

Lemma rq_modify_frame f : (forall s, outputs (f s) = outputs s) -> orel RQ (modify f).
Proof.
  intros H. apply orel_modify. intros s. exists []. rewrite app_nil_r, H. split; [reflexivity|constructor].
Qed.

Lemma rq_same {A} (m : M A) : (forall s, snd (m s) = s) -> orel RQ m.
Proof. intros H s. rewrite H. apply RQ_refl. Qed.

Ltac rq_frame := apply rq_modify_frame; intros; reflexivity.

Lemma rq_tokens_for_line l : orel RQ (tokens_for_line l).
Proof. apply rq_same, same_tokens_for_line. Qed.

Lemma rq_lift_res {A} (r : res A) : orel RQ (lift_res r).
Proof. apply rq_same. reflexivity. Qed.

Lemma rq_panic {A} p : orel RQ (@panic A p).
Proof. apply rq_same. reflexivity. Qed.

Create HintDb rqdb discriminated.
#[local] Hint Resolve rq_tokens_for_line rq_lift_res rq_panic : rqdb.

Ltac rq_leaf := first [ solve [ auto 1 with rqdb nocore ] | solve [ rq_frame ] ].
Ltac rq_walk := orel_walk RQ_ocat rq_leaf.

Lemma rq_cur_tokens : orel RQ cur_tokens. Proof. unfold cur_tokens; rq_walk. Qed.
#[local] Hint Resolve rq_cur_tokens : rqdb.
Lemma rq_peek : orel RQ peek_next_token. Proof. unfold peek_next_token; rq_walk. Qed.
#[local] Hint Resolve rq_peek : rqdb.
Lemma rq_has_next : orel RQ has_next_token. Proof. unfold has_next_token; rq_walk. Qed.
Lemma rq_advance : orel RQ advance. Proof. unfold advance; rq_walk. Qed.
#[local] Hint Resolve rq_has_next rq_advance : rqdb.
Lemma rq_next_token : orel RQ next_token. Proof. unfold next_token; rq_walk. Qed.
#[local] Hint Resolve rq_next_token : rqdb.
Lemma rq_next_unwrapped : orel RQ next_unwrapped_token. Proof. unfold next_unwrapped_token; rq_walk. Qed.
#[local] Hint Resolve rq_next_unwrapped : rqdb.
Lemma rq_expect t : orel RQ (expect_next_token t). Proof. unfold expect_next_token; rq_walk. Qed.
Lemma rq_accept t : orel RQ (accept_next_token t). Proof. unfold accept_next_token; rq_walk. Qed.
Lemma rq_peek_is t : orel RQ (peek_is t). Proof. unfold peek_is; rq_walk. Qed.
Lemma rq_try {B} (g : token -> option B) : orel RQ (try_next_token g). Proof. unfold try_next_token; rq_walk. Qed.
#[local] Hint Resolve rq_expect rq_accept rq_peek_is rq_try : rqdb.
Lemma rq_discard : orel RQ discard_remaining_tokens. Proof. unfold discard_remaining_tokens; rq_walk. Qed.
Lemma rq_rewind_loop i e : orel RQ (rewind_loop i e).
Proof. induction i as [|i IH]; cbn [rewind_loop]; rq_walk. Qed.
#[local] Hint Resolve rq_discard rq_rewind_loop : rqdb.
Lemma rq_rewind e : orel RQ (rewind_before_token e). Proof. unfold rewind_before_token; rq_walk. Qed.
Lemma rq_get_line_number : orel RQ get_line_number. Proof. unfold get_line_number; rq_walk. Qed.
Lemma rq_is_else : orel RQ is_else_of_then_clause. Proof. unfold is_else_of_then_clause; rq_walk. Qed.
#[local] Hint Resolve rq_rewind rq_get_line_number rq_is_else : rqdb.

Lemma rq_variables_set n v : orel RQ (variables_set n v). Proof. unfold variables_set; rq_walk. Qed.
Lemma rq_variables_get n : orel RQ (variables_get n). Proof. unfold variables_get; rq_walk. Qed.
Lemma rq_find_var n : orel RQ (find_variable_value_in_stack n).
Proof. unfold find_variable_value_in_stack; rq_walk. Qed.
Lemma rq_reset_data : orel RQ reset_data_cursor. Proof. unfold reset_data_cursor; rq_walk. Qed.
#[local] Hint Resolve rq_variables_set rq_variables_get rq_find_var rq_reset_data : rqdb.
Lemma rq_push_warning m l : orel RQ (push_output (OWarning m l)).
Proof.
  unfold push_output. apply orel_modify. intros s. exists [OWarning m l]. split; [reflexivity|].
  constructor; [exact I|constructor].
Qed.
#[local] Hint Resolve rq_push_warning : rqdb.
Lemma rq_warn m : orel RQ (warn m). Proof. unfold warn; rq_walk. Qed.
#[local] Hint Resolve rq_warn : rqdb.
Lemma rq_maybe_warn n : orel RQ (maybe_warn_undeclared_array n).
Proof. unfold maybe_warn_undeclared_array; rq_walk. Qed.
Lemma rq_arrays_create n i : orel RQ (arrays_create n i). Proof. unfold arrays_create; rq_walk. Qed.
#[local] Hint Resolve rq_maybe_warn rq_arrays_create : rqdb.
Lemma rq_maybe_default n d : orel RQ (maybe_create_default_array n d).
Proof. unfold maybe_create_default_array; rq_walk. Qed.
#[local] Hint Resolve rq_maybe_default : rqdb.
Lemma rq_arrays_get n i : orel RQ (arrays_get n i). Proof. unfold arrays_get; rq_walk. Qed.
Lemma rq_arrays_set n i v : orel RQ (arrays_set n i v). Proof. unfold arrays_set; rq_walk. Qed.
Lemma rq_rng_rnd x : orel RQ (rng_rnd x). Proof. unfold rng_rnd; rq_walk. Qed.
#[local] Hint Resolve rq_arrays_get rq_arrays_set rq_rng_rnd : rqdb.

Lemma rq_next_data : orel RQ next_data_element.
Proof.
  intros s. unfold next_data_element.
  assert (K : forall d, RQ s (Ok tt) (set_data_it d s)) by (intros d; exists []; rewrite app_nil_r; split; [reflexivity|constructor]).
  assert (K0 : forall r, RQ s r s) by (intros r; exists []; rewrite app_nil_r; split; [reflexivity|constructor]).
  destruct (data_it s) as [d|].
  - destruct (data_next _ d); apply K.
  - destruct (data_chunks (st_keys s) (st_toks s)); try apply K0. destruct (data_next _ _); apply K.
Qed.
#[local] Hint Resolve rq_next_data : rqdb.

Lemma rq_eval_unary o v : orel RQ (eval_unary o v). Proof. unfold eval_unary; rq_walk. Qed.
Lemma rq_eval_addsub o a b : orel RQ (eval_addsub o a b). Proof. unfold eval_addsub; rq_walk. Qed.
Lemma rq_eval_muldiv o a b : orel RQ (eval_muldiv o a b). Proof. unfold eval_muldiv; rq_walk. Qed.
Lemma rq_eval_eq o a b : orel RQ (eval_eq o a b). Proof. unfold eval_eq; rq_walk. Qed.
Lemma rq_eval_and a b : orel RQ (eval_and a b). Proof. unfold eval_and; rq_walk. Qed.
Lemma rq_eval_or a b : orel RQ (eval_or a b). Proof. unfold eval_or; rq_walk. Qed.
Lemma rq_eval_pow a b : orel RQ (eval_pow a b). Proof. unfold eval_pow; rq_walk. Qed.
Lemma rq_expect_number v : orel RQ (expect_number v). Proof. unfold expect_number; rq_walk. Qed.
#[local] Hint Resolve rq_eval_unary rq_eval_addsub rq_eval_muldiv rq_eval_eq rq_eval_and rq_eval_or
  rq_eval_pow rq_expect_number : rqdb.

(* none of the control primitives touches the output *)
Lemma rq_remove_loop sym : orel RQ (remove_loop_with_name sym). Proof. unfold remove_loop_with_name; rq_walk. Qed.
#[local] Hint Resolve rq_remove_loop : rqdb.
Lemma rq_start_loop sym a b c : orel RQ (start_loop sym a b c). Proof. unfold start_loop; rq_walk. Qed.
Lemma rq_end_loop sym : orel RQ (end_loop sym). Proof. unfold end_loop; rq_walk. Qed.
Lemma rq_goto n : orel RQ (goto_line_number n). Proof. unfold goto_line_number; rq_walk. Qed.
#[local] Hint Resolve rq_start_loop rq_end_loop rq_goto : rqdb.
Lemma rq_gosub n : orel RQ (gosub_line_number n). Proof. unfold gosub_line_number; rq_walk. Qed.
Lemma rq_return : orel RQ return_to_last_gosub. Proof. unfold return_to_last_gosub; rq_walk. Qed.
Lemma rq_define_function name args : orel RQ (define_function name args). Proof. unfold define_function; rq_walk. Qed.
Lemma rq_pop : orel RQ pop_function_call. Proof. unfold pop_function_call; rq_walk. Qed.
Lemma rq_push name b : orel RQ (push_function_call name b). Proof. unfold push_function_call; rq_walk. Qed.
Lemma rq_next_line : orel RQ next_line. Proof. unfold next_line; rq_walk. Qed.
Lemma rq_set_imm ts : orel RQ (set_and_goto_immediate_line ts).
Proof. unfold set_and_goto_immediate_line. apply rq_modify_frame. intros s. destruct (breakpoint s); reflexivity. Qed.
#[local] Hint Resolve rq_gosub rq_return rq_define_function rq_pop rq_push rq_next_line rq_set_imm : rqdb.
Lemma rq_program_break : orel RQ program_break_at_current_location.
Proof. unfold program_break_at_current_location; rq_walk. Qed.
Lemma rq_program_end : orel RQ program_end. Proof. unfold program_end; rq_walk. Qed.
#[local] Hint Resolve rq_program_break rq_program_end : rqdb.

Section ExprQ.
  Variable fuel : nat.
  Variable rec : M value.
  Hypothesis Hrec : orel RQ rec.

  Lemma rq_bind_arguments args : forall i n b, orel RQ (bind_arguments rec args i n b).
  Proof.
    induction args as [|a args IH]; intros i n b; cbn [bind_arguments];
      orel_walk RQ_ocat ltac:(first [ apply Hrec | apply IH | rq_leaf ]).
  Qed.

  Lemma rq_call_body : orel RQ (call_body rec).
  Proof.
    refine (mrel_call_body (fun s s' => RQ s (Ok tt) s') _ rec Hrec rq_pop).
    split; [exact (oc_ok _ RQ_ocat) | intros a b c; exact (oc_trans _ RQ_ocat a b c (Ok tt))].
  Qed.

  Lemma rq_user_function_call name : orel RQ (user_function_call rec name).
  Proof.
    unfold user_function_call.
    orel_walk RQ_ocat ltac:(first [ apply rq_bind_arguments | apply rq_call_body | rq_leaf ]).
  Qed.

  Lemma rq_array_index : orel RQ (evaluate_array_index fuel rec).
  Proof. unfold evaluate_array_index; orel_walk RQ_ocat ltac:(first [ apply Hrec | rq_leaf ]). Qed.

  Lemma rq_unary_arg : orel RQ (unary_number_function_arg rec).
  Proof. unfold unary_number_function_arg; orel_walk RQ_ocat ltac:(first [ apply Hrec | rq_leaf ]). Qed.

  Lemma rq_function_call name : orel RQ (function_call rec name).
  Proof.
    unfold function_call.
    orel_walk RQ_ocat ltac:(first [ apply rq_unary_arg | apply rq_user_function_call | rq_leaf ]).
  Qed.

  Lemma rq_unary : orel RQ (unary_operator fuel rec).
  Proof.
    unfold unary_operator, parenthesized_expression, expression_term.
    orel_walk RQ_ocat ltac:(first [ apply Hrec | apply rq_function_call | apply rq_array_index | rq_leaf ]).
  Qed.

  Lemma rq_accept_as {O} t (o : O) : orel RQ (accept_as t o).
  Proof. unfold accept_as; rq_walk. Qed.

  Lemma rq_tier {O} (get_op : M (option O)) operand apply :
    orel RQ get_op -> orel RQ operand -> (forall o a b, orel RQ (apply o a b)) ->
    orel RQ (tier fuel get_op operand apply).
  Proof.
    intros H1 H2 H3. unfold tier.
    orel_walk RQ_ocat ltac:(first [ apply H1 | apply H2 | apply H3 | rq_leaf ]).
  Qed.

  Lemma rq_logical_or : orel RQ (logical_or_expression fuel rec).
  Proof.
    apply (tiers_ind fuel rec (orel RQ));
      [intros; apply rq_tier; first [apply rq_accept_as | apply rq_try | assumption | intros; rq_leaf].. | exact rq_unary].
  Qed.
End ExprQ.

Lemma rq_evaluate_expression fuel : forall n, orel RQ (evaluate_expression fuel n).
Proof.
  induction fuel as [|k IH]; intros n; cbn [evaluate_expression].
  - apply (orel_out_of_fuel _ RQ_ocat).
  - destruct (Nat.eqb n max_nesting); [apply (orel_fail _ RQ_ocat)|].
    apply rq_logical_or; apply IH.
Qed.
#[local] Hint Resolve rq_evaluate_expression : rqdb.

(* [O k T]: the run appended at most [k] records that show a statement, and only records in [T].  Counts add up
   ([O_trans]), so "at most one" does not compose with itself: a sequence is walked with [RQ] (no such record) on the
   other side, before ([r1_bind_l], [sq_bind_l]) or behind ([r1_bind_r], [sq_bind_r]) the one computation that may show
   a record.  [O] has no outcome argument: one that the body does not read is never determined when [O_trans] is
   applied, because unification unfolds [O] before it compares arguments. *)
Definition O (k : nat) (T : output -> Prop) (s s' : interp) : Prop :=
  exists new, outputs s' = outputs s ++ new /\ length (filter shows new) <= k /\ Forall T new.

Lemma O_trans j k T a b c : O j T a b -> O k T b c -> O (j + k) T a c.
Proof.
  intros (n1 & H1 & C1 & T1) (n2 & H2 & C2 & T2). exists (n1 ++ n2). rewrite H2, H1, app_assoc. split; [reflexivity|].
  rewrite filter_app, app_length. split; [lia | apply Forall_app; split; assumption].
Qed.

Lemma filter_shows_warnings w : Forall is_warning w -> filter shows w = [].
Proof. induction 1 as [|o w Ho _ IH]; [reflexivity|]. destruct o; try contradiction. exact IH. Qed.

Lemma O_of_RQ k (T : output -> Prop) s r s' : (forall o, is_warning o -> T o) -> RQ s r s' -> O k T s s'.
Proof.
  intros HT (w & Hw & Fw). exists w. rewrite (filter_shows_warnings w Fw). split; [exact Hw|].
  split; [cbn; lia | revert Fw; apply Forall_impl, HT].
Qed.

Definition notrace (o : output) : Prop := match o with OTrace _ => False | _ => True end.

Lemma warning_notrace o : is_warning o -> notrace o.
Proof. destruct o; cbn; auto. Qed.

Lemma warning_trace_ok L o : is_warning o -> trace_ok L o.
Proof. destruct o; cbn; auto; contradiction. Qed.

(* one simple statement: at most one shown record, no Trace record *)
Definition R1 (s : interp) (r : res unit) (s' : interp) : Prop := O 1 notrace s s'.

Lemma r1_of_rq {A} (m : M A) : orel RQ m -> orel R1 m.
Proof. intros H s. exact (O_of_RQ 1 _ _ _ _ warning_notrace (H s)). Qed.

Lemma r1_bind_l {A B} (m : M A) (f : A -> M B) :
  orel RQ m -> (forall a, orel R1 (f a)) -> orel R1 (bind m f).
Proof.
  apply orel_bind3; [intros a b c r H1 H2 | intros a r b _; apply O_of_RQ, warning_notrace].
  exact (O_trans 0 1 _ _ _ _ (O_of_RQ 0 _ _ _ _ warning_notrace H1) H2).
Qed.

Lemma r1_bind_r {A B} (m : M A) (f : A -> M B) :
  orel R1 m -> (forall a, orel RQ (f a)) -> orel R1 (bind m f).
Proof.
  apply orel_bind3; [intros a b c r H1 H2 | auto].
  exact (O_trans 1 0 _ _ _ _ H1 (O_of_RQ 0 _ _ _ _ warning_notrace H2)).
Qed.

Lemma r1_push o : notrace o -> orel R1 (push_output o).
Proof.
  intros Ho. unfold push_output. apply orel_modify. intros s. exists [o]. split; [reflexivity|].
  split; [cbn; destruct (shows o); cbn; lia|constructor; [exact Ho|constructor]].
Qed.

Lemma r1_ret {A} (a : A) : orel R1 (ret a).
Proof. apply r1_of_rq, (orel_ret _ RQ_ocat). Qed.

Section StmtQ.
  Variable fuel nest : nat.

  Ltac rqs_leaf := first [ apply rq_evaluate_expression | rq_leaf ].
  Ltac rqs_walk := orel_walk RQ_ocat rqs_leaf.

  Lemma rq_optional_index : orel RQ (parse_optional_array_index fuel nest).
  Proof. unfold parse_optional_array_index; orel_walk RQ_ocat ltac:(first [ apply rq_array_index; apply rq_evaluate_expression | rqs_leaf ]). Qed.
  Lemma rq_assign_value lv v : orel RQ (assign_value lv v).
  Proof. unfold assign_value; rqs_walk. Qed.
  Lemma rq_assignment sym : orel RQ (evaluate_assignment_statement fuel nest sym).
  Proof.
    unfold evaluate_assignment_statement.
    orel_walk RQ_ocat ltac:(first [ apply rq_optional_index | apply rq_assign_value | rqs_leaf ]).
  Qed.
  Lemma rq_let : orel RQ (evaluate_let_statement fuel nest).
  Proof. unfold evaluate_let_statement; orel_walk RQ_ocat ltac:(first [ apply rq_assignment | rqs_leaf ]). Qed.
  Lemma rq_parse_lvalue : orel RQ (parse_lvalue fuel nest).
  Proof. unfold parse_lvalue; orel_walk RQ_ocat ltac:(first [ apply rq_optional_index | rqs_leaf ]). Qed.
  Lemma rq_read : orel RQ (evaluate_read_statement fuel nest).
  Proof.
    unfold evaluate_read_statement.
    orel_walk RQ_ocat ltac:(first [ apply rq_parse_lvalue | apply rq_assign_value | rqs_leaf ]).
  Qed.
  Lemma rq_take_input : orel RQ take_input.
  Proof. unfold take_input; rqs_walk. Qed.
  Lemma rq_rewind_await : orel RQ rewind_program_and_await_input.
  Proof. unfold rewind_program_and_await_input; rqs_walk. Qed.
  Lemma rq_dim : orel RQ (evaluate_dim_statement fuel nest).
  Proof. unfold evaluate_dim_statement; orel_walk RQ_ocat ltac:(first [ apply rq_parse_lvalue | rqs_leaf ]). Qed.
  Lemma rq_for : orel RQ (evaluate_for_statement fuel nest).
  Proof. unfold evaluate_for_statement; rqs_walk. Qed.
  Lemma rq_next_stmt : orel RQ evaluate_next_statement.
  Proof. unfold evaluate_next_statement; rqs_walk. Qed.
  Lemma rq_def : orel RQ (evaluate_def_statement fuel).
  Proof. unfold evaluate_def_statement; rqs_walk. Qed.
  Lemma rq_goto_stmt : orel RQ evaluate_goto_statement.
  Proof. unfold evaluate_goto_statement; rqs_walk. Qed.
  Lemma rq_gosub_stmt : orel RQ evaluate_gosub_statement.
  Proof. unfold evaluate_gosub_statement; rqs_walk. Qed.

  (* PRINT: the item loop pushes nothing but warnings; then one Print record *)
  Lemma r1_print : orel R1 (evaluate_print_statement fuel nest).
  Proof.
    unfold evaluate_print_statement. apply r1_bind_l; [rqs_walk|intros [semi text]].
    apply r1_push. exact I.
  Qed.

  (* INPUT: at most one of ExtraIgnored / Reenter *)
  Lemma r1_input : orel R1 (evaluate_input_statement fuel nest).
  Proof.
    unfold evaluate_input_statement. apply r1_bind_l; [apply rq_take_input|intros ti].
    destruct ti as [[data leftover]|]; [|apply r1_of_rq, rq_rewind_await].
    apply r1_bind_l; [apply rq_parse_lvalue|intros lv].
    destruct data as [|first rest]; [apply r1_of_rq; rq_leaf|].
    destruct (coerce_data (lv_sym lv) first) as [v|e l|p| |]; try (apply r1_of_rq; rq_leaf).
    - apply r1_bind_l; [apply rq_assign_value|intros _].
      match goal with |- context [if ?c then _ else _] => destruct c end;
        [apply r1_push; exact I|apply r1_ret].
    - destruct e; try (apply r1_of_rq, rq_same; reflexivity).
      apply r1_bind_r; [apply r1_push; exact I|intros _; apply rq_rewind_await].
  Qed.

  Lemma r1_break : orel R1 break_at_current_location.
  Proof.
    unfold break_at_current_location. apply r1_bind_l; [rq_leaf|intros _].
    apply r1_bind_l; [rq_leaf|intros l].
    apply r1_bind_r; [apply r1_push; exact I|intros _; rq_leaf].
  Qed.
End StmtQ.

Definition SQ (L : option N) (s : interp) (r : res unit) (s' : interp) : Prop :=
  loc_line (loc s) = L -> wf s -> O 1 (trace_ok L) s s'.

Lemma sq_of_r1 {A} L (m : M A) : orel R1 m -> orel (SQ L) m.
Proof.
  intros H s _ _. destruct (H s) as (n & Hn & Cn & Tn). exists n. split; [exact Hn|]. split; [exact Cn|].
  revert Tn. apply Forall_impl. intros o; destruct o; cbn; auto; contradiction.
Qed.

(* a prefix that keeps wf and (on success) the line *)
Definition KL (s : interp) (r : res unit) (s' : interp) : Prop :=
  wf s -> r = Ok tt -> wf s' /\ loc_line (loc s') = loc_line (loc s).

Lemma KL_ocat : ocat KL.
Proof.
  split; try (intros s e Hwf H; discriminate H); try (intros s Hwf H; discriminate H); [intros s Hwf _; auto|].
  intros a b c r H1 H2 Hwf Hr. destruct (H1 Hwf eq_refl) as [A1 B1]. destruct (H2 A1 Hr) as [A2 B2]. split; congruence.
Qed.

Lemma kl_of_er {A} (m : M A) : orel ERw m -> orel KL m.
Proof. intros He s Hwf Hr. destruct (He s Hwf) as [A1 A2 A3 A4 A5 A6 A7 A8 A9]. destruct (A9 Hr). split; assumption. Qed.

Lemma kl_discard : orel KL discard_remaining_tokens.
Proof.
  intros s Hwf _. pose proof (sr_discard s Hwf) as S1.
  unfold discard_remaining_tokens in *. rewrite bind_run in *.
  rewrite (cur_tokens_eq s (wf_loc _ Hwf)) in *. cbn [modify fst snd forget] in *.
  destruct S1 as [A1 A2 A3 A4 A5]. split; [exact A1|reflexivity].
Qed.

Ltac kl_walk := orel_walk KL_ocat ltac:(first [ apply kl_discard | apply kl_of_er; er_leaf ]).

Lemma sq_bind_l {A B} L (m : M A) (f : A -> M B) :
  orel KL m -> orel RQ m -> (forall a, orel (SQ L) (f a)) -> orel (SQ L) (bind m f).
Proof.
  intros He Hq Hf s HL Hwf. rewrite bind_run. pose proof (He s Hwf) as E1. pose proof (Hq s) as H0.
  destruct (m s) as [[a|e l|p| |] s1]; cbn [fst snd forget] in *;
    try exact (O_of_RQ 1 _ _ _ _ (warning_trace_ok L) H0).
  destruct (E1 eq_refl) as [A1 B1].
  exact (O_trans 0 1 _ _ _ _ (O_of_RQ 0 _ _ _ _ (warning_trace_ok L) H0) (Hf a s1 (eq_trans B1 HL) A1)).
Qed.

Lemma sq_bind_r {A B} L (m : M A) (f : A -> M B) :
  orel (SQ L) m -> (forall a, orel RQ (f a)) -> orel (SQ L) (bind m f).
Proof.
  apply orel_bind3; [intros a b c r H1 H2 HL Hwf | auto].
  exact (O_trans 1 0 _ _ _ _ (H1 HL Hwf) (O_of_RQ 0 _ _ _ _ (warning_trace_ok L) H2)).
Qed.

(* the trace prefix of evaluate_statement ([statement_body_eq]): at most one
   Trace record, naming the line *)
Lemma traced_O s : O 0 (trace_ok (loc_line (loc s))) s (traced s).
Proof.
  exists (trace_of s). split; [reflexivity|]. unfold trace_of.
  destruct (enable_tracing s); [destruct (loc_line (loc s))|]; split; repeat constructor.
Qed.

Section StmtSQ.
  Variable fuel nest : nat.
  Variable L : option N.
  Variable rec : M unit.
  Hypothesis Hrec : orel (SQ L) rec.

  Lemma sq_stmt_or_goto : orel (SQ L) (statement_or_goto_line_number rec).
  Proof.
    unfold statement_or_goto_line_number.
    apply sq_bind_l; [apply kl_of_er, er_peek|rq_leaf|intros t].
    destruct t as [t|]; [destruct t|]; try exact Hrec. apply sq_of_r1, r1_of_rq, rq_goto_stmt.
  Qed.

  Lemma sq_if : orel (SQ L) (evaluate_if_statement fuel nest rec).
  Proof.
    eapply orel_ext; [intro; symmetry; apply if_eq|].
    apply sq_bind_l; [apply kl_of_er, er_evaluate_expression|apply rq_evaluate_expression|intros c].
    apply sq_bind_l; [apply kl_of_er, er_expect|rq_leaf|intros _].
    apply sq_bind_l; [unfold else_scan_body; kl_walk | unfold else_scan_body; rq_walk | intros [|]].
    - unfold if_clause. apply sq_bind_r; [apply sq_stmt_or_goto|intros _]. unfold else_probe. rq_walk.
    - apply sq_of_r1, r1_ret.
  Qed.
  Ltac arm :=
    first [ apply sq_of_r1, r1_break | apply sq_of_r1, r1_print | apply sq_of_r1, r1_input
          | apply sq_if
          | apply sq_of_r1, r1_of_rq;
            first [ apply rq_dim | apply rq_goto_stmt | apply rq_gosub_stmt
                  | apply rq_for | apply rq_next_stmt | apply rq_def | apply rq_read | apply rq_let
                  | apply rq_assignment
                  | orel_walk RQ_ocat ltac:(first [ apply rq_evaluate_expression | rq_leaf ]) ] ].

  Lemma sq_dispatch :
    orel (SQ L) (t <- next_token ;; match t with Some t => dispatch fuel nest rec t | None => ret tt end).
  Proof.
    apply sq_bind_l; [apply kl_of_er, er_next_token|rq_leaf|intros t].
    (* most tokens start no statement: settle those arms first *)
    pose proof (sq_of_r1 L _ (r1_of_rq _ (orel_fail RQ RQ_ocat EUnexpectedToken))
                : orel (SQ L) (@fail unit EUnexpectedToken)) as Hf.
    pose proof (sq_of_r1 L _ (r1_ret tt)) as Hr.
    destruct t as [t|]; [destruct t|]; cbn [dispatch]; first [exact Hf | exact Hr | arm].
  Qed.

  Lemma sq_statement_body : orel (SQ L) (evaluate_statement_body fuel nest rec).
  Proof.
    intros s HL Hwf. rewrite statement_body_eq. pose proof (traced_O s) as H0. rewrite HL in H0.
    refine (O_trans 0 1 _ _ _ _ H0 (sq_dispatch (traced s) HL _)). revert Hwf; apply wf_ext; reflexivity.
  Qed.
End StmtSQ.

Lemma sq_evaluate_statement fuel L : forall n, orel (SQ L) (evaluate_statement fuel n).
Proof.
  induction fuel as [|k IH]; intros n; cbn [evaluate_statement].
  - apply sq_of_r1, r1_of_rq, (orel_out_of_fuel _ RQ_ocat).
  - destruct (Nat.eqb n max_nesting); [apply sq_of_r1, r1_of_rq, (orel_fail _ RQ_ocat)|].
    apply sq_statement_body; apply IH.
Qed.

Theorem one_statement_per_turn fuel s :
  wf s ->
  exists new, outputs (snd (run_next_statement fuel s)) = outputs s ++ new
              /\ length (filter shows new) <= 1
              /\ Forall (trace_ok (loc_line (loc s))) new.
Proof.
  intros Hwf. set (L := loc_line (loc s)).
  assert (H : orel (SQ L) (run_next_statement fuel)).
  { unfold run_next_statement, return_to_idle_state.
    apply sq_bind_l; [apply kl_of_er; frame_tac|rq_leaf|intros _].
    apply sq_bind_l; [apply kl_of_er, er_has_next|rq_leaf|intros h].
    apply sq_bind_r; [destruct h; [apply sq_evaluate_statement|apply sq_of_r1, r1_ret]|intros _].
    rq_walk. }
  exact (H s eq_refl Hwf).
Qed.

Corollary continue_one_statement fuel s :
  wf s -> state s = Running ->
  exists new, outputs (snd (continue_evaluating fuel s)) = outputs s ++ new
              /\ length (filter shows new) <= 1
              /\ Forall (trace_ok (loc_line (loc s))) new.
Proof.
  intros Hwf Hst. unfold continue_evaluating. rewrite Hst.
  destruct (one_statement_per_turn fuel s Hwf) as (n & Hn & Cn & Tn).
  exists n. split; [|split; assumption].
  destruct (run_next_statement fuel s) as [[u|e l|p| |] s1]; cbn [postprocess snd] in *; exact Hn.
Qed.

(* the lines that may START evaluation: RUN, CONT, and every line that is no command -- a line
   of statements, but also an edit or a line the tokenizer rejects, which run nothing *)
Definition starts_statement (line : bytes) : Prop :=
  command_of line = None \/ command_of line = Some CRun \/ command_of line = Some CCont.

Lemma outputs_postprocess {A} (x : res A * interp) : outputs (snd (postprocess x)) = outputs (snd x).
Proof. destruct x as [[u|e l|p| |] s1]; reflexivity. Qed.

Lemma quiet_call s s' : outputs s' = outputs s ->
  exists new, outputs s' = outputs s ++ new /\ length (filter shows new) <= 1.
Proof. intros H. exists []. rewrite app_nil_r. split; [exact H|cbn; lia]. Qed.

(* the state a turn starts from is well-formed (here and not with the states in ResetProofs,
   which does not see [wf]) *)
Lemma wf_clean s : wf s -> wf (clean s).
Proof.
  intros [W1 W2 W3 W4 W5 W6 W7 W8]. split; cbn; try assumption; try constructor; try discriminate.
  unfold line_exists, line_ok, store_first. cbn. destruct (st_keys s) as [|n ks] eqn:E; cbn; [exact I|].
  apply W1. rewrite E. left. reflexivity.
Qed.

Lemma wf_resumed p s : wf s -> breakpoint s = Some p -> wf (resumed p s).
Proof.
  intros Hwf Hb. unfold resumed. apply wf_set_breakpoint; [|discriminate].
  apply wf_set_loc; [revert Hwf; apply wf_ext; reflexivity | exact (wf_bp _ Hwf p Hb)].
Qed.

Lemma turn_from_wf s op s1 : turn_from s op s1 -> wf s -> wf s1.
Proof.
  intros [ | | line p _ _ Hb | ] Hwf;
    [exact Hwf | apply wf_clean, Hwf | apply wf_resumed; assumption | apply wf_imm_reset, Hwf].
Qed.

Theorem start_one_statement fuel line s :
  wf s -> starts_statement line ->
  exists new, outputs (snd (start_evaluating fuel line s)) = outputs s ++ new
              /\ length (filter shows new) <= 1.
Proof.
  intros Hwf Hc.
  destruct (state s) eqn:Hidle;
    try (apply quiet_call; unfold start_evaluating; rewrite evaluate_impl_busy by congruence; reflexivity).
  destruct (start_turn_or_quiet fuel s line Hidle) as [[s1 Ht] | Hq]; [|rewrite (start_turn fuel s line s1 Ht)|apply quiet_call, Hq].
  - intros c Hc'. destruct Hc as [Hc|[Hc|Hc]]; rewrite Hc in Hc'; [discriminate | left | right]; congruence.
  - (* one turn, from a state with the same pending output *)
    destruct (one_statement_per_turn fuel s1 (turn_from_wf _ _ _ Ht Hwf)) as (n & Hn & Cn & _).
    exists n. rewrite outputs_postprocess, Hn, (turn_from_outputs _ _ _ Ht). split; [reflexivity | exact Cn].
Qed.
