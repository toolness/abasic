(* Proofs/WarnProofs.v — C17: when a warning is issued.

   The model (like the Rust) calls [warn] at exactly two sites: the read of a
   plain variable in an expression term, and the touch of an array cell
   (read in a term, write in an assignment / READ / INPUT target).  At each
   site, with any flags and from any state:

     a Warning record is appended  <->  warnings are enabled AND the name is
                                        not in the variable store / array
                                        store (which RUN empties),

   it carries the current line number, and nothing else about the state changes
   (in the model the [warn] comes before the read of the value; the equations
   below, being about result and end state, cannot say so).  (That the records are
   transparent to the rest of a run is Proofs/FlagsSim.v.) *)
From Coq Require Import List NArith ZArith Bool.
From Abasic Require Import Model.Bytes Model.Token Model.State Model.Eval Proofs.Monad Proofs.ExprSem.
Import ListNotations.
Local Open Scope nat_scope.

Definition undeclared_variable_msg (sym : bytes) : bytes := bs "Use of undeclared variable '" ++ sym ++ bs "'.".
Definition undeclared_array_msg (name : bytes) : bytes := bs "Use of undeclared array '" ++ name ++ bs "'.".

Definition warning_if (cond : bool) (msg : bytes) (s : interp) : list output :=
  if cond then [OWarning msg (loc_line (loc s))] else [].

Lemma warn_run msg s :
  warn msg s = (Ok tt, set_outputs (outputs s ++ warning_if (enable_warnings s) msg s) s).
Proof. exact (warn_eq msg s). Qed.

(* site 1: touching an array *)
Theorem array_touch_warns name s :
  maybe_warn_undeclared_array name s
  = (Ok tt, set_outputs (outputs s ++ warning_if (enable_warnings s && negb (alist_has name (arrays s)))
                                                  (undeclared_array_msg name) s) s).
Proof. unfold maybe_warn_undeclared_array. rewrite !bind_get. apply warn_site. Qed.

(* site 2: the read of a plain variable (not shadowed by a function parameter) *)
Definition variable_read (sym : bytes) : M value :=
  w <- get enable_warnings ;;
  vs <- get variables ;;
  (if w && negb (alist_has sym vs) then warn (undeclared_variable_msg sym) else ret tt) ;;;
  variables_get sym.

Theorem variable_read_warns sym s :
  variable_read sym s
  = (Ok (match alist_get sym (variables s) with Some v => v | None => default_value sym end),
     set_outputs (outputs s ++ warning_if (enable_warnings s && negb (alist_has sym (variables s)))
                                          (undeclared_variable_msg sym) s) s).
Proof. unfold variable_read. rewrite !bind_get. unfold bind at 1. rewrite warn_site. reflexivity. Qed.

(* ... and that is what an expression term does on a variable token that is
   not followed by "(" and not bound as a function parameter *)
Theorem term_reads_variable fuel (rec : M value) s toks sym i r o :
  fst (cur_tokens s) = Ok toks -> nth_error toks i = Some (TSymbol sym) ->
  (forall t, nth_error toks (S i) = Some t -> t <> TLeftParen) ->
  find_in_frames sym (rev (stack s)) = None ->
  expression_term fuel rec (at_idx s i r o) = variable_read sym (at_idx s (S i) (S (S r)) o).
Proof.
  intros Htoks Hn Hnp Hfr. unfold expression_term.
  erewrite bind_ok by (apply (next_unwrapped_some s toks Htoks); exact Hn). cbv iota beta.
  erewrite bind_ok by apply (peek_is_at s toks Htoks).
  assert (Hp : match nth_error toks (S i) with Some t => token_eqb t TLeftParen | None => false end = false).
  { destruct (nth_error toks (S i)) as [t|] eqn:E; [|reflexivity].
    specialize (Hnp t eq_refl). destruct t; try reflexivity. congruence. }
  rewrite Hp. cbv iota.
  unfold find_variable_value_in_stack. rewrite bind_assoc, bind_get.
  change (stack (at_idx s (S i) (S (S r)) o)) with (stack s). rewrite Hfr.
  reflexivity.
Qed.
