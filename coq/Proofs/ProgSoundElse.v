(* Proofs/ProgSoundElse.v — C06, whole programs: if the checker accepts every
   line of a program without a DEF token, no run of it — the host's replies at
   INPUT included — fails with a syntax error or a type mismatch
   ([program_sound_input]; the cases without INPUT, and without ELSE and INPUT,
   at the end).  That a GOTO / GOSUB target exists is shown on the way
   ([tsoundE_goto], [tsoundE_gosub]), but the theorems conclude with
   [CheckSound.benign], which lets EUndefinedStatement pass.  One turn of the
   interpreter is compared with the checker's walk from an accepted position
   (Proofs/ProgSound.v).

   ELSE: a position the interpreter can come to is accepted, or holds an ELSE
   behind a THEN with no ":" in between, where the dispatcher skips the rest of
   the line ([Land]).  The end of a clause is a position AFTER which the line
   goes on as the checker saw it ([After]).  A false IF scans for the first
   ELSE; the scan is followed along the checker's own run over the same tokens
   ([ScanAt]): what a non-branching statement consumes is neither ELSE nor ":".

   INPUT goes back to its own token and waits, or stores the reply, or answers
   REENTER and goes back again; its target is made of expression tokens, so the
   scan back finds this INPUT.  It is re-executed at nesting 0 wherever it
   stands: an INPUT that is the clause of an IF is a third kind of landing
   position ([InputOK]), and statement-level lemmas assume that where a
   statement starts with INPUT, execution may stand ([tsoundES]). *)
From Coq Require Import List NArith ZArith Bool Lia.
From Abasic Require Import Model.Bytes Model.Num Model.Token Model.Data Model.State Model.Eval Model.Interp
     Model.Analyzer Proofs.Monad Proofs.Frames Proofs.StoreProofs Proofs.Safety Proofs.Caps
     Proofs.ImmFrame Proofs.CheckSound Proofs.AnalyzerFns Proofs.AnalyzerSafety
     Proofs.AnalyzerTermination Proofs.PlainToks Proofs.ResetProofs Proofs.InputProofs Proofs.ProgSound.
Import ListNotations.
Local Open Scope nat_scope.

(* Token classes.  Of every token of a line: [clean_tok] (neither ELSE, INPUT nor DEF), [clean2_tok] (neither INPUT
   nor DEF), [nodef_tok] (not DEF), for the three program theorems; [LineAgree.straight_tok] (no branch, jump, INPUT
   or DEF), for the converse.  Of the first token of a statement: [CheckSound.straight_head] (the statements the lock
   step covers), [PlainToks.plain_head] (those that consume neither ELSE nor ":" behind it).  The "clean" of
   [AnalyzerFns.CleanStore] / [clean_store] is the weakest: no DEF, and the immediate line empty. *)
Definition clean2_tok (t : token) : bool := match t with TInput | TDef => false | _ => true end.
Definition clean2_line (ts : list token) : bool := forallb clean2_tok ts.

Lemma then_before_app pre ts :
  then_before (rev pre) = true -> forallb (fun t => negb (token_eqb t TColon)) ts = true ->
  then_before (rev (pre ++ ts)) = true.
Proof.
  revert pre. induction ts as [|t ts IH]; intros pre H Hc; [rewrite app_nil_r; exact H|].
  cbn [forallb] in Hc. apply andb_prop in Hc as [Ht Hc].
  replace (pre ++ t :: ts) with ((pre ++ [t]) ++ ts) by (rewrite <- app_assoc; reflexivity).
  apply IH; [|exact Hc]. rewrite rev_app_distr. cbn [rev app then_before].
  destruct t; try exact H; try reflexivity. discriminate Ht.
Qed.

(* the turns of a run, with the replies the host gives while the program waits at an INPUT *)
Inductive ReachI (fi : nat) (s0 : interp) : interp -> Prop :=
| reachI_refl : ReachI fi s0 s0
| reachI_step s1 s2 : ReachI fi s0 s1 -> state s1 = Running -> continue_evaluating fi s1 = (Ok tt, s2) -> ReachI fi s0 s2
| reachI_reply s1 s2 text : ReachI fi s0 s1 -> provide_input text s1 = (Ok tt, s2) -> ReachI fi s0 s2.

Lemma ReachI_of_Reach fi s0 s : Reach fi s0 s -> ReachI fi s0 s.
Proof. intros H. induction H as [|s1 s2 _ IH Hst E]; [apply reachI_refl | exact (reachI_step fi s0 s1 s2 IH Hst E)]. Qed.

Section ProgE.
  Variable fa : nat.
  Variable ptoks : list (N * list token).
  Variable pkeys : list N.
  Hypothesis Hnodef : forall n ts, toks_get n ptoks = Some ts -> nodef_line ts = true.
  Hypothesis G : forall n, toks_get n ptoks <> None -> AccAt fa ptoks pkeys (mkloc (Some n) 0).
  Hypothesis Hkeys : forall n, In n pkeys -> toks_get n ptoks <> None.

  Notation onprog := (onprog ptoks pkeys).
  Notation AccAt := (AccAt fa ptoks pkeys).

  (* the stored line [l] is on: [cur_line] of every state on the program that stands at [l] ([cur_line_onprog]), as a
     function of the location, so that positions can be spoken of without a state *)
  Definition toks_at (l : location) : list token :=
    match loc_line l with
    | Some n => match toks_get n ptoks with Some ts => ts | None => [] end
    | None => []
    end.

  Lemma cur_line_onprog s : onprog s -> cur_line s = toks_at (loc s).
  Proof. intros (O1 & _ & O3). unfold cur_line, toks_at. rewrite O1, O3. reflexivity. Qed.

  Lemma nodef_at s i t : onprog s -> nth_error (cur_line s) i = Some t -> nodef_tok t = true.
  Proof.
    intros Hon Hn. rewrite (cur_line_onprog s Hon) in Hn. unfold toks_at in Hn.
    destruct (loc_line (loc s)) as [n|]; [|destruct i; discriminate].
    destruct (toks_get n ptoks) as [ts|] eqn:E; [|destruct i; discriminate].
    pose proof (Hnodef n ts E) as Hc. unfold nodef_line in Hc. rewrite forallb_forall in Hc.
    apply Hc. eapply nth_error_In; eassumption.
  Qed.

  (* an ELSE where a statement would start, behind a THEN with no ":" in between:
     the dispatcher abandons the line there *)
  Definition ThenB (l : location) : Prop := then_before (rev (firstn (loc_idx l) (toks_at l))) = true.
  Definition ElseOK (l : location) : Prop :=
    (exists n, loc_line l = Some n /\ toks_get n ptoks <> None)
    /\ nth_error (toks_at l) (loc_idx l) = Some TElse /\ ThenB l.

  (* [After l]: from [l] the line goes on as the checker saw it.  Either its top-level walk over the rest of the line
     succeeds from [l]; or [l] holds an ELSE, the checker - started right behind it, inside some IF - accepted the
     clause there ([sa] .. [sa']), and where that ended is [After] again (the ELSE of an enclosing IF may follow).
     This is what is known of the position behind a clause: in `IF A THEN GOSUB 100 ELSE PRINT 2` the return address
     is the ELSE, from which the top-level walk fails. *)
  Inductive After : location -> Prop :=
  | After_acc l : AccAt l -> After l
  | After_else l sa acc f n sa' acc' :
      nth_error (toks_at l) (loc_idx l) = Some TElse ->
      onprog sa -> functions sa = [] -> loc sa = mkloc (loc_line l) (S (loc_idx l)) ->
      an_statement_or_goto (analyze_statement f n) (sa, acc) = (Ok tt, (sa', acc')) ->
      After (loc sa') -> After l.

  (* an INPUT that stands as the clause of an IF: the statement the checker accepted
     there (at whatever nesting: [sa] .. [sa'] is that run, ending at a position that is [After] and still behind the
     THEN), re-executed as a statement of its own when the reply comes.  In `IF X THEN INPUT B$ ELSE INPUT C` the
     turn after the reply starts at the first INPUT; the top-level walk from there meets the ELSE and fails, so the
     position is not accepted. *)
  Definition InputOK (l : location) : Prop :=
    nth_error (toks_at l) (loc_idx l) = Some TInput /\ ThenB l /\
    exists sa acc f n sa' acc', onprog sa /\ functions sa = [] /\ loc sa = l
      /\ analyze_statement f n (sa, acc) = (Ok tt, (sa', acc')) /\ After (loc sa') /\ ThenB (loc sa').

  (* where a turn can start: the cursor, the return addresses and the loop starts of a run are of these three kinds *)
  Definition Land (l : location) : Prop := AccAt l \/ ElseOK l \/ InputOK l.

  Definition FramesL (s : interp) : Prop :=
    Forall (fun fr => Land (fr_ret fr)) (stack s) /\ Forall (fun lp => Land (lp_loc lp)) (loops s).

  Lemma next_token_bothL s sa acc : R s sa -> onprog s -> FramesL s ->
    fst (next_token s) = fst (next_token sa)
    /\ lift next_token (sa, acc) = (fst (next_token sa), (snd (next_token sa), acc))
    /\ R (snd (next_token s)) (snd (next_token sa)) /\ onprog (snd (next_token s)) /\ FramesL (snd (next_token s)).
  Proof. exact (next_token_bothP ptoks pkeys Land s sa acc). Qed.

  Lemma ThenB_forward l l' :
    loc_line l' = loc_line l -> loc_idx l <= loc_idx l' -> ThenB l ->
    (forall q, loc_idx l <= q < loc_idx l' -> exists t, nth_error (toks_at l) q = Some t /\ token_eqb t TColon = false) ->
    ThenB l'.
  Proof.
    intros Hl Hi Hb Hq. unfold ThenB in *.
    assert (Et : toks_at l' = toks_at l) by (unfold toks_at; rewrite Hl; reflexivity). rewrite Et.
    remember (loc_idx l' - loc_idx l) as d eqn:Ed.
    assert (Ei : loc_idx l' = loc_idx l + d) by lia. rewrite Ei. rewrite Ei in Hq. clear Ei Ed Hi Et Hl.
    induction d as [|d IH]; [rewrite Nat.add_0_r; exact Hb|].
    replace (loc_idx l + S d) with (S (loc_idx l + d)) by lia.
    destruct (Hq (loc_idx l + d) ltac:(lia)) as (t & Ht & Hc).
    rewrite (firstn_S_nth _ _ _ Ht). apply then_before_app.
    - apply IH. intros q Hq'. apply Hq. lia.
    - cbn. rewrite Hc. reflexivity.
  Qed.

  Definition TBs (s : interp) : Prop := ThenB (loc s).

  (* One statement [m] against the checker's run [a] over it, from related states on the program whose frames are
     landing positions.  [top]: the statement stands on its own (then the checker's end position is accepted);
     otherwise it is the clause of an IF and stands behind a THEN with no ":" in between.  What is known of where the
     checker ended, [After (loc sa')], is a premise: it depends on what encloses the statement, which the caller sees.
     Conclusion: no user function, the frames still landing positions, and the interpreter either stands where the
     checker ended ([C s' sa']: it ran in lock step) or has jumped - GOTO, GOSUB, RETURN, NEXT, END, STOP, a false
     IF, INPUT going back - to a landing position.  [C s' sa'] cannot be replaced by [Land (loc s')]: behind the
     clause ":" of `IF A THEN IF B THEN x ELSE : ELSE y` the position is [After] but no landing position (the ":"
     breaks [ThenB]); the interpreter does not stay there, the look for a further ELSE abandons the line ([else_probe]). *)
  Definition tsoundE (top : bool) (m : M unit) (a : MA unit) : Prop :=
    forall s sa acc sa' acc', R s sa -> onprog s -> FramesL s -> (top = false -> TBs s) ->
      a (sa, acc) = (Ok tt, (sa', acc')) -> After (loc sa') -> (top = true -> AccAt (loc sa')) ->
      match m s with
      | (Ok _, s') => functions s' = [] /\ FramesL s' /\ (C s' sa' \/ Land (loc s'))
      | (Err e _, _) => benign e
      | _ => True
      end.

  (* [tsoundE] for a statement that may be an INPUT: where it starts is then a landing position, the one INPUT goes
     back to (at top level the accepted position it stands at; as a clause [InputOK], built in [tsoundE_stmt_or_goto]) *)
  Definition tsoundES (top : bool) (m : M unit) (a : MA unit) : Prop :=
    forall s sa acc sa' acc', R s sa -> onprog s -> FramesL s -> (top = false -> TBs s) ->
      (nth_error (cur_line s) (loc_idx (loc s)) = Some TInput -> Land (loc s)) ->
      a (sa, acc) = (Ok tt, (sa', acc')) -> After (loc sa') -> (top = true -> AccAt (loc sa')) ->
      match m s with
      | (Ok _, s') => functions s' = [] /\ FramesL s' /\ (C s' sa' \/ Land (loc s'))
      | (Err e _, _) => benign e
      | _ => True
      end.

  Lemma line_of_loc s n : onprog s -> loc_line (loc s) = Some n -> line_there s -> toks_get n ptoks <> None.
  Proof. intros (O1 & _) Hl Ht. rewrite <- O1. exact (Ht n Hl). Qed.

  Lemma land_of_after l : After l -> ThenB l -> Land l.
  Proof.
    intros Ha Hb. destruct Ha as [l Hacc | l sa acc f n sa' acc' Ht _ _ _ _ _]; [left; exact Hacc|].
    right. left. split; [|split; [exact Ht | exact Hb]].
    unfold toks_at in Ht. destruct (loc_line l) as [k|]; [|destruct (loc_idx l); discriminate Ht].
    exists k. split; [reflexivity|]. destruct (toks_get k ptoks); [discriminate | destruct (loc_idx l); discriminate Ht].
  Qed.

  Lemma land_here (top : bool) s sa : R s sa -> After (loc sa) -> (top = true -> AccAt (loc sa)) -> (top = false -> TBs s) -> Land (loc s).
  Proof.
    intros HR Ha Htop Htb. assert (El : loc s = loc sa) by apply HR.
    destruct top; [left; rewrite El; apply Htop; reflexivity|].
    rewrite <- El in Ha. apply (land_of_after _ Ha). apply Htb. reflexivity.
  Qed.

  Lemma TBs_advd s t : nth_error (cur_line s) (loc_idx (loc s)) = Some t -> token_eqb t TColon = false ->
    onprog s -> TBs s -> TBs (advd s).
  Proof.
    intros Ht Hc Hon Hb. unfold TBs in *.
    apply (ThenB_forward (loc s)); [reflexivity
                                  | destruct s as [? ? ? [? ?] ? ? ? ? ? ? ? ? ? ? ? ? ? ? ?]; cbn; lia | exact Hb |].
    intros q Hq. assert (q = loc_idx (loc s)) by (destruct s as [? ? ? [? ?] ? ? ? ? ? ? ? ? ? ? ? ? ? ? ?]; cbn in *; lia). subst q.
    exists t. split; [rewrite <- (cur_line_onprog s Hon); exact Ht | exact Hc].
  Qed.

  Lemma tsoundE_goto (top : bool) : tsoundE top evaluate_goto_statement an_goto_or_gosub.
  Proof.
    intros s sa acc sa' acc' HR Hon Hfr Htb Ea Haft Htop.
    destruct (an_goto_inv _ _ _ _ Ea) as (x & En & -> & Eh).
    destruct (next_token_agrees s sa _ _ HR En) as (_ & Es & HR1).
    unfold evaluate_goto_statement. rewrite bind_run, Es.
    assert (Eh1 : store_has (Z.to_N (f64_to_u64_sat x)) (advd s) = true).
    { unfold store_has in *. rewrite (proj1 (proj1 HR1)). exact Eh. }
    rewrite (goto_ok (advd s) _ Eh1).
    split; [apply HR1|]. split; [exact Hfr|].
    right. left. apply G. exact (store_has_line ptoks pkeys (advd s) _ Hon Eh1).
  Qed.

  Lemma tsoundE_gosub (top : bool) : tsoundE top evaluate_gosub_statement an_goto_or_gosub.
  Proof.
    intros s sa acc sa' acc' HR Hon Hfr Htb Ea Haft Htop.
    destruct (an_goto_inv _ _ _ _ Ea) as (x & En & -> & Eh).
    destruct (next_token_agrees s sa _ _ HR En) as (Et & Es & HR1).
    unfold evaluate_gosub_statement. rewrite bind_run, Es.
    assert (Eh1 : store_has (Z.to_N (f64_to_u64_sat x)) (advd s) = true).
    { unfold store_has in *. rewrite (proj1 (proj1 HR1)). exact Eh. }
    rewrite gosub_eq, Eh1. destruct (Nat.eqb (length (stack (advd s))) stack_limit); [exact I|].
    split; [apply HR1|]. split; [|right; left; apply G; exact (store_has_line ptoks pkeys (advd s) _ Hon Eh1)].
    destruct Hfr as [F1 F2]. split; [|exact F2].
    change (Forall (fun fr => Land (fr_ret fr)) (stack s ++ [mkframe (loc (advd s)) []])).
    apply Forall_app. split; [exact F1|]. constructor; [|constructor]. cbn [fr_ret].
    apply (land_here top (advd s) sa' HR1 Haft Htop).
    intros Hn1. apply (TBs_advd s (TNumber x) Et eq_refl Hon (Htb Hn1)).
  Qed.

  Lemma tsoundE_return (top : bool) : tsoundE top return_to_last_gosub (aret tt).
  Proof.
    intros s sa acc sa' acc' HR Hon Hfr Htb Ea Haft Htop.
    rewrite return_eq. destruct (rev (stack s)) as [|fr rest] eqn:Er; [exact I|].
    destruct Hfr as [F1 F2]. destruct (Forall_rev_cons _ _ _ _ Er F1) as [Hfr F1a].
    split; [destruct s; apply HR|]. split; [split; [exact F1a | exact F2]|]. right. exact Hfr.
  Qed.

  Lemma onprog_of_R s sa : R s sa -> onprog s -> onprog sa.
  Proof. intros HR. apply (onprog_of_C ptoks pkeys). apply HR. Qed.

  Lemma R_onprog s sa : onprog s -> onprog sa -> loc s = loc sa -> caps_inv s -> functions s = [] -> functions sa = [] ->
    R s sa.
  Proof.
    intros (O1 & O2 & O3) (A1 & A2 & A3) El Hc Hf Hfa. split; [repeat split; congruence|].
    split; [exact Hc|]. split; [exact Hf | exact Hfa].
  Qed.

  Lemma onprog_back s sa : R s sa -> onprog sa -> onprog s.
  Proof. intros ((C1 & C2 & C3 & _) & _) (O1 & O2 & O3). repeat split; congruence. Qed.

  (* back to the empty immediate line: the GOSUB stack is kept (at a breakpoint) or emptied *)
  Lemma imm_reset_keeps s : st_toks (imm_reset [] s) = st_toks s /\ st_keys (imm_reset [] s) = st_keys s
    /\ immediate (imm_reset [] s) = [] /\ functions (imm_reset [] s) = functions s.
  Proof. unfold imm_reset. destruct (breakpoint s); repeat split. Qed.

  Lemma FramesL_imm_reset s : FramesL s -> FramesL (imm_reset [] s).
  Proof.
    intros [F1 F2]. unfold imm_reset, FramesL.
    destruct (breakpoint s); (split; [first [exact F1 | exact (Forall_nil _)] | exact F2]).
  Qed.

  Lemma tsoundE_end (top : bool) : tsoundE top program_end (aret tt).
  Proof.
    intros s sa acc sa' acc' HR Hon Hfr Htb Ea Haft Htop. injection Ea as <- <-.
    unfold program_end. rewrite set_imm_is_modify. unfold modify.
    pose proof (onprog_of_R s sa HR Hon) as Hona.
    split; [rewrite (proj2 (proj2 (proj2 (imm_reset_keeps s)))); apply HR|]. split; [exact (FramesL_imm_reset s Hfr)|].
    right. left. apply (AccAt_imm0 fa ptoks pkeys sa Hona). apply HR.
  Qed.

  Lemma tsoundE_stop (top : bool) : tsoundE top break_at_current_location (aret tt).
  Proof.
    intros s sa acc sa' acc' HR Hon Hfr Htb Ea Haft Htop. injection Ea as <- <-.
    unfold break_at_current_location, get_line_number, push_output, program_break_at_current_location.
    rewrite bind_modify, bind_run, bind_get. unfold ret at 1. cbv iota beta.
    rewrite bind_modify, bind_get, bind_modify, set_imm_is_modify. unfold modify.
    pose proof (onprog_of_R s sa HR Hon) as Hona.
    set (s2 := set_breakpoint _ _).
    split; [rewrite (proj2 (proj2 (proj2 (imm_reset_keeps s2)))); apply HR|]. split; [exact (FramesL_imm_reset s2 Hfr)|].
    right. left. apply (AccAt_imm0 fa ptoks pkeys sa Hona). apply HR.
  Qed.

  Lemma drop_loop_framesL sym s : FramesL s -> FramesL (drop_loop sym s).
  Proof. exact (drop_loop_framesP Land sym s). Qed.

  Lemma tsoundE_next (top : bool) : tsoundE top evaluate_next_statement an_next.
  Proof.
    intros s sa acc sa' acc' HR Hon Hfr Htb Ea Haft Htop.
    destruct (an_next_inv _ _ _ _ Ea) as (sym & En & Hty).
    destruct (next_token_agrees s sa _ _ HR En) as (_ & Es & HR1).
    unfold evaluate_next_statement. rewrite bind_run, Es.
    set (s1 := advd s) in *. assert (Hfr1 : FramesL s1) by exact Hfr.
    rewrite end_loop_eq. destruct (variables_get_kind sym s1 (proj1 (proj2 HR1))) as [_ Hk].
    destruct (match alist_get sym (variables s1) with Some v => v | None => default_value sym end) as [b|x];
      [cbn in Hk; congruence|]. cbv zeta.
    pose proof (drop_loop_framesL sym s1 Hfr1) as Hfd.
    destruct (drop_loop_fields sym s1) as (D1 & D2 & D3 & D4 & D5).
    set (s2 := drop_loop sym s1) in *.
    destruct (match find_loop_rev sym (loops s1) with Some i => _ | None => _ end) as [li|] eqn:Eli; [|exact I].
    assert (Hli : Land (lp_loc li)).
    { destruct Hfr1 as [_ F2]. rewrite Forall_forall in F2. exact (F2 _ (proj1 (removed_loop_spec _ _ _ Eli))). }
    assert (Htm : type_matches sym (VNum (f64_add x (lp_step li))) = true).
    { unfold type_matches, type_of_name in *. destruct (ends_with_dollar sym); [discriminate | reflexivity]. }
    assert (Hf2 : functions s2 = []) by (rewrite D5; apply HR1).
    rewrite variables_set_eq, Htm. destruct (if f64_leb _ _ then _ else _).
    - split; [exact Hf2|]. split; [|right; exact Hli].
      destruct Hfd as [F1 F2]. split; [exact F1|].
      replace (loops (set_variables _ _)) with (loops s2 ++ [li]) by reflexivity.
      apply Forall_app. split; [exact F2 | constructor; [exact Hli | constructor]].
    - split; [exact Hf2|]. split; [destruct Hfd; split; assumption|].
      left. destruct HR1 as ((C1 & C2 & C3 & C4) & _).
      repeat split; destruct s2; cbn in *; congruence.
  Qed.

  Lemma TBs_of_PL s sa s' sa' : loc s = loc sa -> loc s' = loc sa' -> onprog sa -> PL plainT sa sa' -> TBs s -> TBs s'.
  Proof.
    intros E1 E2 Hon (P1 & P2 & P3 & P4 & P5) Hb. unfold TBs in *. rewrite E1 in Hb. rewrite E2.
    apply (ThenB_forward (loc sa)); [exact P3 | exact P4 | exact Hb|].
    intros q Hq. destruct (P5 q Hq) as (t & Ht & Hp). exists t.
    split; [|destruct t; try reflexivity; discriminate Hp].
    rewrite <- (cur_line_onprog sa Hon). exact Ht.
  Qed.

  (* a statement that runs in lock step with the checker over tokens that are neither ELSE nor ":" *)
  Lemma tsoundE_of_lock (top : bool) m a :
    lock false SLF (fun _ _ => True) m a -> aplp a -> tsoundE top m a.
  Proof.
    intros Hlk Hpl s sa acc sa' acc' HR Hon Hfr Htb Ea Haft Htop.
    pose proof (lock_run _ m a s sa acc tt sa' acc' Hlk HR Ea) as Hs.
    destruct (m s) as [[[]|e l|p| |] s']; try exact Hs; try exact I.
    destruct Hs as (_ & HR' & Hst & Hlp).
    assert (Hland : Land (loc s')).
    { apply (land_here top s' sa' HR' Haft Htop). intros Hn1.
      apply (TBs_of_PL s sa s' sa'); [apply HR | apply HR' | exact (onprog_of_R s sa HR Hon) | exact (Hpl _ _ _ Ea) | exact (Htb Hn1)]. }
    split; [apply HR'|]. split; [|left; apply HR'].
    destruct Hfr as [F1 F2]. split; [rewrite Hst; exact F1|].
    rewrite Forall_forall in *. intros lp Hin. destruct (Hlp lp Hin) as [H|H]; [apply F2; exact H | rewrite H; exact Hland].
  Qed.

  Lemma tsoundE_for (top : bool) fi f2 nest nest2 : tsoundE top (evaluate_for_statement fi nest) (an_for f2 nest2).
  Proof. exact (tsoundE_of_lock top _ _ (@lock_for false fi f2 nest nest2 ltac:(discriminate)) (aplp_for f2 nest2)). Qed.

  Lemma rewind_loop_input d i s : line_there s ->
    nth_error (cur_line s) i = Some TInput ->
    (forall q, i < q -> q < i + S d -> nth_error (cur_line s) q <> Some TInput) ->
    exists s', rewind_loop (i + S d) TInput s = (Ok tt, s') /\ eq_but_reads (set_loc (mkloc (loc_line (loc s)) i) s) s'.
  Proof.
    intros Hl Hi Hq. exists (rewound i d s). split; [|reflexivity].
    apply (rewind_loop_finds i d s (line_there_exists s Hl) Hi). intros q H1 H2. apply Hq; lia.
  Qed.

  Lemma rewind_await s i d : line_there s -> loc_idx (loc s) = i + S d ->
    nth_error (cur_line s) i = Some TInput ->
    (forall q, i < q -> q < i + S d -> nth_error (cur_line s) q <> Some TInput) ->
    exists s', rewind_program_and_await_input s = (Ok tt, s')
      /\ loc s' = mkloc (loc_line (loc s)) i /\ functions s' = functions s /\ stack s' = stack s /\ loops s' = loops s.
  Proof.
    intros Hl Hidx Hi Hq. exists (set_state AwaitingInput (rewound i d s)). split; [|repeat split].
    apply (await_finds s i d (line_there_exists s Hl) Hidx Hi). intros q H1 H2. apply Hq; lia.
  Qed.

  (* [s0] stands at an INPUT, [s2] behind its target: the scan back from [s2] stops at that INPUT *)
  Lemma rewind_after_target s0 s2 sa sa' : line_there s0 -> C (advd s0) sa -> C s2 sa' -> PL exprtok sa sa' ->
    nth_error (cur_line s0) (loc_idx (loc s0)) = Some TInput ->
    exists s4, rewind_program_and_await_input s2 = (Ok tt, s4)
      /\ loc s4 = mkloc (loc_line (loc s0)) (loc_idx (loc s0))
      /\ functions s4 = functions s2 /\ stack s4 = stack s2 /\ loops s4 = loops s2.
  Proof.
    intros Hl (C1 & _ & C3 & C4) (D1 & _ & D3 & D4) (P1 & P2 & P3 & P4 & P5) Hin.
    set (i := loc_idx (loc s0)) in *.
    assert (Hi : loc_idx (loc sa) = S i) by (rewrite <- C4; reflexivity).
    assert (Hline : loc_line (loc s2) = loc_line (loc s0)) by (rewrite D4, P3, <- C4; reflexivity).
    assert (Hcl : cur_line s2 = cur_line s0) by (unfold cur_line; rewrite Hline, D1, D3, P1, P2, <- C1, <- C3; reflexivity).
    assert (Hl2 : line_there s2) by (unfold line_there; rewrite Hline, D1, P1, <- C1; exact Hl).
    assert (Hidx : loc_idx (loc s2) = i + S (loc_idx (loc sa') - loc_idx (loc sa))) by (rewrite D4; lia).
    destruct (rewind_await s2 i _ Hl2 Hidx ltac:(rewrite Hcl; exact Hin)) as (s4 & E & L1 & L2 & L3 & L4).
    { intros q H1 H2. rewrite Hcl. destruct (P5 q ltac:(lia)) as (t & Ht & Hx).
      replace (PlainToks.line_of sa) with (cur_line s0) in Ht
        by (unfold PlainToks.line_of, cur_line; rewrite <- C1, <- C3, <- C4; reflexivity).
      rewrite Ht. intros [= ->]. discriminate Hx. }
    exists s4. rewrite L1, Hline. repeat split; assumption.
  Qed.

  (* INPUT, its token at [s0] already taken *)
  Lemma tsoundE_input fi f2 nest nest2 s0 sa acc sa' acc' :
    R (advd s0) sa -> onprog s0 -> FramesL s0 -> line_there s0 ->
    nth_error (cur_line s0) (loc_idx (loc s0)) = Some TInput -> Land (loc s0) ->
    an_input f2 nest2 (sa, acc) = (Ok tt, (sa', acc')) ->
    match evaluate_input_statement fi nest (advd s0) with
    | (Ok _, s') => functions s' = [] /\ FramesL s' /\ (C s' sa' \/ Land (loc s'))
    | (Err e _, _) => benign e
    | _ => True
    end.
  Proof.
    intros HR Hon Hfr Hl Hin Hland Ea. set (s := advd s0) in *.
    assert (Hfn : functions s = []) by apply HR.
    assert (Hback : Land (mkloc (loc_line (loc s0)) (loc_idx (loc s0))))
      by (destruct s0 as [? ? ? [? ?] ? ? ? ? ? ? ? ? ? ? ? ? ? ? ?]; exact Hland).
    unfold evaluate_input_statement, take_input. rewrite bind_assoc, bind_get.
    destruct (input s) as [text|] eqn:Ei.
    2:{ rewrite bind_ret.
        destruct (rewind_await s (loc_idx (loc s0)) 0 Hl (eq_sym (Nat.add_1_r _)) Hin ltac:(intros; lia)) as (s' & E & L1 & L2 & L3 & L4).
        rewrite E. split; [congruence|]. split; [unfold FramesL; rewrite L3, L4; exact Hfr | right; rewrite L1; exact Hback]. }
    rewrite bind_assoc, bind_modify. destruct (parse_data text) as [elems n]. rewrite bind_ret.
    set (st := set_input None s).
    assert (HRt : R st sa) by (apply (R_quiet s); try (reflexivity); exact HR).
    unfold an_input in Ea. unfold abind at 1 in Ea.
    pose proof (apl_parse_lvalue exprtok (fun t H => H) token_eqb_exprtok f2 nest2 (sa, acc)) as Hpl.
    destruct (an_parse_lvalue f2 nest2 (sa, acc)) as [[alv|? ?|?| |] [sa2 acc2]] eqn:Eal; try discriminate Ea.
    specialize (Hpl alv (sa2, acc2) eq_refl). cbn [fst snd] in *.
    unfold log_access in Ea. injection Ea as Esa Eacc. subst sa2.
    pose proof (lock_run _ _ _ st sa acc alv sa' acc2 (@lock_parse_lvalue false fi f2 nest nest2 ltac:(discriminate)) HRt Eal) as Hs.
    rewrite bind_run.
    destruct (parse_lvalue fi nest st) as [[lv|e l|p| |] s2] eqn:Epl; cbn [snd] in *; try exact Hs; try exact I.
    destruct Hs as (Hsym & HR2 & K2 & K3). pose proof (proj1 (proj2 (proj2 HR2))) as K1.
    assert (Hfr2 : FramesL s2).
    { unfold FramesL. rewrite K2, K3. exact Hfr. }
    destruct elems as [|first rest]; [exact I|].
    destruct (coerce_data (lv_sym lv) first) as [v|er l|pp| |] eqn:Ec; try exact I.
    - pose proof (coerce_kind' _ _ _ Ec) as Hk.
      destruct lv as [sym idx]. cbn [lv_sym] in *.
      pose proof (equiet_assign sym idx v Hk s2 sa' HR2) as Hq.
      rewrite bind_run.
      destruct (assign_value (mklv sym idx) v s2) as [[[]|e l|p| |] s3]; cbn [snd] in *; try exact Hq; try exact I.
      destruct Hq as (HR3 & _ & A2 & A3). pose proof (proj1 (proj2 (proj2 HR3))) as A1.
      assert (Hfr3 : FramesL s3) by (unfold FramesL; rewrite A2, A3; exact Hfr2).
      destruct (match rest with [] => Nat.ltb n (length text) | _ :: _ => true end).
      + unfold push_output, modify. split; [exact A1|]. split; [exact Hfr3|].
        left. destruct HR3 as [HC3 _]. exact HC3.
      + unfold ret. split; [exact A1|]. split; [exact Hfr3 | left; apply HR3].
    - destruct er; try exact (coerce_benign _ _ _ _ Ec).
      unfold push_output. rewrite bind_modify.
      set (s3 := set_outputs _ s2).
      destruct (rewind_after_target s0 s3 sa sa' Hl (proj1 HR) (proj1 HR2) Hpl Hin) as (s4 & E & L1 & L2 & L3 & L4).
      rewrite E. split; [rewrite L2; exact K1|]. split; [unfold FramesL; rewrite L3, L4; exact Hfr2|].
      right. rewrite L1. exact Hback.
  Qed.

  Lemma Land_end s : onprog s -> functions s = [] -> line_there s ->
    Land (mkloc (loc_line (loc s)) (length (cur_line s))).
  Proof.
    intros Hon Hfn Hlt. left. apply (AccAt_end fa ptoks pkeys s _ Hon Hfn).
    - replace (cur_line (set_loc _ s)) with (cur_line s) by reflexivity.
      cbn [loc_idx]. apply nth_error_None. apply le_n.
    - cbn [loc_line]. intros n Hn. destruct Hon as (O1 & _). rewrite <- O1. exact (Hlt n Hn).
  Qed.

  Lemma after_not_else l : After l -> nth_error (toks_at l) (loc_idx l) <> Some TElse -> AccAt l.
  Proof. intros [l0 H | l0 sa acc f n sa' acc' Ht _ _ _ _ _] Hne; [exact H | contradiction]. Qed.

  Lemma probe_sound s sa : onprog s -> functions s = [] -> FramesL s -> C s sa \/ Land (loc s) ->
    match else_probe s with
    | (Ok _, s') =>
        functions s' = [] /\ FramesL s'
        /\ ((C s' (bumped sa) /\ nth_error (cur_line sa) (loc_idx (loc sa)) <> Some TElse) \/ Land (loc s'))
    | (Err _ _, _) => False
    | _ => True
    end.
  Proof.
    intros Hon Hfn Hfr Hpos. unfold else_probe, peek_is. rewrite bind_assoc, bind_run.
    destruct (peek_cases s) as [[p Hp] | [Hp Hlt]]; rewrite Hp; [exact I|]. rewrite bind_ret.
    destruct (match nth_error (cur_line s) (loc_idx (loc s)) with Some t => token_eqb t TElse | None => false end) eqn:Eq.
    - rewrite (discard_there _ (line_there_bumped s Hlt)).
      split; [exact Hfn|]. split; [exact Hfr|]. right. exact (Land_end s Hon Hfn Hlt).
    - split; [exact Hfn|]. split; [exact Hfr|].
      destruct Hpos as [HC | HL]; [left | right; exact HL]. split; [exact HC|].
      rewrite (proj1 (C_cur_line _ _ HC)), <- (proj2 (proj2 (proj2 HC))). intros E. rewrite E in Eq. discriminate Eq.
  Qed.

  Lemma clean_store sa : onprog sa -> CleanStore sa.
  Proof. intros (O1 & _ & O3). split; [|exact O3]. rewrite O1. exact Hnodef. Qed.

  Lemma keepFN sa sa' : FN sa sa' -> onprog sa -> functions sa = [] -> onprog sa' /\ functions sa' = [].
  Proof.
    intros (A1 & A2 & A3 & A4) Hon Hfn. pose proof (clean_store sa Hon) as Hc. destruct Hon as (O1 & O2 & O3).
    split; [repeat split; congruence|]. rewrite (A4 Hc). exact Hfn.
  Qed.

  Lemma keepA {A} (a : MA A) sa acc r sa' acc' : aofn a -> onprog sa -> functions sa = [] ->
    a (sa, acc) = (r, (sa', acc')) -> onprog sa' /\ functions sa' = [].
  Proof. intros Ha Hon Hfn E. pose proof (Ha (sa, acc)) as H. rewrite E in H. exact (keepFN _ _ H Hon Hfn). Qed.

  Lemma keepM {A} (m : M A) sa r sa' : orel RFN m -> onprog sa -> functions sa = [] ->
    m sa = (r, sa') -> onprog sa' /\ functions sa' = [].
  Proof. intros Hm Hon Hfn E. pose proof (Hm sa) as H. rewrite E in H. exact (keepFN _ _ H Hon Hfn). Qed.

  Lemma input_stmt_plain f2 n2 sa acc sa' acc' :
    analyze_statement f2 n2 (sa, acc) = (Ok tt, (sa', acc')) ->
    nth_error (cur_line sa) (loc_idx (loc sa)) = Some TInput -> PL plainT sa sa'.
  Proof.
    intros Ea Et. destruct (analyze_statement_inv _ _ _ _ _ Ea) as (f & _ & _ & Hinv). rewrite Et in Hinv.
    pose proof (aplp_input f (S n2) (advd sa, acc) tt (sa', acc') Hinv) as Hpl. cbn [fst] in Hpl.
    eapply PL_trans; [|exact Hpl]. apply (PL_step plainT sa TInput); [|reflexivity].
    exact Et.
  Qed.

  (* One level of [evaluate_statement]'s recursion on its fuel: [rec] is the evaluator one level down, which IF runs
     on its clauses.  [Hrec]: it is sound as a clause ([top = false]) against the checker's statement analysis at any
     fuel and nesting - the checker's own recursion is followed by inversion, not by this induction. *)
  Section Level.
    Variable rec : M unit.
    Hypothesis Hrec : forall f n, tsoundES false rec (analyze_statement f n).
    Hypothesis Hk1 : mrel (keeps st_toks) rec.
    Hypothesis Hk2 : mrel (keeps st_keys) rec.
    Hypothesis Him : mrel IM rec.

    Lemma tsoundE_stmt_or_goto f n :
      tsoundE false (statement_or_goto_line_number rec) (an_statement_or_goto (analyze_statement f n)).
    Proof.
      intros s sa acc sa' acc' HR Hon Hfr Htb Ea Haft Htop.
      destruct (an_statement_or_goto_inv _ sa acc _ Ea) as [_ Hinv].
      rewrite (proj1 (C_cur_line _ _ (proj1 HR))), <- (proj2 (proj2 (proj2 (proj1 HR)))) in Hinv.
      unfold statement_or_goto_line_number. rewrite bind_run.
      destruct (peek_cases s) as [[p Hp] | [Hp Hlt]]; rewrite Hp; [exact I|].
      (* an INPUT as the clause: where it stands is a place execution may come back to *)
      assert (Hin : analyze_statement f n (bumped sa, acc) = (Ok tt, (sa', acc')) ->
                    nth_error (cur_line (bumped s)) (loc_idx (loc (bumped s))) = Some TInput -> Land (loc (bumped s))).
      { intros Ea' Hti. change (nth_error (cur_line s) (loc_idx (loc s)) = Some TInput) in Hti. right. right. change (InputOK (loc s)).
        pose proof (onprog_of_R s sa HR Hon) as Hona.
        assert (Hl1 : loc sa = loc s) by (symmetry; apply HR).
        assert (Hti' : nth_error (cur_line sa) (loc_idx (loc sa)) = Some TInput)
          by (rewrite (proj1 (C_cur_line _ _ (proj1 HR))), Hl1; exact Hti).
        split; [rewrite <- (cur_line_onprog _ Hon); exact Hti|].
        split; [exact (Htb eq_refl)|].
        exists (bumped sa), acc, f, n, sa', acc'.
        split; [exact Hona|]. split; [apply HR|]. split; [exact Hl1|]. split; [exact Ea'|]. split; [exact Haft|].
        pose proof (input_stmt_plain f n (bumped sa) acc sa' acc' Ea' Hti') as Hpl.
        exact (TBs_of_PL s (bumped sa) sa' sa' (eq_sym Hl1) eq_refl Hona Hpl (Htb eq_refl)). }
      destruct (nth_error (cur_line s) (loc_idx (loc s))) as [t|].
      - destruct t; try exact (Hrec f n (bumped s) (bumped sa) acc sa' acc' HR Hon Hfr Htb (Hin Hinv) Hinv Haft Htop).
        exact (tsoundE_goto false (bumped s) (bumped sa) acc sa' acc' HR Hon Hfr Htb Hinv Haft Htop).
      - exact (Hrec f n (bumped s) (bumped sa) acc sa' acc' HR Hon Hfr Htb (Hin Hinv) Hinv Haft Htop).
    Qed.

    Lemma onprog_stmt_or_goto s : onprog s -> onprog (snd (statement_or_goto_line_number rec s)).
    Proof.
      apply (onprog_step ptoks pkeys (statement_or_goto_line_number rec) s
               (keeps_stmt_or_goto st_toks rf_st_toks rec Hk1) (keeps_stmt_or_goto st_keys rf_st_keys rec Hk2)
               (imm_stmt_or_goto rec Him)).
    Qed.

    (* the clause of an IF and the look at what follows it *)
    Lemma clause_sound f n s sa acc sa' acc' : R s sa -> onprog s -> FramesL s -> TBs s ->
      an_statement_or_goto (analyze_statement f n) (sa, acc) = (Ok tt, (sa', acc')) -> After (loc sa') ->
      match if_clause rec s with
      | (Ok _, s') =>
          functions s' = [] /\ FramesL s'
          /\ ((C s' (bumped sa') /\ nth_error (cur_line sa') (loc_idx (loc sa')) <> Some TElse) \/ Land (loc s'))
      | (Err e _, _) => benign e
      | _ => True
      end.
    Proof.
      intros HR Hon Hfr Htb Ea Haft.
      pose proof (tsoundE_stmt_or_goto f n s sa acc sa' acc' HR Hon Hfr (fun _ => Htb) Ea Haft
                    (fun H => ltac:(discriminate H))) as H3.
      pose proof (onprog_stmt_or_goto s Hon) as Hon3.
      unfold if_clause. rewrite bind_run.
      destruct (statement_or_goto_line_number rec s) as [[[]|e l|p| |] s3]; cbn [snd] in *; try exact H3; try exact I.
      destruct H3 as (F3 & Fr3 & Pos3).
      pose proof (probe_sound s3 sa' Hon3 F3 Fr3 Pos3) as H4.
      destruct (else_probe s3) as [[[]|e l|p| |] s4]; try contradiction; try exact I. exact H4.
    Qed.

    (* The scan of a false IF for its ELSE, started in [s], ends well - at a landing position, or with a benign error
       of the ELSE clause it runs - whatever fuel [k] it is given: the scan's fuel is the statement's, and running out
       of it is one of the model's own answers. *)
    Definition ScanOK (s : interp) : Prop :=
      forall k, match repeat_m k (if_scan_body rec) tt s with
                | (Ok _, s') => functions s' = [] /\ FramesL s' /\ Land (loc s')
                | (Err e _, _) => benign e
                | _ => True
                end.

    (* one token of the scan that is not ELSE *)
    Lemma ScanOK_step s :
      (line_there s -> nth_error (cur_line s) (loc_idx (loc s)) <> Some TElse /\
         match nth_error (cur_line s) (loc_idx (loc s)) with
         | None => functions s = [] /\ FramesL s /\ Land (loc s)
         | Some TColon => ScanOK (set_loc (mkloc (loc_line (loc s)) (length (cur_line s))) (advd s))
         | Some _ => ScanOK (advd s)
         end) -> ScanOK s.
    Proof.
      intros H k. destruct k as [|k]; [exact I|].
      destruct (scan_cases rec k s) as [[p Hs] | [Hl Hs]]; [rewrite Hs; exact I|].
      destruct (H Hl) as [Hne Hm]. rewrite (Hs Hne).
      destruct (nth_error (cur_line s) (loc_idx (loc s))) as [t|]; [|exact Hm]. destruct t; exact (Hm k).
    Qed.

    (* [GoodS]: the states a scan passes through (it starts behind THEN and stops at the first ":", so [TBs] holds
       throughout).  [ScanAt l]: every scan that comes to stand at [l] ends well; a statement about the position,
       proved along the checker's run over the same tokens ([scan_stmt], [scan_walk]: what a non-branching statement
       consumes is skipped, an ELSE met is one the checker accepted a clause behind) with no interpreter in hand. *)
    Definition GoodS (s : interp) : Prop := onprog s /\ caps_inv s /\ functions s = [] /\ FramesL s /\ TBs s.
    Definition ScanAt (l : location) : Prop := forall s, GoodS s -> loc s = l -> ScanOK s.

    Lemma GoodS_ext s s' : GoodS s ->
      st_toks s' = st_toks s -> st_keys s' = st_keys s -> immediate s' = immediate s -> loc s' = loc s ->
      functions s' = functions s -> stack s' = stack s -> loops s' = loops s ->
      variables s' = variables s -> arrays s' = arrays s -> GoodS s'.
    Proof. exact (inv_ext ptoks pkeys Land ThenB s s'). Qed.

    Lemma scan_else l sa acc f n sa' acc' :
      nth_error (toks_at l) (loc_idx l) = Some TElse ->
      onprog sa -> functions sa = [] -> loc sa = mkloc (loc_line l) (S (loc_idx l)) ->
      an_statement_or_goto (analyze_statement f n) (sa, acc) = (Ok tt, (sa', acc')) ->
      After (loc sa') -> ScanAt l.
    Proof.
      intros Ht Hona Hfa Hla Ea Haft s (Hon & Hc & Hfn & Hfr & Htb) Hl k.
      destruct k as [|k]; [exact I|].
      destruct (next_token_cases s) as [[p Hp] | [Hlt Hn]];
        [cbn [repeat_m]; unfold if_scan_body at 1; rewrite bind_assoc, bind_run, Hp; exact I|].
      rewrite (cur_line_onprog s Hon), Hl, Ht in Hn. rewrite (if_scan_else rec k s _ Hn).
      assert (HRa : R (advd s) sa).
      { apply (R_onprog (advd s) sa Hon Hona); [rewrite Hla, <- Hl; reflexivity | | exact Hfn | exact Hfa].
        apply (caps_inv_ext s); try (reflexivity); exact Hc. }
      assert (Htb' : TBs (advd s)).
      { apply (TBs_advd s TElse); [rewrite (cur_line_onprog s Hon), Hl; exact Ht | reflexivity | exact Hon | exact Htb]. }
      pose proof (clause_sound f n (advd s) sa acc sa' acc' HRa Hon Hfr Htb' Ea Haft) as H4.
      destruct (if_clause rec (advd s)) as [[[]|e l0|p| |] s4]; try exact H4; try exact I.
      destruct H4 as (F4 & Fr4 & Pos4).
      split; [exact F4|]. split; [exact Fr4|].
      destruct Pos4 as [(HC4 & Hne) | HL]; [|exact HL].
      (* no ELSE behind the clause: the checker's walk goes on from there *)
      destruct (keepA _ _ _ _ _ _ (fn_statement_or_goto _ (fn_analyze_statement f n)) Hona Hfa Ea) as [Hona' _].
      left. rewrite (proj2 (proj2 (proj2 HC4))). apply (after_not_else _ Haft).
      rewrite <- (cur_line_onprog sa' Hona'). exact Hne.
    Qed.

    Lemma scan_skip : forall d s, GoodS s ->
      (forall q, loc_idx (loc s) <= q < loc_idx (loc s) + d -> exists t, nth_error (cur_line s) q = Some t /\ plainT t = true) ->
      ScanAt (mkloc (loc_line (loc s)) (loc_idx (loc s) + d)) -> ScanOK s.
    Proof.
      induction d as [|d IH]; intros s Hg Hq Hat.
      - apply (Hat s Hg). rewrite Nat.add_0_r. destruct (loc s); reflexivity.
      - destruct (Hq (loc_idx (loc s)) ltac:(lia)) as (t & Ht & Hp).
        assert (Hg' : GoodS (advd s)).
        { destruct Hg as (Hon & Hc & Hfn & Hfr & Htb).
          split; [exact Hon|]. split; [apply (caps_inv_ext s); try (reflexivity); exact Hc|].
          split; [exact Hfn|]. split; [exact Hfr|].
          apply (TBs_advd s t Ht); [destruct t; try reflexivity; discriminate Hp | exact Hon | exact Htb]. }
        assert (Hgo : ScanOK (advd s)).
        { apply (IH (advd s) Hg').
          - intros q Hq'. apply Hq. destruct s as [? ? ? [? ?] ? ? ? ? ? ? ? ? ? ? ? ? ? ? ?]; cbn in *; lia.
          - replace (mkloc (loc_line (loc (advd s))) (loc_idx (loc (advd s)) + d))
              with (mkloc (loc_line (loc s)) (loc_idx (loc s) + S d)); [exact Hat|].
            destruct s as [? ? ? [? ?] ? ? ? ? ? ? ? ? ? ? ? ? ? ? ?]; cbn. f_equal. lia. }
        apply ScanOK_step. intros _. rewrite Ht. split; [intros [= ->]; discriminate Hp|].
        destruct t; try discriminate Hp; exact Hgo.
    Qed.

    Lemma scan_range s sa sa' : GoodS s -> loc s = loc sa -> onprog sa -> PL plainT sa sa' -> ScanAt (loc sa') -> ScanOK s.
    Proof.
      intros Hg El Hona (P1 & P2 & P3 & P4 & P5) Hat.
      apply (scan_skip (loc_idx (loc sa') - loc_idx (loc sa)) s Hg).
      - intros q Hq. rewrite El in Hq. destruct (P5 q ltac:(lia)) as (t & Ht & Hp). exists t. split; [|exact Hp].
        rewrite (cur_line_onprog s (proj1 Hg)), El.
        rewrite <- (cur_line_onprog sa Hona). exact Ht.
      - rewrite El. replace (mkloc (loc_line (loc sa)) (loc_idx (loc sa) + (loc_idx (loc sa') - loc_idx (loc sa)))) with (loc sa'); [exact Hat|].
        destruct (loc sa') as [l' i'], (loc sa) as [l0 i0]. cbn in *. subst l'. f_equal. lia.
    Qed.

    Lemma scan_colon s : GoodS s -> nth_error (cur_line s) (loc_idx (loc s)) = Some TColon -> ScanOK s.
    Proof.
      intros (Hon & Hc & Hfn & Hfr & Htb) Ht.
      apply ScanOK_step. intros Hlt. rewrite Ht. split; [discriminate|]. set (sd := set_loc _ (advd s)).
      apply ScanOK_step. intros _.
      assert (Hnone : nth_error (cur_line sd) (loc_idx (loc sd)) = None) by (apply nth_error_None, le_n).
      rewrite Hnone. split; [discriminate|].
      split; [exact Hfn|]. split; [exact Hfr | exact (Land_end s Hon Hfn Hlt)].
    Qed.

    Lemma PL_bumped sa : PL plainT sa (bumped sa).
    Proof. apply PL_same; reflexivity. Qed.

    Lemma frame_after f n sa3 acc3 sa' acc' :
      onprog sa3 -> functions sa3 = [] ->
      (e <-- lift (accept_next_token TElse) ;; if e then an_statement_or_goto (analyze_statement f n) else aret tt) (sa3, acc3)
        = (Ok tt, (sa', acc')) ->
      After (loc sa') -> ScanAt (loc sa') -> After (loc sa3) /\ ScanAt (loc sa3).
    Proof.
      intros Hon Hfn E Haft Hat.
      destruct (an_else_inv _ sa3 acc3 _ E) as [[Et E'] | [_ [= -> ->]]]; [|split; assumption].
      rewrite (cur_line_onprog sa3 Hon) in Et.
      split; [exact (After_else (loc sa3) (advd sa3) acc3 f n sa' acc' Et Hon Hfn eq_refl E' Haft)
             | exact (scan_else (loc sa3) (advd sa3) acc3 f n sa' acc' Et Hon Hfn eq_refl E' Haft)].
    Qed.

    Lemma scan_clause arec sa acc sa' acc' : onprog sa ->
      an_statement_or_goto arec (sa, acc) = (Ok tt, (sa', acc')) -> ScanAt (loc sa') ->
      (arec (bumped sa, acc) = (Ok tt, (sa', acc')) -> ScanAt (loc sa)) -> ScanAt (loc sa).
    Proof.
      intros Hon E Hat Hvia. destruct (an_statement_or_goto_inv arec sa acc _ E) as [_ Hinv].
      destruct (nth_error (cur_line sa) (loc_idx (loc sa))) as [t|]; [|exact (Hvia Hinv)].
      destruct t; try exact (Hvia Hinv).
      pose proof (aplp_goto_or_gosub (bumped sa, acc) tt (sa', acc') Hinv) as Hpl. cbn [fst] in Hpl.
      intros s Hg El. apply (scan_range s sa sa' Hg El Hon); [|exact Hat].
      eapply PL_trans; [apply PL_bumped | exact Hpl].
    Qed.

    (* by induction on the checker's fuel: the clauses of an IF are statements it accepted one level down *)
    Lemma scan_stmt : forall f2 n2 sa acc sa' acc', onprog sa -> functions sa = [] ->
      analyze_statement f2 n2 (sa, acc) = (Ok tt, (sa', acc')) -> After (loc sa') -> ScanAt (loc sa') -> ScanAt (loc sa).
    Proof.
      induction f2 as [|f2 IH]; intros n2 sa acc sa' acc' Hon Hfn Ea Haft Hat;
        destruct (analyze_statement_inv _ _ _ _ _ Ea) as (f & [= Ef] & Hlt & Hinv); subst f. clear Ea. rename Hinv into Ea.
      destruct (nth_error (cur_line sa) (loc_idx (loc sa))) as [t|] eqn:Et.
      2:{ injection Ea as -> ->. exact Hat. }
      assert (Hcl : nodef_tok t = true) by (apply (nodef_at sa _ t Hon Et)).
      assert (Hstep : plainT t = true -> PL plainT sa (advd sa)).
      { intros Hp. apply (PL_step plainT sa t); [|exact Hp].
        exact Et. }
      destruct (plain_head (Some t)) eqn:Hph.
      - pose proof (aplp_dispatch f2 (S n2) (analyze_statement f2 (S n2)) (Some t) Hph (advd sa, acc) tt (sa', acc') Ea) as Hpl.
        cbn [fst] in Hpl.
        intros s Hg El. apply (scan_range s sa sa' Hg El Hon); [|exact Hat].
        eapply PL_trans; [apply Hstep; destruct t; try reflexivity; discriminate Hph | exact Hpl].
      - destruct t; try discriminate Hph; try discriminate Hcl; cbn [adispatch] in Ea; try discriminate Ea.
        + intros s Hg El. apply (scan_colon s Hg).
          rewrite (cur_line_onprog s (proj1 Hg)), El, <- (cur_line_onprog sa Hon). exact Et.
        + destruct (an_if_inv f2 (S n2) _ (advd sa) acc _ Ea) as (ty & sa2 & acc2 & sa3 & sa4 & acc4 & Ex & Eth & Earm & Eels).
          pose proof (apl_analyze_expression plainT plainT_sub plainT_resp f2 (S n2) (advd sa, acc) ty (sa2, acc2) Ex) as Hx.
          pose proof (mpl_expect plainT plainT_resp TThen eq_refl sa2 tt sa3 Eth) as Hx2. cbn [fst snd] in Hx, Hx2.
          destruct (keepA _ (advd sa) _ _ _ _ (fn_analyze_expression f2 (S n2)) Hon Hfn Ex) as [Hon2 Hfn2].
          destruct (keepM _ _ _ _ (rfn_expect TThen) Hon2 Hfn2 Eth) as [Hon3 Hfn3].
          destruct (keepA _ _ _ _ _ _ (fn_statement_or_goto _ (fn_analyze_statement f2 (S n2))) Hon3 Hfn3 Earm) as [Hon4 Hfn4].
          destruct (frame_after f2 (S n2) sa4 acc4 sa' acc' Hon4 Hfn4 Eels Haft Hat) as [Haft4 Hat4].
          pose proof (scan_clause _ sa3 acc2 sa4 acc4 Hon3 Earm Hat4
                        (fun E0 => IH (S n2) (bumped sa3) acc2 sa4 acc4 Hon3 Hfn3 E0 Haft4 Hat4)) as Hat3.
          intros s Hg El. apply (scan_range s sa sa3 Hg El Hon); [|exact Hat3].
          eapply PL_trans; [apply Hstep; reflexivity|]. eapply PL_trans; [exact Hx | exact Hx2].
    Qed.

    Lemma scan_walk : forall stmts sa acc m st', onprog sa -> functions sa = [] ->
      walk_line fa stmts m (sa, acc) = (Ok None, st') -> ScanAt (loc sa).
    Proof.
      induction stmts as [|k IH]; intros sa acc m st' Hon Hfn Hw; [discriminate Hw|].
      pose proof (AccAt_walk fa ptoks pkeys sa acc (S k) m st' Hon Hfn Hw) as Hacc.
      destruct (walk_line_accepts_inv fa _ m sa acc st' Hw) as [_ Hinv].
      destruct (nth_error (cur_line sa) (loc_idx (loc sa))) as [t|] eqn:Et.
      - destruct Hinv as (k' & sa1 & acc1 & Ek & Ean & Hw1). injection Ek as <-.
        destruct (keepA _ (bumped sa) _ _ _ _ (fn_analyze_statement fa 0) Hon Hfn Ean) as [Hon1 Hfn1].
        pose proof (IH sa1 acc1 m st' Hon1 Hfn1 Hw1) as Hat1.
        pose proof (AccAt_walk fa ptoks pkeys sa1 acc1 k m st' Hon1 Hfn1 Hw1) as Hacc1.
        exact (scan_stmt fa 0 (bumped sa) acc sa1 acc1 Hon Hfn Ean (After_acc _ Hacc1) Hat1).
      - intros s (Hons & Hc & Hfns & Hfr & Htb) El. apply ScanOK_step. intros _.
        rewrite (cur_line_onprog s Hons), El, <- (cur_line_onprog sa Hon), Et. split; [discriminate|].
        split; [exact Hfns|]. split; [exact Hfr|]. left. exact Hacc.
    Qed.

    Lemma scan_after l : After l -> ScanAt l.
    Proof.
      intros [l0 (sa & acc & Hon & Hfn & Hl & (stmts & m & st' & Hw)) | l0 sa acc f n sa' acc' Ht Hon Hfn Hl Ea Haft].
      - rewrite <- Hl. exact (scan_walk stmts sa acc m st' Hon Hfn Hw).
      - exact (scan_else l0 sa acc f n sa' acc' Ht Hon Hfn Hl Ea Haft).
    Qed.

    Lemma ThenB_after_then s : onprog s -> loc_idx (loc s) <> 0 ->
      nth_error (cur_line s) (Nat.pred (loc_idx (loc s))) = Some TThen -> TBs s.
    Proof.
      intros Hon Hnz Ht. unfold TBs, ThenB. rewrite <- (cur_line_onprog s Hon).
      destruct (loc_idx (loc s)) as [|i] eqn:Ei; [congruence|]. cbn [Nat.pred] in Ht.
      rewrite (firstn_S_nth _ _ _ Ht), rev_app_distr. reflexivity.
    Qed.

    Lemma expect_then_TBs s1 s2 : onprog s1 -> expect_next_token TThen s1 = (Ok tt, s2) -> TBs s2.
    Proof.
      intros Hon1 E. unfold expect_next_token, next_unwrapped_token in E. rewrite !bind_run in E.
      destruct (next_token_cases s1) as [[p Hp] | [Hlt Hn]]; [rewrite Hp in E; discriminate E|]. rewrite Hn in E.
      destruct (nth_error (cur_line s1) (loc_idx (loc s1))) as [t|] eqn:Et; [|rewrite bind_get in E; discriminate E].
      unfold ret at 1 in E. cbv iota beta in E. destruct (token_eqb t TThen) eqn:Eq; [|discriminate E].
      unfold ret in E. injection E as <-. assert (t = TThen) by (destruct t; try discriminate Eq; reflexivity). subst t.
      apply (ThenB_after_then (advd s1) Hon1); [discriminate | exact Et].
    Qed.

    Lemma tsoundE_if (top : bool) fi f2 nestE nestA fa' na' :
      tsoundE top (evaluate_if_statement fi nestE rec) (an_if f2 nestA (analyze_statement fa' na')).
    Proof.
      intros s sa acc sa' acc' HR Hon Hfr Htb Ea Haft Htop.
      rewrite (if_unfold rec fi nestE).
      destruct (an_if_inv f2 nestA _ sa acc _ Ea) as (ty & sa1 & acc1 & sa2 & sa3 & acc3 & Ex & Eth & E3 & Eels).
      pose proof (lock_run _ _ _ s sa acc ty sa1 acc1 (@lock_expression false fi f2 nestE nestA ltac:(discriminate)) HR Ex) as Hx.
      pose proof (onprog_of_R s sa HR Hon) as Hona.
      destruct (keepA _ _ _ _ _ _ (fn_analyze_expression f2 nestA) Hona (proj2 (proj2 (proj2 HR))) Ex) as [Hona1 Hfna1].
      rewrite bind_run. unfold expr.
      destruct (evaluate_expression fi nestE s) as [[c|e l|p| |] s1]; cbn [snd] in *; try exact Hx; try exact I.
      destruct Hx as (_ & HR1 & Ks1 & Kl1). pose proof (onprog_back s1 sa1 HR1 Hona1) as Hon1.
      assert (Hfr1 : FramesL s1) by (unfold FramesL; rewrite Ks1, Kl1; exact Hfr).
      destruct (cp_expect TThen s1 sa1 (proj1 HR1)) as (E2 & HC2 & K1 & K2).
      destruct (keepM _ _ _ _ (rfn_expect TThen) Hona1 Hfna1 Eth) as [Hona2 Hfna2].
      rewrite bind_run.
      rewrite Eth in E2, HC2, K2. destruct (expect_next_token TThen s1) as [r2 s2] eqn:Es2. cbn [fst snd] in *. subst r2.
      assert (HR2 : R s2 sa2) by (eapply R_same_rt; eassumption). pose proof (onprog_back s2 sa2 HR2 Hona2) as Hon2.
      assert (Hfr2 : FramesL s2) by (destruct K1 as (S1 & S2 & _); unfold FramesL; rewrite S1, S2; exact Hfr1).
      pose proof (expect_then_TBs s1 s2 Hon1 Es2) as Htb2.
      destruct (keepA _ _ _ _ _ _ (fn_statement_or_goto _ (fn_analyze_statement fa' na')) Hona2 Hfna2 E3) as [Hona3 Hfna3].
      destruct (frame_after fa' na' sa3 acc3 sa' acc' Hona3 Hfna3 Eels Haft (scan_after _ Haft)) as [Haft3 Hat3].
      destruct (to_bool c).
      - pose proof (clause_sound fa' na' s2 sa2 acc1 sa3 acc3 HR2 Hon2 Hfr2 Htb2 E3 Haft3) as H4.
        destruct (if_clause rec s2) as [[[]|e l|p| |] s4]; try exact H4; try exact I.
        destruct H4 as (F4 & Fr4 & Pos4).
        split; [exact F4|]. split; [exact Fr4|].
        destruct Pos4 as [(HC4 & Hne) | HL]; [left | right; exact HL].
        (* the checker saw no ELSE either *)
        destruct (an_else_inv _ sa3 acc3 _ Eels) as [[Et _] | [_ [= -> _]]]; [contradiction | exact HC4].
      - assert (Hg2 : GoodS s2).
        { split; [exact Hon2|]. split; [apply HR2|]. split; [apply HR2|]. split; [exact Hfr2 | exact Htb2]. }
        pose proof (scan_clause _ sa2 acc1 sa3 acc3 Hona2 E3 Hat3
                      (fun E0 => scan_stmt fa' na' (bumped sa2) acc1 sa3 acc3 Hona2 Hfna2 E0 Haft3 Hat3)) as Hat2.
        pose proof (Hat2 s2 Hg2 (proj2 (proj2 (proj2 (proj1 HR2)))) fi) as Hsc.
        destruct (repeat_m fi (if_scan_body rec) tt s2) as [[[]|e l|p| |] s3]; try exact Hsc; try exact I.
        destruct Hsc as (A1 & A2 & A3). split; [exact A1|]. split; [exact A2 | right; exact A3].
    Qed.
  End Level.

  Lemma tsoundE_body (top : bool) fi f2 nestE nestA rec fa' na' :
    (forall f n, tsoundES false rec (analyze_statement f n)) ->
    mrel (keeps st_toks) rec -> mrel (keeps st_keys) rec -> mrel IM rec ->
    tsoundES top (evaluate_statement_body fi nestE rec) (an_statement_body f2 nestA (analyze_statement fa' na')).
  Proof.
    intros Hrec Hk1 Hk2 Him s sa acc sa' acc' HR Hon Hfr Htb Hin Ea Haft Htop.
    destruct (body_cases fi nestE rec s) as [[p Hp] | [Hl Hb]]; [rewrite Hp; exact I|]. rewrite Hb.
    destruct (an_body_inv _ _ _ _ _ _ Ea) as [_ Hinv]. clear Ea.
    rewrite (proj1 (C_cur_line _ _ (proj1 HR))), <- (proj2 (proj2 (proj2 (proj1 HR)))) in Hinv.
    destruct (nth_error (cur_line s) (loc_idx (loc s))) as [t|] eqn:E1'.
    2:{ injection Hinv as -> ->. split; [apply HR|]. split; [exact Hfr | left; apply HR]. }
    rename Hinv into Ea. set (s1 := advd (traced s)). set (sa1 := advd sa) in *.
    assert (HR1 : R s1 sa1) by exact (R_advd _ _ HR).
    pose proof (nodef_at s _ t Hon E1') as Hcl.
    assert (Htb1 : token_eqb t TColon = false -> top = false -> TBs s1).
    { intros Hc Hn1. apply (TBs_advd s t E1' Hc Hon (Htb Hn1)). }
    destruct (straight_head (Some t)) eqn:Hst.
    - destruct (token_eqb t TColon) eqn:Ec.
      + destruct t; try discriminate Ec. cbn [edispatch adispatch] in *. unfold aret in Ea. injection Ea as <- <-. unfold ret.
        split; [apply HR1|]. split; [exact Hfr | left; apply HR1].
      + apply (tsoundE_of_lock top _ _ (@lock_straight_statement false fi f2 nestE nestA rec (analyze_statement fa' na') _
                                         ltac:(discriminate) Hst)
                 (aplp_dispatch f2 nestA (analyze_statement fa' na') (Some t) ltac:(destruct t; try discriminate Hst; try discriminate Ec; reflexivity))
                 s1 sa1 acc sa' acc' HR1 Hon Hfr (Htb1 eq_refl) Ea Haft Htop).
    - destruct t; try discriminate Hst; try discriminate Hcl; cbn [edispatch adispatch] in *; try discriminate Ea.
      + exact (tsoundE_input fi f2 nestE nestA (traced s) sa1 acc sa' acc' HR1 Hon Hfr Hl E1' (Hin eq_refl) Ea).
      + exact (tsoundE_goto top s1 sa1 acc sa' acc' HR1 Hon Hfr (Htb1 eq_refl) Ea Haft Htop).
      + exact (tsoundE_gosub top s1 sa1 acc sa' acc' HR1 Hon Hfr (Htb1 eq_refl) Ea Haft Htop).
      + exact (tsoundE_return top s1 sa1 acc sa' acc' HR1 Hon Hfr (Htb1 eq_refl) Ea Haft Htop).
      + exact (tsoundE_if rec Hrec Hk1 Hk2 Him top fi f2 nestE nestA fa' na'
                 s1 sa1 acc sa' acc' HR1 Hon Hfr (Htb1 eq_refl) Ea Haft Htop).
      + exact (tsoundE_end top s1 sa1 acc sa' acc' HR1 Hon Hfr (Htb1 eq_refl) Ea Haft Htop).
      + exact (tsoundE_stop top s1 sa1 acc sa' acc' HR1 Hon Hfr (Htb1 eq_refl) Ea Haft Htop).
      + exact (tsoundE_next top s1 sa1 acc sa' acc' HR1 Hon Hfr (Htb1 eq_refl) Ea Haft Htop).
  Qed.

  Theorem tsoundE_statement : forall fi n1 top f2 n2, tsoundES top (evaluate_statement fi n1) (analyze_statement f2 n2).
  Proof.
    induction fi as [|fi IH]; intros n1 top f2 n2 s sa acc sa' acc' HR Hon Hfr Htb Hin Ea Haft Htop; [exact I|].
    destruct f2 as [|f2]; [discriminate Ea|]. cbn [analyze_statement] in Ea. cbn [evaluate_statement].
    destruct (Nat.eqb n2 max_nesting); [discriminate Ea|].
    destruct (Nat.eqb n1 max_nesting); [exact I|].
    apply (tsoundE_body top fi f2 (S n1) (S n2) (evaluate_statement fi (S n1)) f2 (S n2)
             (fun f n => IH (S n1) false f n)
             (keeps_evaluate_statement st_toks rf_st_toks fi (S n1)) (keeps_evaluate_statement st_keys rf_st_keys fi (S n1))
             (imm_evaluate_statement fi (S n1)) s sa acc sa' acc' HR Hon Hfr Htb Hin Ea Haft Htop).
  Qed.

  Definition InvL (s : interp) : Prop :=
    onprog s /\ caps_inv s /\ functions s = [] /\ FramesL s /\ Land (loc s).

  Lemma InvL_ext s s' : InvL s ->
    st_toks s' = st_toks s -> st_keys s' = st_keys s -> immediate s' = immediate s -> loc s' = loc s ->
    functions s' = functions s -> stack s' = stack s -> loops s' = loops s ->
    variables s' = variables s -> arrays s' = arrays s -> InvL s'.
  Proof. exact (inv_ext ptoks pkeys Land Land s s'). Qed.

  Lemma stmt_at_else fi s : onprog s -> caps_inv s -> functions s = [] -> FramesL s -> ElseOK (loc s) ->
    match evaluate_statement fi 0 s with
    | (Ok _, s') => onprog s' /\ caps_inv s' /\ functions s' = [] /\ FramesL s' /\ Land (loc s')
    | (Err _ _, _) => False
    | _ => True
    end.
  Proof.
    intros Hon Hc Hf Hfr (_ & Htok & Hthen).
    destruct fi as [|fi]; [exact I|]. cbn [evaluate_statement]. change (Nat.eqb 0 max_nesting) with false. cbv iota.
    destruct (body_cases fi 1 (evaluate_statement fi 1) s) as [[p Hp] | [Hl0 Hb]]; [rewrite Hp; exact I|]. rewrite Hb.
    set (s0 := traced s).
    rewrite (cur_line_onprog s Hon), Htok. cbn [edispatch].
    assert (Eth : then_before (rev (firstn (Nat.pred (loc_idx (loc (advd s0)))) (cur_line (advd s0)))) = true).
    { change (then_before (rev (firstn (loc_idx (loc s)) (cur_line s))) = true).
      rewrite (cur_line_onprog s Hon). exact Hthen. }
    rewrite bind_run, (is_else_there _ (line_there_advd s0 Hl0)), Eth, (discard_there _ (line_there_advd s0 Hl0)).
    split; [exact Hon|]. split; [exact Hc|]. split; [exact Hf|]. split; [exact Hfr|].
    exact (Land_end s0 Hon Hf Hl0).
  Qed.

  Lemma no_err_benign {A} (P : interp -> Prop) (r : res A * interp) :
    match r with (Ok _, s') => P s' | (Err _ _, _) => False | _ => True end ->
    match r with (Ok _, s') => P s' | (Err e _, _) => benign e | _ => True end.
  Proof. destruct r as [[u|e l|p| |] s']; try exact (fun H => H). contradiction. Qed.

  Lemma tail_soundL s : InvL s ->
    match after_statement s with
    | (Ok _, s') => InvL s'
    | (Err _ _, _) => False
    | _ => True
    end.
  Proof.
    intros HI. destruct (after_statement_cases s) as [-> | (_ & p & ->)]; [|exact I]. unfold turn_end.
    assert (HIb : InvL (bump s)) by (apply (InvL_ext s _ HI); reflexivity).
    destruct (nth_error (cur_toks s) (loc_idx (loc s))); [exact HIb|].
    destruct HIb as (Hon & Hc & Hf & Hfr & Ha).
    destruct (match loc_line (loc s) with Some n => keys_after n (st_keys s) | None => None end) as [n'|] eqn:Ea'.
    - split; [exact Hon|]. split; [exact Hc|]. split; [exact Hf|]. split; [exact Hfr|].
      left. apply G, Hkeys. destruct (loc_line (loc s)) as [n|]; [|discriminate Ea'].
      rewrite <- (proj1 (proj2 Hon)). exact (keys_after_In _ _ _ Ea').
    - destruct (imm_reset_keeps (bump s)) as (K1 & K2 & K3 & K4). destruct Hon as (O1 & O2 & O3).
      split; [split; [|split]; [rewrite <- O1; exact K1 | rewrite <- O2; exact K2 | exact K3]|].
      split; [apply (caps_set_imm [] (bump s)) in Hc; exact Hc|].
      split; [rewrite <- Hf; exact K4|]. split; [exact (FramesL_imm_reset _ Hfr)|].
      left. exact (AccAt_imm0 fa ptoks pkeys (bump s) (conj O1 (conj O2 O3)) Hf).
  Qed.


  (* a statement run from a landing position that holds a token *)
  Lemma stmt_soundL fi s t : InvL s -> nth_error (cur_line s) (loc_idx (loc s)) = Some t ->
    match evaluate_statement fi 0 s with
    | (Ok _, s') => InvL s'
    | (Err e _, _) => benign e
    | _ => True
    end.
  Proof.
    intros (Hon & Hc & Hf & Hfr & Hland) Et.
    pose proof (onprog_step ptoks pkeys (evaluate_statement fi 0) s
                  (keeps_evaluate_statement st_toks rf_st_toks fi 0) (keeps_evaluate_statement st_keys rf_st_keys fi 0)
                  (imm_evaluate_statement fi 0) Hon) as Hon1.
    pose proof (caps_evaluate_statement fi 0 s Hc) as Hc1.
    (* the statement the checker accepted here, and where its walk went on *)
    assert (Hst : forall top sa acc f n sa' acc', onprog sa -> functions sa = [] -> loc sa = loc s -> (top = false -> TBs s) ->
              analyze_statement f n (sa, acc) = (Ok tt, (sa', acc')) -> After (loc sa') -> (top = true -> AccAt (loc sa')) ->
              Land (loc sa') ->
              match evaluate_statement fi 0 s with
              | (Ok _, s') => InvL s'
              | (Err e _, _) => benign e
              | _ => True
              end).
    { intros top sa acc f n sa' acc' Hona Hfa Hla Htb Ean Haft Htop Hl'.
      pose proof (tsoundE_statement fi 0 top f n s sa acc sa' acc' (R_onprog s sa Hon Hona (eq_sym Hla) Hc Hf Hfa) Hon Hfr
                    Htb (fun _ => Hland) Ean Haft Htop) as Hst.
      destruct (evaluate_statement fi 0 s) as [[[]|e l|p| |] s1]; cbn [snd] in *; try exact Hst; try exact I.
      destruct Hst as (F1 & F2 & F3). split; [exact Hon1|]. split; [exact Hc1|]. split; [exact F1|]. split; [exact F2|].
      destruct F3 as [HC1 | HL]; [|exact HL]. rewrite (proj2 (proj2 (proj2 HC1))). exact Hl'. }
    destruct Hland as [(sa & acc & Hona & Hfa & Hla & (stmts & m & st' & Hw))
                      | [HE | (Htok & Hthen & sa & acc & f & n & sa' & acc' & Hona & Hfa & Hla & Ean & Haft & Hthen')]].
    - destruct (walk_line_accepts_inv fa stmts m sa acc st' Hw) as [_ Hinv].
      rewrite (cur_line_onprog sa Hona), Hla, <- (cur_line_onprog s Hon), Et in Hinv.
      destruct Hinv as (k & sa1 & acc1 & _ & Ean & Hw1).
      destruct (keepA _ (bumped sa) _ _ _ _ (fn_analyze_statement fa 0) Hona Hfa Ean) as [Hona1 Hfna1].
      pose proof (AccAt_walk fa ptoks pkeys sa1 acc1 k m st' Hona1 Hfna1 Hw1) as Hacc1.
      exact (Hst true (bumped sa) acc fa 0 sa1 acc1 Hona Hfa Hla (fun H => ltac:(discriminate H)) Ean
               (After_acc _ Hacc1) (fun _ => Hacc1) (or_introl Hacc1)).
    - exact (no_err_benign InvL _ (stmt_at_else fi s Hon Hc Hf Hfr HE)).
    - (* an INPUT standing as a clause: the statement the checker accepted there, on its own *)
      exact (Hst false sa acc f n sa' acc' Hona Hfa Hla (fun _ => Hthen) Ean Haft (fun H => ltac:(discriminate H))
               (land_of_after _ Haft Hthen')).
  Qed.

  Theorem turn_soundL fi s : InvL s ->
    match run_next_statement fi s with
    | (Ok _, s') => InvL s'
    | (Err e _, _) => benign e
    | _ => True
    end.
  Proof.
    intros HI. destruct (rns_cases fi s) as [-> | (_ & p & ->)]; [|exact I].
    set (sR := set_state Running s).
    assert (HIb : InvL (bump sR)) by (apply (InvL_ext s _ HI); reflexivity).
    rewrite bind_run. unfold turn_statement.
    destruct (nth_error (cur_toks s) (loc_idx (loc s))) as [t|] eqn:Et;
      [|exact (no_err_benign InvL _ (tail_soundL _ HIb))].
    pose proof (stmt_soundL fi (bump sR) t HIb Et) as H.
    destruct (evaluate_statement fi 0 (bump sR)) as [[[]|e l|p| |] s1]; try exact H; try exact I.
    exact (no_err_benign InvL _ (tail_soundL s1 H)).
  Qed.


  Lemma continue_soundL fi s : InvL s -> state s = Running ->
    turn_ok fi s /\ (forall s', continue_evaluating fi s = (Ok tt, s') -> InvL s').
  Proof.
    intros HI Hst. unfold turn_ok, continue_evaluating. rewrite Hst. pose proof (turn_soundL fi s HI) as H.
    destruct (run_next_statement fi s) as [[[]|e l|p| |] s1]; cbn [postprocess]; split; try exact H; try exact I;
      intros s' E; try discriminate E. injection E as <-. exact H.
  Qed.

  Theorem run_soundI fi s0 s : InvL s0 -> ReachI fi s0 s -> InvL s /\ (state s = Running -> turn_ok fi s).
  Proof.
    intros H0 Hr.
    assert (HI : InvL s).
    { induction Hr as [|s1 s2 Hr IH Hst E|s1 s2 text Hr IH E]; [exact H0 | |].
      - exact (proj2 (continue_soundL fi s1 IH Hst) s2 E).
      - unfold provide_input in E. destruct (state s1); try discriminate E. injection E as <-.
        apply (InvL_ext s1 _ IH); reflexivity. }
    split; [exact HI|]. intros Hst. apply (continue_soundL fi s HI Hst).
  Qed.

  Theorem run_soundL fi s0 s : InvL s0 -> Reach fi s0 s -> InvL s /\ (state s = Running -> turn_ok fi s).
  Proof. intros H0 Hr. exact (run_soundI fi s0 s H0 (ReachI_of_Reach fi s0 s Hr)). Qed.

  Theorem run_command_soundL fi line s0 :
    state s0 = Idle -> st_toks s0 = ptoks -> st_keys s0 = pkeys -> command_of line = Some CRun ->
    match start_evaluating fi line s0 with
    | (Ok _, s1) => InvL s1
    | (Err e _, _) => benign e
    | _ => True
    end.
  Proof.
    intros Hidle Ht Hk Hcmd. unfold start_evaluating.
    rewrite (evaluate_impl_command fi line CRun s0 Hidle Hcmd), process_command_RUN.
    assert (Hon : onprog (clean s0)) by (split; [exact Ht | split; [exact Hk | reflexivity]]).
    assert (HI : InvL (clean s0)).
    { split; [exact Hon|].
      split; [split; [apply Nat.le_0_l|]; split; [apply Nat.le_0_l|]; split; [constructor|]; split; [apply typed_alist_nil|];
              split; [constructor | apply arrays_ok_nil]|].
      split; [reflexivity|]. split; [split; constructor|].
      left. cbn [clean loc]. unfold store_first. rewrite Hk.
      destruct (hd_error pkeys) as [n|] eqn:Eh; [|exact (AccAt_imm0 fa ptoks pkeys (clean s0) Hon eq_refl)].
      apply G, Hkeys. destruct pkeys as [|n0 ks]; [discriminate Eh|]. injection Eh as ->. left. reflexivity. }
    pose proof (turn_soundL fi (clean s0) HI) as H.
    destruct (run_next_statement fi (clean s0)) as [[[]|e l|p| |] s2]; cbn [postprocess]; exact H.
  Qed.
End ProgE.

Definition clean2_program (T : list (N * list token)) : Prop :=
  forall n ts, toks_get n T = Some ts -> clean2_line ts = true.

Lemma clean2_nodef T : clean2_program T -> nodef_program T.
Proof.
  intros H n ts E. pose proof (H n ts E) as Hc. unfold clean2_line, nodef_line in *. rewrite forallb_forall in *.
  intros t Ht. specialize (Hc t Ht). destruct t; try reflexivity; discriminate Hc.
Qed.

(* only DEF is excluded; the run includes the host's replies *)
Theorem program_sound_input fuel fi text :
  line_bound text < fuel ->
  forallb (fun msg => negb (is_error_msg msg)) (an_messages (analyze fuel text)) = true ->
  nodef_program (st_toks (p_prog (pass1_of' text))) ->
  forall line s0, state s0 = Idle -> st_toks s0 = st_toks (p_prog (pass1_of' text)) ->
    st_keys s0 = st_keys (p_prog (pass1_of' text)) ->
    caps_inv s0 -> command_of line = Some CRun ->
    match start_evaluating fi line s0 with
    | (Ok _, s1) => forall s, ReachI fi s1 s -> state s = Running -> turn_ok fi s
    | (Err e _, _) => benign e
    | _ => True
    end.
Proof.
  intros Hfuel Hmsgs Hnodef line s0 Hidle Ht Hk Hc Hcmd.
  pose proof (accepted_lines_nodef fuel text Hfuel Hmsgs Hnodef) as G.
  pose proof (pp_wf _ _ (PP_pass1 text)) as Hwf. destruct (wf_store _ Hwf) as (_ & Hkeys & _).
  pose proof (run_command_soundL fuel (st_toks (p_prog (pass1_of' text))) (st_keys (p_prog (pass1_of' text))) Hnodef G
                (fun n Hn => proj1 (Hkeys n) Hn) fi line s0 Hidle Ht Hk Hcmd) as H.
  destruct (start_evaluating fi line s0) as [[[]|e l|p| |] s1]; try exact H; try exact I.
  intros s Hr Hst.
  exact (proj2 (run_soundI fuel (st_toks (p_prog (pass1_of' text))) (st_keys (p_prog (pass1_of' text))) Hnodef G
                  (fun n Hn => proj1 (Hkeys n) Hn) fi s1 s H Hr) Hst).
Qed.

Theorem program_sound_else fuel fi text :
  line_bound text < fuel ->
  forallb (fun msg => negb (is_error_msg msg)) (an_messages (analyze fuel text)) = true ->
  clean2_program (st_toks (p_prog (pass1_of' text))) ->
  forall line s0, state s0 = Idle -> st_toks s0 = st_toks (p_prog (pass1_of' text)) ->
    st_keys s0 = st_keys (p_prog (pass1_of' text)) ->
    caps_inv s0 -> command_of line = Some CRun ->
    match start_evaluating fi line s0 with
    | (Ok _, s1) => forall s, Reach fi s1 s -> state s = Running -> turn_ok fi s
    | (Err e _, _) => benign e
    | _ => True
    end.
Proof.
  intros Hfuel Hmsgs Hclean line s0 Hidle Ht Hk Hc Hcmd.
  pose proof (program_sound_input fuel fi text Hfuel Hmsgs (clean2_nodef _ Hclean) line s0 Hidle Ht Hk Hc Hcmd) as H.
  destruct (start_evaluating fi line s0) as [[[]|e l|p| |] s1]; try exact H; try exact I.
  intros s Hr Hst. exact (H s (ReachI_of_Reach fi s1 s Hr) Hst).
Qed.

(* Programs without ELSE and INPUT.  Their lines show neither token, so a
   landing position is an accepted one: [InvL] is [Inv], and the statements
   above say what they say of [Inv]. *)
Section NoElse.
  Variable fa : nat.
  Variable ptoks : list (N * list token).
  Variable pkeys : list N.
  Hypothesis Hclean : forall n ts, toks_get n ptoks = Some ts -> clean_line ts = true.
  Hypothesis G : forall n, toks_get n ptoks <> None -> AccAt fa ptoks pkeys (mkloc (Some n) 0).
  Hypothesis Hkeys : forall n, In n pkeys -> toks_get n ptoks <> None.

  Lemma toks_at_clean l i t : nth_error (toks_at ptoks l) i = Some t -> clean_tok t = true.
  Proof.
    unfold toks_at. destruct (loc_line l) as [n|]; [|destruct i; discriminate].
    destruct (toks_get n ptoks) as [ts|] eqn:E; [|destruct i; discriminate].
    intros Hn. pose proof (Hclean n ts E) as Hc. unfold clean_line in Hc. rewrite forallb_forall in Hc.
    apply Hc. eapply nth_error_In; eassumption.
  Qed.

  Lemma Land_clean l : Land fa ptoks pkeys l <-> AccAt fa ptoks pkeys l.
  Proof.
    split; [|intros H; left; exact H].
    intros [H | [(_ & H & _) | (H & _)]]; [exact H | |]; apply toks_at_clean in H; discriminate H.
  Qed.

  Lemma InvL_Inv s : InvL fa ptoks pkeys s <-> Inv fa ptoks pkeys s.
  Proof.
    unfold InvL, Inv, FramesL, FramesOK.
    rewrite (Land_clean (loc s)), !Forall_forall.
    setoid_rewrite Land_clean. reflexivity.
  Qed.

  Theorem turn_sound fi s : Inv fa ptoks pkeys s ->
    match run_next_statement fi s with
    | (Ok _, s') => Inv fa ptoks pkeys s'
    | (Err e _, _) => benign e
    | _ => True
    end.
  Proof.
    intros HI. apply InvL_Inv in HI.
    pose proof (turn_soundL fa ptoks pkeys (fun n ts E => clean_nodef ts (Hclean n ts E)) G Hkeys fi s HI) as H.
    destruct (run_next_statement fi s) as [[[]|e l|p| |] s']; try exact H. apply InvL_Inv. exact H.
  Qed.
End NoElse.

Lemma clean_clean2 T : clean_program T -> clean2_program T.
Proof.
  intros H n ts E. specialize (H n ts E). unfold clean_line, clean2_line in *. rewrite forallb_forall in *.
  intros t Ht. specialize (H t Ht). destruct t; try reflexivity; discriminate H.
Qed.

(* The interpreter is any idle one holding the program (loading = typing its
   lines: C15).  The premise [caps_inv s0] (every reachable state satisfies it:
   C16) is not used: RUN empties the variables, arrays and stacks, and the state
   it starts from satisfies the invariant outright ([run_command_soundL]). *)
Theorem program_sound fuel fi text :
  line_bound text < fuel ->
  forallb (fun msg => negb (is_error_msg msg)) (an_messages (analyze fuel text)) = true ->
  clean_program (st_toks (p_prog (pass1_of' text))) ->
  forall line s0, state s0 = Idle -> st_toks s0 = st_toks (p_prog (pass1_of' text)) ->
    st_keys s0 = st_keys (p_prog (pass1_of' text)) ->
    caps_inv s0 -> command_of line = Some CRun ->
    match start_evaluating fi line s0 with
    | (Ok _, s1) =>
        forall s, Reach fi s1 s -> state s = Running -> turn_ok fi s
    | (Err e _, _) => benign e
    | _ => True
    end.
Proof. intros Hfuel Hmsgs Hclean. exact (program_sound_else fuel fi text Hfuel Hmsgs (clean_clean2 _ Hclean)). Qed.
