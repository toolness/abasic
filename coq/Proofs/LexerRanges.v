(* Ranges produced by the tokenizer model (Model/Lexer.v): C13, and the base of
   LexerCrunch.v and LexerRetok.v.  The dispatcher is the first of seven
   attempts that is not NoMatch ([chomp_next_token_eq]); [toks line pos] is the
   tokenizer started at [pos] of [line], with [toks_step] and [toks_ind]; its
   tokens form a [chain] over the line, each link holding what the dispatcher
   answered there.  Where a token of a matcher that reads through the cruncher
   ends is [Cruncher.lifted_ends]; a DATA token ends where the item parser
   stops ([DataProofs.parse_data_stop]). *)
From Coq Require Import List NArith ZArith Bool Lia Arith ZifyBool Sorted.
From Abasic Require Import Model.Bytes Model.Token Model.Data Model.Lexer Gen.Tables
     Proofs.DataProofs Proofs.Cruncher.
Import ListNotations.
Local Open Scope nat_scope.

Fixpoint ranges_ok (lo hi : nat) (ts : list ranged) : Prop :=
  match ts with
  | [] => True
  | (_, (a, b)) :: ts' => lo <= a /\ a < b /\ b <= hi /\ ranges_ok b hi ts'
  end.

Lemma ranges_ok_weaken lo lo' hi ts : lo' <= lo -> ranges_ok lo hi ts -> ranges_ok lo' hi ts.
Proof.
  destruct ts as [|[t [a b]] ts]; cbn [ranges_ok]; [auto|].
  intros Hl (H1 & H2 & H3 & H4). repeat split; auto; lia.
Qed.

Lemma ranges_ok_In lo hi ts :
  ranges_ok lo hi ts -> forall t a b, In (t, (a, b)) ts -> lo <= a /\ a < b /\ b <= hi.
Proof.
  revert lo; induction ts as [|[t0 [a0 b0]] ts IH]; intros lo H t a b HIn; [destruct HIn|].
  cbn [ranges_ok] in H. destruct H as (H1 & H2 & H3 & H4).
  destruct HIn as [E|HIn].
  - inversion E; subst. lia.
  - specialize (IH _ H4 _ _ _ HIn). lia.
Qed.

Lemma ranges_ok_consecutive lo hi ts :
  ranges_ok lo hi ts ->
  forall l1 t1 a1 b1 t2 a2 b2 l2,
    ts = l1 ++ (t1, (a1, b1)) :: (t2, (a2, b2)) :: l2 -> b1 <= a2.
Proof.
  intros H l1; revert lo ts H; induction l1 as [|x l1 IH]; intros lo ts H t1 a1 b1 t2 a2 b2 l2 ->.
  - cbn in H. tauto.
  - destruct x as [t0 [a0 b0]]. cbn in H. destruct H as (_ & _ & _ & H).
    eapply IH; [exact H|reflexivity].
Qed.

Lemma ranges_ok_sorted lo hi ts :
  ranges_ok lo hi ts ->
  StronglySorted (fun x y => snd (snd x) <= fst (snd y)) ts.
Proof.
  revert lo; induction ts as [|[t0 [a0 b0]] ts IH]; intros lo H; [constructor|].
  cbn [ranges_ok] in H. destruct H as (H1 & H2 & H3 & H4). constructor; [eauto|].
  apply Forall_forall. intros [t [a b]] HIn. cbn.
  destruct (ranges_ok_In _ _ _ H4 _ _ _ HIn). lia.
Qed.

Lemma skipn_skipn' {A} (n m : nat) (l : list A) : skipn n (skipn m l) = skipn (m + n) l.
Proof.
  revert l; induction m as [|m IH]; intros l; [reflexivity|].
  destruct l as [|x l]; [now rewrite !skipn_nil|]. cbn [skipn Nat.add]. apply IH.
Qed.

Lemma skipn_nil_length {A} (n : nat) (l : list A) : skipn n l = [] <-> length l <= n.
Proof.
  split; [|apply skipn_all2].
  intros H. apply (f_equal (@length _)) in H. rewrite skipn_length in H. cbn in H. lia.
Qed.

Definition is_rem (t : token) : bool := match t with TRemark _ => true | _ => false end.
Definition is_data (t : token) : bool := match t with TData _ => true | _ => false end.

(* What a match of [n] bytes at the head of [s] satisfies.  Three kinds of end:
   a token of a matcher that reads through the cruncher, and a string, ends
   behind a non-blank ASCII byte; REM takes the rest of the text; DATA ends where
   its item parser stops, at the end of the text or in front of a colon. *)
Definition tok_spec (s : bytes) (t : token) (n : nat) : Prop :=
  1 <= n <= length s /\
  (is_rem t = false -> is_data t = false -> ends_nb s n) /\
  (is_rem t = true -> n = length s) /\
  (is_data t = true -> n = length s \/ nth_error s n = Some 58%N).

Lemma tok_spec_plain s t n :
  is_rem t = false -> is_data t = false -> ends_nb s n -> tok_spec s t n.
Proof.
  intros Hr Hd He. split; [exact (ends_nb_bounds _ _ He)|].
  split; [auto|]. split; congruence.
Qed.

Lemma tok_spec_nonverb s t n : verb_tok t = false -> ends_nb s n -> tok_spec s t n.
Proof. intros Hv. apply tok_spec_plain; destruct t; try reflexivity; discriminate Hv. Qed.

Lemma rem_data_ascii : all_ascii rem_keyword = true /\ all_ascii data_keyword = true.
Proof. vm_compute. split; reflexivity. Qed.

Lemma blank_ascii c : is_basic_ws c = true -> (c < 128)%N.
Proof. unfold is_basic_ws, is_ascii_ws. lia. Qed.

Lemma leading_ws_blank s i :
  i < leading_ws s -> exists c, nth_error s i = Some c /\ is_basic_ws c = true.
Proof.
  revert i; induction s as [|b s IH]; intros i; cbn [leading_ws]; [lia|].
  destruct (is_basic_ws b) eqn:Eb; [|lia].
  destruct i as [|i]; intros Hi; [exists b; auto|]. cbn [nth_error]. apply IH. lia.
Qed.

Lemma leading_ws_head s c r : skipn (leading_ws s) s = c :: r -> is_basic_ws c = false.
Proof.
  induction s as [|b s IH]; cbn [leading_ws]; [discriminate|].
  destruct (is_basic_ws b) eqn:Eb; cbn [skipn]; [exact IH|]. congruence.
Qed.

Lemma chomp_keyword_spec kw s n :
  all_ascii kw = true -> chomp_keyword kw s = Some n -> ends_nb s n.
Proof.
  intros Ha H. rewrite chomp_keyword_one in H. destruct (first_keyword _ s) as [[t k]|] eqn:E; [|discriminate].
  injection H as <-. refine (lifted_ends _ _ (first_keyword_lifted _) _ _ _ (anykwp_ends _ _) E).
  intros kw' t' [H|[]]. now injection H as <- _.
Qed.

Lemma chomp_any_keyword_spec s t n :
  chomp_any_keyword s = Some (t, n) -> verb_tok t = false /\ ends_nb s n.
Proof.
  intros H. split; [|exact (lifted_ends _ _ any_keyword_lifted s t n any_keyword_ends H)].
  apply first_keyword_In in H as (kw & Hin & _). now apply keywords_facts in Hin.
Qed.

Lemma chomp_one_or_two_spec s t n :
  chomp_one_or_two s = Some (t, n) -> verb_tok t = false /\ ends_nb s n.
Proof.
  intros H. split; [|exact (lifted_ends _ _ one_or_two_lifted s t n op12p_ends H)].
  rewrite one_or_two_lifted in H. destruct (op12p (nb s)) as [[t' k]|] eqn:E; [|discriminate].
  injection H as <- _. exact (proj1 (op12p_spec _ _ _ E)).
Qed.

Lemma find_quote_spec s k : find_quote s = Some k -> nth_error s k = Some 34%N.
Proof.
  revert k; induction s as [|b s IH]; intros k; cbn [find_quote]; [discriminate|].
  destruct (N.eqb_spec b 34) as [->|Hb].
  - intros H; inversion H; subst. reflexivity.
  - destruct (find_quote s) as [j|]; [|discriminate].
    intros H; inversion H; subst. cbn [nth_error]. auto.
Qed.

(* The match on the numeral 34 in [chomp_string] is a deep match on [positive]. *)
Lemma chomp_string_eq pos s :
  chomp_string pos s =
  match s with
  | b :: t =>
      if (b =? 34)%N then
        match find_quote t with
        | Some k => Match (TString (firstn k t)) (k + 2)
        | None => Fail (UnterminatedStringLiteral pos)
        end
      else NoMatch
  | [] => NoMatch
  end.
Proof.
  destruct s as [|b t]; [reflexivity|].
  destruct (N.eqb_spec b 34) as [->|Hb]; [reflexivity|].
  unfold chomp_string. destruct b as [|p]; [reflexivity|].
  do 6 (try (destruct p as [p|p|]; try reflexivity)). congruence.
Qed.

(* The three errors, as a matcher told position [pos] of the line reports them
   on the text [s] from there; [attempt_ok]: what one attempt may answer. *)
Definition err_at (pos : nat) (s : bytes) (e : tok_error) : Prop :=
  e = IllegalCharacter pos \/ e = UnterminatedStringLiteral pos
  \/ exists n, n <= length s /\ e = InvalidNumber pos (pos + n).

Definition attempt_ok (pos : nat) (s : bytes) (r : chomp token) : Prop :=
  match r with
  | Match t n => tok_spec s t n
  | Fail e => err_at pos s e
  | NoMatch => True
  end.

Lemma nb_ascii_quote : nb_ascii 34%N.
Proof. split; [reflexivity|lia]. Qed.

Lemma chomp_string_ok pos s : attempt_ok pos s (chomp_string pos s).
Proof.
  rewrite chomp_string_eq. destruct s as [|b r]; [exact I|]. destruct (b =? 34)%N; [|exact I].
  destruct (find_quote r) as [k|] eqn:Ek; cbn [attempt_ok]; [|right; left; reflexivity].
  apply tok_spec_plain; try reflexivity. apply find_quote_spec in Ek. exists (S k), 34%N.
  split; [lia|]. split; [exact Ek|apply nb_ascii_quote].
Qed.

Lemma chomp_number_ok pos s : attempt_ok pos s (chomp_number pos s).
Proof.
  rewrite chomp_number_eq. destruct (number_m s) as [[d n]|] eqn:E; [|exact I].
  apply (lifted_ends _ _ number_lifted _ _ _ nump_ends) in E. destruct (num_val d); cbn [attempt_ok].
  - now apply tok_spec_plain.
  - right. right. exists n. split; [apply (ends_nb_bounds _ _ E)|reflexivity].
Qed.

Lemma chomp_remark_ok pos s : attempt_ok pos s (chomp_remark s).
Proof.
  unfold chomp_remark. destruct (chomp_keyword rem_keyword s) as [k|] eqn:Ek; [|exact I].
  apply chomp_keyword_spec in Ek; [|apply rem_data_ascii]. apply ends_nb_bounds in Ek.
  cbn [attempt_ok]. rewrite skipn_length.
  split; [lia|]. split; [discriminate|]. split; [intros _; lia|discriminate].
Qed.

Lemma chomp_remark_fail s e : chomp_remark s <> Fail e.
Proof. unfold chomp_remark. destruct (chomp_keyword rem_keyword s); discriminate. Qed.

Lemma chomp_data_ok pos s : attempt_ok pos s (chomp_data s).
Proof.
  unfold chomp_data. destruct (chomp_keyword data_keyword s) as [k|] eqn:Ek; [|exact I].
  destruct (parse_data (skipn k s)) as [elems m] eqn:Ep. cbn [attempt_ok].
  apply chomp_keyword_spec, ends_nb_bounds in Ek; [|apply rem_data_ascii].
  apply parse_data_stop in Ep. rewrite skipn_length, nth_error_skipn in Ep.
  split; [lia|]. split; [discriminate|]. split; [discriminate|]. intros _. destruct Ep as [_ [E|E]]; [left; lia|now right].
Qed.

Lemma chomp_data_fail s e : chomp_data s <> Fail e.
Proof.
  unfold chomp_data. destruct (chomp_keyword data_keyword s); [|discriminate].
  destruct (parse_data _); discriminate.
Qed.

Lemma chomp_symbol_ok pos s : attempt_ok pos s (chomp_symbol s).
Proof.
  rewrite chomp_symbol_eq. destruct (symbol_m s) as [[ch n]|] eqn:E; [|exact I].
  apply (lifted_ends _ _ symbol_lifted _ _ _ symbolp_ends) in E. now apply tok_spec_plain.
Qed.

Lemma chomp_symbol_fail s e : chomp_symbol s <> Fail e.
Proof.
  unfold chomp_symbol. destruct (symbol_span s [] 0 0) as [[|x chars] k]; discriminate.
Qed.

(* A fact about [chomp_next_token] is a fact about each attempt, lifted by
   [first_hit_all] (one text) or [first_hit_rel] (two texts). *)

Fixpoint first_hit (rs : list (chomp token)) : chomp token :=
  match rs with
  | [] => NoMatch
  | NoMatch :: rs' => first_hit rs'
  | r :: _ => r
  end.

Definition of_opt (o : option (token * nat)) : chomp token :=
  match o with Some (t, n) => Match t n | None => NoMatch end.

Definition attempts (pos : nat) (s : bytes) : list (chomp token) :=
  [of_opt (chomp_any_keyword s); of_opt (chomp_one_or_two s); chomp_string pos s;
   chomp_number pos s; chomp_remark s; chomp_data s; chomp_symbol s].

Lemma chomp_next_token_eq pos s :
  chomp_next_token pos s =
  match first_hit (attempts pos s) with NoMatch => Fail (IllegalCharacter pos) | r => r end.
Proof.
  unfold chomp_next_token, attempts.
  destruct (chomp_any_keyword s) as [[? ?]|]; [reflexivity|].
  destruct (chomp_one_or_two s) as [[? ?]|]; [reflexivity|].
  destruct (chomp_string pos s); try reflexivity.
  destruct (chomp_number pos s); try reflexivity.
  destruct (chomp_remark s); try reflexivity.
  destruct (chomp_data s); try reflexivity.
  destruct (chomp_symbol s); reflexivity.
Qed.

Lemma first_hit_all (P : chomp token -> Prop) rs : P NoMatch -> Forall P rs -> P (first_hit rs).
Proof.
  intros H0 H. induction H as [|r rs Hr _ IH]; [exact H0|]. destruct r; [exact IH|exact Hr|exact Hr].
Qed.

(* [Rel] relates what an attempt says on one text to what it says on another;
   an attempt that finds nothing on the first must find nothing on the second. *)
Lemma first_hit_rel (Rel : chomp token -> chomp token -> Prop) rs rs' :
  (forall r', Rel NoMatch r' -> r' = NoMatch) -> Forall2 Rel rs rs' ->
  match first_hit rs with
  | NoMatch => first_hit rs' = NoMatch
  | r => exists r', Rel r r' /\ (r' <> NoMatch -> first_hit rs' = r')
  end.
Proof.
  intros H0 H. induction H as [|r r' rs rs' Hr _ IH]; [reflexivity|].
  destruct r; cbn [first_hit]; [rewrite (H0 _ Hr); exact IH| |];
    (exists r'; split; [exact Hr|]; destruct r'; [congruence|reflexivity|reflexivity]).
Qed.

Lemma chomp_next_token_spec pos s :
  match chomp_next_token pos s with
  | Match t n => tok_spec s t n
  | Fail e => err_at pos s e
  | NoMatch => False
  end.
Proof.
  rewrite chomp_next_token_eq.
  assert (H : attempt_ok pos s (first_hit (attempts pos s))).
  { apply first_hit_all; [exact I|].
    repeat constructor; [| |apply chomp_string_ok|apply chomp_number_ok|apply chomp_remark_ok
                         |apply chomp_data_ok|apply chomp_symbol_ok].
    - destruct (chomp_any_keyword s) as [[t n]|] eqn:E; [|exact I].
      apply chomp_any_keyword_spec in E. now apply tok_spec_nonverb.
    - destruct (chomp_one_or_two s) as [[t n]|] eqn:E; [|exact I].
      apply chomp_one_or_two_spec in E. now apply tok_spec_nonverb. }
  destruct (first_hit _); [left; reflexivity|exact H|exact H].
Qed.

(* The position a matcher is told only labels its failures. *)
Definition add_e (d : nat) (e : tok_error) : tok_error :=
  match e with
  | IllegalCharacter i => IllegalCharacter (d + i)
  | UnterminatedStringLiteral i => UnterminatedStringLiteral (d + i)
  | InvalidNumber a b => InvalidNumber (d + a) (d + b)
  end.

Definition add_fail (d : nat) (r : chomp token) : chomp token :=
  match r with Fail e => Fail (add_e d e) | _ => r end.

Lemma chomp_string_shift d p s : chomp_string (d + p) s = add_fail d (chomp_string p s).
Proof.
  rewrite !chomp_string_eq. destruct s as [|b r]; [reflexivity|].
  destruct (b =? 34)%N; [destruct (find_quote r)|]; reflexivity.
Qed.

Lemma chomp_number_shift d p s : chomp_number (d + p) s = add_fail d (chomp_number p s).
Proof.
  rewrite !chomp_number_eq. destruct (number_m s) as [[dg n]|]; [|reflexivity].
  destruct (num_val dg); cbn [add_fail add_e]; now rewrite ?Nat.add_assoc.
Qed.

Lemma chomp_next_token_shift d p s : chomp_next_token (d + p) s = add_fail d (chomp_next_token p s).
Proof.
  rewrite !chomp_next_token_eq.
  assert (F : Forall2 (fun r r' => r' = add_fail d r) (attempts p s) (attempts (d + p) s)).
  { repeat constructor; [| |apply chomp_string_shift|apply chomp_number_shift| | |].
    - now destruct (chomp_any_keyword s) as [[? ?]|].
    - now destruct (chomp_one_or_two s) as [[? ?]|].
    - destruct (chomp_remark s) eqn:E; [reflexivity|reflexivity|now apply chomp_remark_fail in E].
    - destruct (chomp_data s) eqn:E; [reflexivity|reflexivity|now apply chomp_data_fail in E].
    - destruct (chomp_symbol s) eqn:E; [reflexivity|reflexivity|now apply chomp_symbol_fail in E]. }
  apply (first_hit_rel _ _ _ (fun _ H => H)) in F.
  destruct (first_hit (attempts p s)); [now rewrite F| |]; destruct F as (r' & -> & Hf);
    now rewrite Hf by discriminate.
Qed.

Definition prepend (l : list ranged) (r : tok_result) : tok_result :=
  match r with
  | TokOk ts => TokOk (l ++ ts)
  | TokErr ts e => TokErr (l ++ ts) e
  end.

Fixpoint tok_from (fuel : nat) (pos : nat) (s : bytes) : tok_result :=
  match fuel with
  | O => TokOk []
  | S fuel' =>
      let p1 := pos + leading_ws s in
      let s1 := skipn (leading_ws s) s in
      match s1 with
      | [] => TokOk []
      | _ =>
          match chomp_next_token p1 s1 with
          | Match t n => prepend [(t, (p1, p1 + n))] (tok_from fuel' (p1 + n) (skipn n s1))
          | Fail e => TokErr [] e
          | NoMatch => TokErr [] (IllegalCharacter p1)
          end
      end
  end.

Lemma tokenize_from_tok_from : forall fuel pos s acc,
  tokenize_from fuel pos s acc = prepend (rev acc) (tok_from fuel pos s).
Proof.
  induction fuel as [|fuel IH]; intros pos s acc; cbn [tokenize_from tok_from prepend].
  - now rewrite app_nil_r.
  - destruct (skipn (leading_ws s) s) as [|c r] eqn:Es; cbn [prepend]; [now rewrite app_nil_r|].
    destruct (chomp_next_token _ _) as [|t n|e]; cbn [prepend]; try now rewrite app_nil_r.
    rewrite IH. cbn [rev]. destruct (tok_from _ _ _); cbn [prepend]; now rewrite <- app_assoc.
Qed.

Lemma tokenize_tok_from line skip :
  tokenize line skip = tok_from (S (length (skipn skip line))) skip (skipn skip line).
Proof.
  unfold tokenize. rewrite tokenize_from_tok_from. cbn [rev app]. now destruct (tok_from _ _ _).
Qed.

(* Every token consumes at least one byte, so fuel beyond the length is idle. *)
Lemma tok_from_fuel : forall f1 f2 pos s,
  length s < f1 -> length s < f2 -> tok_from f1 pos s = tok_from f2 pos s.
Proof.
  induction f1 as [|f1 IH]; intros f2 pos s H1 H2; [lia|].
  destruct f2 as [|f2]; [lia|]. cbn [tok_from].
  destruct (skipn (leading_ws s) s) as [|c r] eqn:Es; [reflexivity|]. rewrite <- Es.
  pose proof (chomp_next_token_spec (pos + leading_ws s) (skipn (leading_ws s) s)) as Hs.
  destruct (chomp_next_token _ _) as [|t n|e]; try reflexivity.
  destruct Hs as [Hn _]. rewrite skipn_length in Hn.
  f_equal. apply IH; rewrite !skipn_length; lia.
Qed.

Theorem tokenize_from_fuel : forall fuel pos s acc,
  length s < fuel ->
  tokenize_from fuel pos s acc = tokenize_from (S (length s)) pos s acc.
Proof. intros. rewrite !tokenize_from_tok_from. f_equal. apply tok_from_fuel; lia. Qed.

(* The tokenizer at a position of a line, without fuel. *)

Definition toks (line : bytes) (pos : nat) : tok_result :=
  tok_from (S (length line - pos)) pos (skipn pos line).

Lemma tokenize_toks line skip : tokenize line skip = toks line skip.
Proof. rewrite tokenize_tok_from. unfold toks. now rewrite skipn_length. Qed.

(* One step of [toks].  Its [NoMatch] branch is dead ([chomp_next_token_spec]);
   [toks_end], [toks_hit], [toks_fail] and [toks_ind] are the three live cases,
   and what a client should use. *)
Lemma toks_step line pos :
  toks line pos =
  let a := pos + leading_ws (skipn pos line) in
  if length line <=? a then TokOk [] else
  match chomp_next_token a (skipn a line) with
  | Match t n => prepend [(t, (a, a + n))] (toks line (a + n))
  | Fail e => TokErr [] e
  | NoMatch => TokErr [] (IllegalCharacter a)
  end.
Proof.
  unfold toks at 1. cbn [tok_from]. rewrite skipn_skipn'. cbv zeta.
  set (a := pos + leading_ws (skipn pos line)). assert (Ha : pos <= a) by (unfold a; lia).
  destruct (Nat.leb_spec (length line) a) as [Hle|Hlt].
  - now rewrite (proj2 (skipn_nil_length a line) Hle).
  - destruct (skipn a line) as [|c r] eqn:Es; [apply skipn_nil_length in Es; lia|]. rewrite <- Es.
    pose proof (chomp_next_token_spec a (skipn a line)) as Hs.
    destruct (chomp_next_token a (skipn a line)) as [|t n|e]; try reflexivity.
    destruct Hs as [Hn _]. rewrite skipn_length in Hn. rewrite skipn_skipn'.
    unfold toks. f_equal. apply tok_from_fuel; rewrite skipn_length; lia.
Qed.

Lemma toks_end line pos :
  length line <= pos + leading_ws (skipn pos line) -> toks line pos = TokOk [].
Proof. intros H. rewrite toks_step. cbv zeta. apply Nat.leb_le in H. now rewrite H. Qed.

Lemma toks_hit line pos t n :
  let a := pos + leading_ws (skipn pos line) in
  a < length line -> chomp_next_token a (skipn a line) = Match t n ->
  toks line pos = prepend [(t, (a, a + n))] (toks line (a + n)).
Proof. cbv zeta. intros Ha E. rewrite toks_step. cbv zeta. apply Nat.leb_gt in Ha. now rewrite Ha, E. Qed.

Lemma toks_fail line pos e :
  let a := pos + leading_ws (skipn pos line) in
  a < length line -> chomp_next_token a (skipn a line) = Fail e -> toks line pos = TokErr [] e.
Proof. cbv zeta. intros Ha E. rewrite toks_step. cbv zeta. apply Nat.leb_gt in Ha. now rewrite Ha, E. Qed.

Lemma toks_ind line (P : nat -> tok_result -> Prop) :
  (forall pos, length line <= pos + leading_ws (skipn pos line) -> P pos (TokOk [])) ->
  (forall pos t n, let a := pos + leading_ws (skipn pos line) in
     a < length line -> chomp_next_token a (skipn a line) = Match t n ->
     P (a + n) (toks line (a + n)) -> P pos (prepend [(t, (a, a + n))] (toks line (a + n)))) ->
  (forall pos e, let a := pos + leading_ws (skipn pos line) in
     a < length line -> chomp_next_token a (skipn a line) = Fail e -> P pos (TokErr [] e)) ->
  forall pos, P pos (toks line pos).
Proof.
  intros Hend Hcons Hfail.
  assert (H : forall k pos, length line - pos < k -> P pos (toks line pos)).
  { induction k as [|k IH]; intros pos Hk; [lia|]. rewrite toks_step. cbv zeta.
    destruct (Nat.leb_spec (length line) (pos + leading_ws (skipn pos line))) as [Hle|Hlt]; [now apply Hend|].
    pose proof (chomp_next_token_spec (pos + leading_ws (skipn pos line))
                  (skipn (pos + leading_ws (skipn pos line)) line)) as Hs.
    destruct (chomp_next_token _ _) as [|t n|e] eqn:E; [destruct Hs| |now apply Hfail].
    apply Hcons; [exact Hlt|exact E|]. destruct Hs as [Hn _]. apply IH. lia. }
  intros pos. apply (H (S (length line - pos))). lia.
Qed.

Definition result_toks (r : tok_result) : list ranged :=
  match r with TokOk ts | TokErr ts _ => ts end.

Lemma not_rem_data t :
  (forall c, t <> TRemark c) -> (forall d, t <> TData d) -> is_rem t = false /\ is_data t = false.
Proof. intros Hr Hd. destruct t; cbn; auto; [now destruct (Hr c)|now destruct (Hd d)]. Qed.

Section Chain.
Variable line : bytes.

(* Starting at [lo]: skip blanks, then the token the dispatcher finds there,
   and so on; [E] holds of the position where the list stops. *)
Fixpoint chain (E : nat -> Prop) (lo : nat) (ts : list ranged) : Prop :=
  match ts with
  | [] => E lo
  | (t, (a, b)) :: ts' =>
      a = lo + leading_ws (skipn lo line) /\ a < b
      /\ chomp_next_token a (skipn a line) = Match t (b - a) /\ chain E b ts'
  end.

(* Why the token list of result [r] stops at [lo]: behind the blanks the line
   ends, or the dispatcher fails there with the error of [r]. *)
Definition stops_at (r : tok_result) (lo : nat) : Prop :=
  let p := lo + leading_ws (skipn lo line) in
  match r with
  | TokOk _ => length line <= p
  | TokErr _ e => p < length line /\ chomp_next_token p (skipn p line) = Fail e
  end.

Lemma toks_chain pos : chain (stops_at (toks line pos)) pos (result_toks (toks line pos)).
Proof.
  apply (toks_ind line (fun pos r => chain (stops_at r) pos (result_toks r))); clear pos.
  - intros pos H. exact H.
  - intros pos t n a Ha E IH.
    pose proof (chomp_next_token_spec a (skipn a line)) as Hs. rewrite E in Hs. destruct Hs as [Hn _].
    assert (Hc : forall E' r, chain E' (a + n) (result_toks r) ->
                   chain E' pos (result_toks (prepend [(t, (a, a + n))] r))).
    { intros E' r H. destruct r; cbn [prepend result_toks app chain]; fold a;
        replace (a + n - a) with n by lia; (repeat split; [lia|exact E|exact H]). }
    apply Hc. revert IH. generalize (toks line (a + n)). intros r IH.
    destruct r; exact IH.
  - intros pos e a Ha E. split; assumption.
Qed.

Lemma tokenize_chain skip :
  chain (stops_at (tokenize line skip)) skip (result_toks (tokenize line skip)).
Proof. rewrite tokenize_toks. apply toks_chain. Qed.

Lemma link_spec t a b :
  chomp_next_token a (skipn a line) = Match t (b - a) ->
  b <= length line /\ tok_spec (skipn a line) t (b - a).
Proof.
  intros E. pose proof (chomp_next_token_spec a (skipn a line)) as Hs. rewrite E in Hs.
  split; [|exact Hs]. destruct Hs as [Hn _]. rewrite skipn_length in Hn. lia.
Qed.

Lemma chain_ranges_ok E : forall ts lo, chain E lo ts -> ranges_ok lo (length line) ts.
Proof.
  induction ts as [|[t [a b]] ts IH]; intros lo; cbn [chain ranges_ok]; [auto|].
  intros (-> & H1 & H2 & H3). destruct (link_spec _ _ _ H2). repeat split; auto; lia.
Qed.

Lemma chain_end E : forall ts lo,
  chain E lo ts ->
  exists lo', E lo' /\ lo <= lo' /\ forall t r, In (t, r) ts -> snd r <= lo'.
Proof.
  induction ts as [|[t [a b]] ts IH]; intros lo; cbn [chain].
  - intros H. exists lo. repeat split; auto. intros ? ? [].
  - intros (-> & H1 & _ & H3). destruct (IH _ H3) as (lo' & HE & Hle & Hin).
    exists lo'. repeat split; auto; [lia|].
    intros t' r' [Eq|HIn]; [inversion Eq; subst; cbn; lia|eauto].
Qed.

(* What holds of every token of a chain: it stands behind the blanks that
   follow some position, and it is what the dispatcher finds there. *)
Definition link (r : ranged) : Prop :=
  let '(t, (a, b)) := r in
  (exists lo, a = lo + leading_ws (skipn lo line)) /\ a < b
  /\ chomp_next_token a (skipn a line) = Match t (b - a).

Lemma chain_links E : forall ts lo r, chain E lo ts -> In r ts -> link r.
Proof.
  induction ts as [|[t0 [a0 b0]] ts IH]; intros lo r; cbn [chain]; [intros _ []|].
  intros (H0 & H1 & H2 & H4) [<-|HIn]; [cbn; eauto|eauto].
Qed.

Lemma result_links skip r : In r (result_toks (tokenize line skip)) -> link r.
Proof. apply chain_links with (1 := tokenize_chain skip). Qed.

Lemma link_first_nonblank t a b :
  link (t, (a, b)) -> exists c, nth_error line a = Some c /\ is_basic_ws c = false.
Proof.
  intros ((lo & Ha) & Hab & Hm). destruct (link_spec _ _ _ Hm) as [Hb _].
  destruct (skipn a line) as [|c r] eqn:Es; [apply skipn_nil_length in Es; lia|].
  exists c. split.
  - rewrite <- (Nat.add_0_r a), <- nth_error_skipn, Es. reflexivity.
  - rewrite Ha, <- skipn_skipn' in Es. eapply leading_ws_head; eauto.
Qed.

Lemma link_last_nonblank t a b :
  link (t, (a, b)) -> (forall c, t <> TRemark c) -> (forall d, t <> TData d) ->
  exists c, nth_error line (b - 1) = Some c /\ is_basic_ws c = false.
Proof.
  intros (_ & Hab & Hm) Hr Hd. destruct (link_spec _ _ _ Hm) as [_ (_ & Hs & _)].
  destruct (not_rem_data t Hr Hd) as [Hr' Hd'].
  destruct (Hs Hr' Hd') as (m & c & Hm' & Hn & Hnb & _).
  exists c. rewrite nth_error_skipn in Hn. replace (b - 1) with (a + m) by lia. auto.
Qed.

Lemma link_remark_end c a b : link (TRemark c, (a, b)) -> b = length line.
Proof.
  intros (_ & Hab & Hm). destruct (link_spec _ _ _ Hm) as [Hb (_ & _ & Hs & _)].
  specialize (Hs eq_refl). rewrite skipn_length in Hs. lia.
Qed.

End Chain.

(* The tokenizer from another position: on a text whose rest is the same, the
   same result moved ([toks_suffix]); from inside the blanks in front of a
   token, the same result ([toks_from_blank]). *)
Definition add_r (d : nat) (r : ranged) : ranged :=
  let '(t, (a, b)) := r in (t, (d + a, d + b)).

Definition add_res (d : nat) (r : tok_result) : tok_result :=
  match r with
  | TokOk ts => TokOk (map (add_r d) ts)
  | TokErr ts e => TokErr (map (add_r d) ts) (add_e d e)
  end.

Lemma tok_from_shift d : forall f p s, tok_from f (d + p) s = add_res d (tok_from f p s).
Proof.
  induction f as [|f IH]; intros p s; cbn [tok_from]; [reflexivity|].
  destruct (skipn (leading_ws s) s) as [|c r] eqn:Es; [reflexivity|]. rewrite <- Es.
  rewrite <- !Nat.add_assoc, chomp_next_token_shift.
  destruct (chomp_next_token (p + leading_ws s) _) as [|t n|e]; try reflexivity.
  cbn [add_fail]. rewrite <- (Nat.add_assoc d (p + leading_ws s) n), IH.
  destruct (tok_from f _ _); cbn [prepend add_res map app add_r]; reflexivity.
Qed.

Lemma toks_suffix line line' d p :
  skipn (d + p) line' = skipn p line -> toks line' (d + p) = add_res d (toks line p).
Proof.
  intros H. unfold toks. rewrite H, <- tok_from_shift. f_equal.
  apply (f_equal (@length _)) in H. rewrite !skipn_length in H. now rewrite H.
Qed.

Lemma leading_ws_skipn : forall s k, k <= leading_ws s -> k + leading_ws (skipn k s) = leading_ws s.
Proof.
  induction s as [|b s IH]; intros [|k] Hk; try reflexivity; cbn [leading_ws] in *; [lia|].
  destruct (is_basic_ws b); [|lia]. cbn [skipn Nat.add]. rewrite IH by lia. reflexivity.
Qed.

Lemma toks_from_blank line pos q :
  pos <= q <= pos + leading_ws (skipn pos line) -> toks line q = toks line pos.
Proof.
  intros Hq. rewrite (toks_step line q), (toks_step line pos).
  replace (q + leading_ws (skipn q line)) with (pos + leading_ws (skipn pos line)); [reflexivity|].
  replace q with (pos + (q - pos)) at 1 2 by lia. rewrite <- skipn_skipn'.
  rewrite <- (leading_ws_skipn (skipn pos line) (q - pos)) at 1 by lia. lia.
Qed.

Lemma toks_ranges line pos : ranges_ok pos (length line) (result_toks (toks line pos)).
Proof. eapply chain_ranges_ok, toks_chain. Qed.

Lemma fail_range line p e :
  p < length line -> chomp_next_token p (skipn p line) = Fail e ->
  let '(a, b) := error_range e (length line) in a = p /\ p <= b <= length line.
Proof.
  intros Hp Hf. pose proof (chomp_next_token_spec p (skipn p line)) as He. rewrite Hf in He.
  destruct He as [->|[->|[n [Hn ->]]]]; cbn [error_range]; try lia.
  rewrite skipn_length in Hn. lia.
Qed.

Theorem tokenize_ranges_ok : forall line skip ts,
  skip <= length line -> tokenize line skip = TokOk ts -> ranges_ok skip (length line) ts.
Proof.
  intros line skip ts _ H. pose proof (tokenize_chain line skip) as Hc. rewrite H in Hc.
  eapply chain_ranges_ok; eauto.
Qed.

Theorem tokenize_err_ranges_ok : forall line skip ts e,
  skip <= length line -> tokenize line skip = TokErr ts e ->
  ranges_ok skip (length line) ts
  /\ (let '(a, b) := error_range e (length line) in skip <= a /\ a < length line /\ a <= b)
  /\ (forall t r, In (t, r) ts -> snd r <= fst (error_range e (length line))).
Proof.
  intros line skip ts e _ H. pose proof (tokenize_chain line skip) as Hc. rewrite H in Hc.
  cbn [result_toks] in Hc. split; [eapply chain_ranges_ok; eauto|].
  destruct (chain_end _ _ _ _ Hc) as (lo' & [Hlt Hf] & Hle & Hin).
  pose proof (fail_range _ _ _ Hlt Hf) as Hr. destruct (error_range e (length line)) as [a b].
  destruct Hr as [-> Hb]. split; [lia|]. intros t r HIn. specialize (Hin _ _ HIn). cbn [fst]. lia.
Qed.

Theorem tokenize_err_end : forall line skip ts e,
  skip <= length line -> tokenize line skip = TokErr ts e ->
  snd (error_range e (length line)) <= length line.
Proof.
  intros line skip ts e _ H. pose proof (tokenize_chain line skip) as Hc. rewrite H in Hc.
  destruct (chain_end _ _ _ _ Hc) as (lo' & [Hlt Hf] & _ & _).
  pose proof (fail_range _ _ _ Hlt Hf) as Hr. destruct (error_range e (length line)) as [a b].
  cbn [snd]. lia.
Qed.

Theorem tokenize_first_nonblank : forall line skip ts,
  skip <= length line -> tokenize line skip = TokOk ts ->
  forall t a b, In (t, (a, b)) ts ->
  exists c, nth_error line a = Some c /\ is_basic_ws c = false.
Proof.
  intros line skip ts _ H t a b HIn. apply (link_first_nonblank line t a b), (result_links line skip). now rewrite H.
Qed.

Theorem tokenize_first_nonblank_err : forall line skip ts e,
  skip <= length line -> tokenize line skip = TokErr ts e ->
  forall t a b, In (t, (a, b)) ts ->
  exists c, nth_error line a = Some c /\ is_basic_ws c = false.
Proof.
  intros line skip ts e _ H t a b HIn. apply (link_first_nonblank line t a b), (result_links line skip). now rewrite H.
Qed.

Theorem tokenize_last_nonblank : forall line skip ts,
  skip <= length line -> tokenize line skip = TokOk ts ->
  forall t a b, In (t, (a, b)) ts ->
  (forall c, t <> TRemark c) -> (forall d, t <> TData d) ->
  exists c, nth_error line (b - 1) = Some c /\ is_basic_ws c = false.
Proof.
  intros line skip ts _ H t a b HIn. apply (link_last_nonblank line t a b), (result_links line skip). now rewrite H.
Qed.

Theorem tokenize_last_nonblank_err : forall line skip ts e,
  skip <= length line -> tokenize line skip = TokErr ts e ->
  forall t a b, In (t, (a, b)) ts ->
  (forall c, t <> TRemark c) -> (forall d, t <> TData d) ->
  exists c, nth_error line (b - 1) = Some c /\ is_basic_ws c = false.
Proof.
  intros line skip ts e _ H t a b HIn. apply (link_last_nonblank line t a b), (result_links line skip). now rewrite H.
Qed.

Theorem tokenize_remark_end : forall line skip ts,
  skip <= length line -> tokenize line skip = TokOk ts ->
  forall c a b, In (TRemark c, (a, b)) ts -> b = length line.
Proof.
  intros line skip ts _ H c a b HIn. apply (link_remark_end line c a b), (result_links line skip). now rewrite H.
Qed.

Theorem tokenize_remark_end_err : forall line skip ts e,
  skip <= length line -> tokenize line skip = TokErr ts e ->
  forall c a b, In (TRemark c, (a, b)) ts -> b = length line.
Proof.
  intros line skip ts e _ H c a b HIn. apply (link_remark_end line c a b), (result_links line skip). now rewrite H.
Qed.

(* One encoded character, as far as boundaries go: a lead byte (not a
   continuation byte), as many bytes as it announces, the others continuation
   bytes.  ([DataProofs.whole_char] asks for the length only.) *)
Definition good_char (c : bytes) : Prop :=
  match c with
  | [] => False
  | b0 :: tl => is_cont b0 = false /\ length c = utf8_len b0
                /\ Forall (fun b => is_cont b = true) tl
  end.

(* A sequence of [good_char]s: weaker than, and implied by, [valid_utf8]. *)
Inductive Valid : bytes -> Prop :=
| Valid_nil : Valid []
| Valid_cons c r : good_char c -> Valid r -> Valid (c ++ r).

Lemma lead_not_cont b : (b <? 128)%N = true \/ (b <? 194)%N = false -> is_cont b = false.
Proof. unfold is_cont. lia. Qed.

Lemma utf8_len_lead b : (b <? 194)%N = false ->
  utf8_len b = if (b <? 224)%N then 2 else if (b <? 240)%N then 3 else 4.
Proof. intros H. unfold utf8_len. destruct (N.ltb_spec b 192); [lia|reflexivity]. Qed.

Lemma valid_utf8_fuel_Valid : forall fuel s, valid_utf8_fuel fuel s = true -> Valid s.
Proof.
  induction fuel as [|fuel IH]; intros s; cbn [valid_utf8_fuel].
  - destruct s; [constructor|discriminate].
  - destruct s as [|b0 r]; [constructor|].
    destruct (b0 <? 128)%N eqn:E1.
    { intros H. apply (Valid_cons [b0] r); [|auto].
      split; [apply lead_not_cont; now left|]. split; [|constructor].
      cbn [length]. symmetry. apply utf8_len_ascii. lia. }
    destruct (b0 <? 194)%N eqn:E2; [discriminate|].
    pose proof (lead_not_cont b0 (or_intror E2)) as Hl. pose proof (utf8_len_lead b0 E2) as Hn.
    destruct (b0 <? 224)%N eqn:E3.
    { destruct r as [|b1 r]; [discriminate|]. intros H.
      apply andb_true_iff in H. destruct H as [H1 H].
      apply (Valid_cons [b0; b1] r); [|auto]. repeat split; auto. }
    destruct (b0 <? 240)%N eqn:E4.
    { destruct r as [|b1 [|b2 r]]; try discriminate. intros H.
      repeat (apply andb_true_iff in H; destruct H as [H ?]).
      apply (Valid_cons [b0; b1; b2] r); [|auto]. repeat split; auto.
      repeat constructor; try assumption. now apply andb_true_intro. }
    destruct (b0 <? 245)%N eqn:E5; [|discriminate].
    destruct r as [|b1 [|b2 [|b3 r]]]; try discriminate. intros H.
    repeat (apply andb_true_iff in H; destruct H as [H ?]).
    apply (Valid_cons [b0; b1; b2; b3] r); [|auto]. repeat split; auto.
    repeat constructor; try assumption. now apply andb_true_intro.
Qed.

Lemma valid_utf8_Valid s : valid_utf8 s = true -> Valid s.
Proof. apply valid_utf8_fuel_Valid. Qed.

(* [nc]: at [i] stands no continuation byte, or the text ends: [char_boundary]
   without its special case [i = 0]. *)
Definition nc (s : bytes) (i : nat) : Prop :=
  i = length s \/ exists b, nth_error s i = Some b /\ is_cont b = false.

Lemma char_boundary_nc s i : char_boundary s i = true <-> i = 0 \/ nc s i.
Proof.
  unfold char_boundary, nc. destruct i as [|i]; [tauto|].
  destruct (nth_error s (S i)) as [b|] eqn:E.
  - rewrite negb_true_iff. split.
    + intros H. right. right. eauto.
    + intros [H|[H|(b' & Hb & H)]]; [discriminate| |congruence].
      assert (S i < length s) by (apply nth_error_Some; congruence). lia.
  - rewrite Nat.eqb_eq. split; [tauto|].
    intros [H|[H|(b' & Hb & H)]]; [discriminate|auto|discriminate].
Qed.

Lemma Valid_nc_0 s : Valid s -> nc s 0.
Proof.
  intros [|c r Hc Hr]; [left; reflexivity|]. destruct c as [|b0 tl]; [destruct Hc|].
  right. exists b0. split; [reflexivity|apply Hc].
Qed.

Lemma Valid_char_boundary_nc s i : Valid s -> (char_boundary s i = true <-> nc s i).
Proof.
  intros Hv. rewrite char_boundary_nc. split; [|tauto].
  intros [->|H]; [now apply Valid_nc_0|exact H].
Qed.

Lemma nc_app c r i : nc (c ++ r) (length c + i) <-> nc r i.
Proof.
  unfold nc. rewrite app_length, nth_error_app2 by lia.
  replace (length c + i - length c) with i by lia. split; (intros [H|H]; [left; lia|right; exact H]).
Qed.

Lemma Valid_after_ascii s : Valid s -> forall i b,
  nth_error s i = Some b -> (b < 128)%N -> nc s (S i).
Proof.
  induction 1 as [|c r Hc Hr IH]; intros i b Hi Hb; [now destruct i|].
  destruct (Nat.lt_ge_cases i (length c)) as [Hlt|Hge].
  - destruct c as [|b0 tl]; [destruct Hc|]. destruct Hc as (_ & Hlen & Hf).
    destruct i as [|i].
    + cbn in Hi. inversion Hi; subst b0.
      assert (L : length (b :: tl) = 1).
      { rewrite Hlen. now apply utf8_len_ascii. }
      change 1 with (1 + 0) at 1. rewrite <- L at 1. apply nc_app. now apply Valid_nc_0.
    + cbn [app nth_error length] in *. rewrite nth_error_app1 in Hi by lia.
      apply nth_error_In in Hi. rewrite Forall_forall in Hf. apply Hf in Hi.
      unfold is_cont in Hi. lia.
  - rewrite nth_error_app2 in Hi by lia. specialize (IH _ _ Hi Hb).
    replace (S i) with (length c + S (i - length c)) by lia. now apply nc_app.
Qed.

(* Every start and end of a token is the start of the line, its end, the
   position behind an ASCII byte (a blank, the last byte of a token:
   [Valid_after_ascii]) or the position in front of one (the colon that ends
   DATA): these are boundaries of a valid text, whatever lies between them. *)
Section Boundaries.
Variable line : bytes.
Hypothesis Hvalid : Valid line.

Lemma nc_le i : nc line i -> i <= length line.
Proof.
  intros [->|(b & Hb & _)]; [lia|].
  assert (i < length line) by (apply nth_error_Some; congruence). lia.
Qed.

Lemma nc_skip_blanks lo : nc line lo -> nc line (lo + leading_ws (skipn lo line)).
Proof.
  intros Hlo. destruct (leading_ws (skipn lo line)) as [|w] eqn:Ew; [now rewrite Nat.add_0_r|].
  destruct (leading_ws_blank (skipn lo line) w) as (c & Hc & Hb); [lia|].
  rewrite nth_error_skipn in Hc. apply blank_ascii in Hb.
  replace (lo + S w) with (S (lo + w)) by lia. eapply Valid_after_ascii; eauto.
Qed.

Lemma nc_ends_nb a n : ends_nb (skipn a line) n -> nc line (a + n).
Proof.
  intros (m & c & -> & Hc & _ & Hlt). rewrite nth_error_skipn in Hc.
  replace (a + S m) with (S (a + m)) by lia. eapply Valid_after_ascii; eauto.
Qed.

Lemma nc_tok_spec t a b :
  a < b -> b <= length line -> tok_spec (skipn a line) t (b - a) -> nc line b.
Proof.
  intros Hab Hb (Hn & Hplain & Hrem & Hdata). rewrite skipn_length in *.
  destruct (is_rem t) eqn:Er; [|destruct (is_data t) eqn:Ed].
  - left. specialize (Hrem eq_refl). lia.
  - (* in front of the colon that stopped the item parser *)
    destruct (Hdata eq_refl) as [E|E]; [left; lia|right]. exists 58%N. rewrite nth_error_skipn in E.
    now replace (a + (b - a)) with b in E by lia.
  - replace b with (a + (b - a)) by lia. apply nc_ends_nb. auto.
Qed.

Lemma chain_boundaries E : forall ts lo,
  nc line lo -> chain line E lo ts ->
  (forall t a b, In (t, (a, b)) ts -> nc line a /\ nc line b)
  /\ exists lo', E lo' /\ nc line lo'.
Proof.
  induction ts as [|[t0 [a0 b0]] ts IH]; intros lo Hlo; cbn [chain].
  - intros H. split; [intros ? ? ? []|eauto].
  - intros (Ha & Hab & Hm & Hc). destruct (link_spec _ _ _ _ Hm) as [Hb Hs].
    assert (Na : nc line a0) by (rewrite Ha; now apply nc_skip_blanks).
    assert (Nb : nc line b0) by (eapply nc_tok_spec; eauto).
    destruct (IH _ Nb Hc) as [Hin Hend]. split; [|exact Hend].
    intros t a b [Eq|HIn]; [inversion Eq; subst; auto|eauto].
Qed.

End Boundaries.

Lemma result_char_boundaries line skip :
  valid_utf8 line = true -> char_boundary line skip = true ->
  (forall t a b, In (t, (a, b)) (result_toks (tokenize line skip)) ->
     char_boundary line a = true /\ char_boundary line b = true)
  /\ exists lo, stops_at line (tokenize line skip) lo
                /\ char_boundary line (lo + leading_ws (skipn lo line)) = true.
Proof.
  intros Hv Hb. apply valid_utf8_Valid in Hv. apply (Valid_char_boundary_nc _ _ Hv) in Hb.
  destruct (chain_boundaries line Hv _ _ _ Hb (tokenize_chain line skip)) as [Hin (lo & He & Hlo)].
  split.
  - intros t a b HIn. destruct (Hin _ _ _ HIn). split; now apply Valid_char_boundary_nc.
  - exists lo. split; [exact He|]. now apply Valid_char_boundary_nc, nc_skip_blanks.
Qed.

Theorem tokenize_char_boundaries : forall line skip ts,
  valid_utf8 line = true -> char_boundary line skip = true ->
  skip <= length line -> tokenize line skip = TokOk ts ->
  forall t a b, In (t, (a, b)) ts ->
  char_boundary line a = true /\ char_boundary line b = true.
Proof.
  intros line skip ts Hv Hb _ H t a b HIn.
  apply (proj1 (result_char_boundaries line skip Hv Hb) t a b). now rewrite H.
Qed.

Theorem tokenize_char_boundaries_err : forall line skip ts e,
  valid_utf8 line = true -> char_boundary line skip = true ->
  skip <= length line -> tokenize line skip = TokErr ts e ->
  (forall t a b, In (t, (a, b)) ts ->
     char_boundary line a = true /\ char_boundary line b = true)
  /\ char_boundary line (fst (error_range e (length line))) = true.
Proof.
  intros line skip ts e Hv Hb _ H. destruct (result_char_boundaries line skip Hv Hb) as [Hin (lo & He & Hlo)].
  rewrite H in Hin, He. split; [exact Hin|]. destruct He as [Hlt Hf].
  pose proof (fail_range _ _ _ Hlt Hf) as Hr. destruct (error_range e (length line)) as [a b].
  destruct Hr as [-> _]. exact Hlo.
Qed.

Print Assumptions tokenize_ranges_ok.
Print Assumptions tokenize_err_ranges_ok.
Print Assumptions tokenize_err_end.
Print Assumptions tokenize_first_nonblank.
Print Assumptions tokenize_first_nonblank_err.
Print Assumptions tokenize_last_nonblank.
Print Assumptions tokenize_last_nonblank_err.
Print Assumptions tokenize_remark_end.
Print Assumptions tokenize_remark_end_err.
Print Assumptions tokenize_from_fuel.
Print Assumptions tokenize_char_boundaries.
Print Assumptions tokenize_char_boundaries_err.
