(* The static analysis keeps every field of the interpreter state but the
   cursor, the hook counter, the function table and the DATA cursor ([AF]).  One
   walk, for any preorder the cursor operations respect. *)
From Coq Require Import List NArith ZArith Bool.
From Abasic Require Import Model.Token Model.State Model.Analyzer Proofs.Monad Proofs.Safety.
Import ListNotations.
Local Open Scope nat_scope.

Definition AF (s s' : interp) : Prop :=
  st_toks s' = st_toks s /\ st_keys s' = st_keys s /\ immediate s' = immediate s
  /\ breakpoint s' = breakpoint s /\ stack s' = stack s /\ loops s' = loops s
  /\ input s' = input s /\ outputs s' = outputs s /\ state s' = state s /\ rng s' = rng s
  /\ variables s' = variables s /\ arrays s' = arrays s
  /\ enable_warnings s' = enable_warnings s /\ enable_tracing s' = enable_tracing s
  /\ pow_oracle s' = pow_oracle s.

Lemma AF_refl s : AF s s.
Proof. unfold AF. repeat split. Qed.

Lemma AF_trans a b c : AF a b -> AF b c -> AF a c.
Proof.
  unfold AF. intros A B. decompose [and] A. decompose [and] B. repeat split; congruence.
Qed.

(* [AF] in the shape Safety's [orel_walk] takes; the outcome plays no part, and [orel RAF m] is [mrel AF m]
   by conversion, which is how [AF_cursor] below takes these lemmas *)
Definition RAF (s : interp) (r : res unit) (s' : interp) : Prop := AF s s'.

Lemma RAF_ocat : ocat RAF.
Proof. split; unfold RAF; intros; try apply AF_refl. eapply AF_trans; eassumption. Qed.

Lemma raf_modify f : (forall s, AF s (f s)) -> orel RAF (modify f).
Proof. intros H. apply orel_modify. exact H. Qed.

Ltac raf_frame := apply raf_modify; intros; unfold AF; repeat split; reflexivity.

Lemma raf_tokens_for_line l : orel RAF (tokens_for_line l).
Proof.
  intros s. unfold tokens_for_line.
  destruct l as [n|]; [destruct (toks_get n (st_toks s))|]; apply AF_refl.
Qed.

Lemma raf_lift_res {A} (r : res A) : orel RAF (lift_res r).
Proof. intros s. apply AF_refl. Qed.
Lemma raf_fail_at {A} e l : orel RAF (@fail_at A e l).
Proof. intros s. apply AF_refl. Qed.
Lemma raf_panic {A} p : orel RAF (@panic A p).
Proof. intros s. apply AF_refl. Qed.

Create HintDb rafdb discriminated.
#[local] Hint Resolve raf_tokens_for_line raf_lift_res raf_fail_at raf_panic : rafdb.
Ltac raf_leaf := first [ solve [ auto 3 with rafdb nocore ] | solve [ raf_frame ] ].
Ltac raf_walk := orel_walk RAF_ocat raf_leaf.

Lemma raf_cur_tokens : orel RAF cur_tokens. Proof. unfold cur_tokens; raf_walk. Qed.
#[local] Hint Resolve raf_cur_tokens : rafdb.
Lemma raf_peek : orel RAF peek_next_token. Proof. unfold peek_next_token; raf_walk. Qed.
#[local] Hint Resolve raf_peek : rafdb.
Lemma raf_has_next : orel RAF has_next_token. Proof. unfold has_next_token; raf_walk. Qed.
Lemma raf_advance : orel RAF advance. Proof. unfold advance; raf_walk. Qed.
#[local] Hint Resolve raf_has_next raf_advance : rafdb.
Lemma raf_next_token : orel RAF next_token. Proof. unfold next_token; raf_walk. Qed.
#[local] Hint Resolve raf_next_token : rafdb.
Lemma raf_next_unwrapped : orel RAF next_unwrapped_token. Proof. unfold next_unwrapped_token; raf_walk. Qed.
#[local] Hint Resolve raf_next_unwrapped : rafdb.
Lemma raf_expect t : orel RAF (expect_next_token t). Proof. unfold expect_next_token; raf_walk. Qed.
Lemma raf_accept t : orel RAF (accept_next_token t). Proof. unfold accept_next_token; raf_walk. Qed.
Lemma raf_peek_is t : orel RAF (peek_is t). Proof. unfold peek_is; raf_walk. Qed.
Lemma raf_try {B} (g : token -> option B) : orel RAF (try_next_token g). Proof. unfold try_next_token; raf_walk. Qed.
Lemma raf_define_function n a : orel RAF (define_function n a). Proof. unfold define_function; raf_walk. Qed.
Lemma raf_reset_data : orel RAF reset_data_cursor. Proof. unfold reset_data_cursor; raf_walk. Qed.
Lemma raf_get {A} (f : interp -> A) : orel RAF (get f). Proof. apply (orel_get _ RAF_ocat). Qed.
Lemma raf_next_line : orel RAF next_line. Proof. unfold next_line; raf_walk. Qed.
#[local] Hint Resolve raf_expect raf_accept raf_peek_is raf_try raf_define_function
  raf_reset_data raf_get raf_next_line : rafdb.

Definition amrel (R : interp -> interp -> Prop) {A} (m : MA A) : Prop :=
  forall st, R (fst st) (fst (snd (m st))).

Section Rules.
  Variable R : interp -> interp -> Prop.
  Hypothesis PO : preorder R.

  Lemma amrel_ret {A} (a : A) : amrel R (aret a).
  Proof. intros st. apply (po_refl _ PO). Qed.
  Lemma amrel_fail {A} e : amrel R (@afail A e).
  Proof. intros st. apply (po_refl _ PO). Qed.
  Lemma amrel_log sym l w : amrel R (log_access sym l w).
  Proof. intros st. apply (po_refl _ PO). Qed.
  Lemma amrel_out_of_fuel {A} : amrel R (fun s : astate => (@OutOfFuel A, s)).
  Proof. intros st. apply (po_refl _ PO). Qed.
  Lemma amrel_lift {A} (m : M A) : mrel R m -> amrel R (lift m).
  Proof. intros H st. unfold lift. specialize (H (fst st)). destruct (m (fst st)) as [r p]. exact H. Qed.
  Lemma amrel_get {A} (f : interp -> A) : amrel R (lift (get f)).
  Proof. apply amrel_lift, (mrel_get _ PO). Qed.
  Lemma amrel_enter_nesting n : amrel R (enter_nesting n).
  Proof. unfold enter_nesting. destruct (Nat.eqb n max_nesting); [apply amrel_fail | apply amrel_ret]. Qed.
  Lemma amrel_bind {A B} (m : MA A) (f : A -> MA B) :
    amrel R m -> (forall a, amrel R (f a)) -> amrel R (abind m f).
  Proof.
    intros Hm Hf st. unfold abind. specialize (Hm st).
    destruct (m st) as [[a|e l|p| |] s1]; cbn [fst snd] in *; try exact Hm.
    eapply (po_trans _ PO); [exact Hm|apply Hf].
  Qed.
  Lemma amrel_repeat {S T} n (body : S -> MA (S + T)) :
    (forall acc, amrel R (body acc)) -> forall acc, amrel R (arepeat n body acc).
  Proof.
    intros Hb. induction n as [|n IH]; intros acc; cbn [arepeat].
    - apply amrel_out_of_fuel.
    - apply amrel_bind; [apply Hb|]. intros [acc'|r]; [apply IH|apply amrel_ret].
  Qed.
End Rules.

Record cursor_rel (R : interp -> interp -> Prop) : Prop := {
  cr_po : preorder R;
  cr_peek : mrel R peek_next_token;
  cr_next : mrel R next_token;
  cr_unw : mrel R next_unwrapped_token;
  cr_expect : forall t, mrel R (expect_next_token t);
  cr_accept : forall t, mrel R (accept_next_token t);
  cr_peek_is : forall t, mrel R (peek_is t);
  cr_try : forall B (g : token -> option B), mrel R (try_next_token g);
  cr_reset : mrel R reset_data_cursor }.

Create HintDb awalk discriminated.
#[export] Hint Resolve cr_po cr_peek cr_next cr_unw cr_expect cr_accept cr_peek_is cr_try cr_reset : awalk.

(* a call is looked up in [awalk]; depth 3: its lemma, [cursor_rel R], a hypothesis *)
Ltac amrel_step PO :=
  lazymatch goal with
  | |- amrel _ (aret _) => apply (amrel_ret _ PO)
  | |- amrel _ (afail _) => apply (amrel_fail _ PO)
  | |- amrel _ (log_access _ _ _) => apply (amrel_log _ PO)
  | |- amrel _ (lift (get _)) => apply (amrel_get _ PO)
  | |- amrel _ (lift _) => apply amrel_lift
  | |- amrel _ (abind _ _) => apply (amrel_bind _ PO); [| intro]
  | |- amrel _ (arepeat _ _ _) => apply (amrel_repeat _ PO); intro
  | |- amrel _ (match ?x with _ => _ end) => destruct x
  | |- _ => solve [ auto 3 with awalk nocore ]
  end.
Ltac amrel_walk PO := repeat (amrel_step PO).

Section Walk.
  Variable R : interp -> interp -> Prop.
  Hypothesis CR : cursor_rel R.
  Let PO := cr_po R CR.
  Ltac w_walk := amrel_walk PO.

  Lemma amrel_check t e : amrel R (check t e).
  Proof. unfold check; w_walk. Qed.
  Lemma amrel_check_number t : amrel R (check_number t).
  Proof. apply amrel_check. Qed.
  Lemma amrel_prev_loc : amrel R prev_loc.
  Proof. unfold prev_loc, aget_loc; w_walk. Qed.
  Hint Resolve amrel_check amrel_check_number amrel_prev_loc : awalk.

  Section AExpr.
    Variable fuel : nat.
    Variable rec : MA vtype.
    Hypothesis Hrec : amrel R rec.

    Lemma w_array_index : amrel R (an_array_index fuel rec).
    Proof. unfold an_array_index; w_walk. Qed.
    Lemma w_unary_arg : amrel R (an_unary_number_function_arg rec).
    Proof. unfold an_unary_number_function_arg; w_walk. Qed.
    Lemma w_check_arguments args : forall i n, amrel R (an_check_arguments rec args i n).
    Proof. induction args as [|a args IH]; intros i n; cbn [an_check_arguments]; w_walk. Qed.
    Hint Resolve w_array_index w_unary_arg w_check_arguments : awalk.
    Lemma w_user_function_call name l : amrel R (an_user_function_call rec name l).
    Proof. unfold an_user_function_call; w_walk. Qed.
    Hint Resolve w_user_function_call : awalk.
    Lemma w_function_call name l : amrel R (an_function_call rec name l).
    Proof. unfold an_function_call; w_walk. Qed.
    Hint Resolve w_function_call : awalk.
    Lemma w_term : amrel R (an_term fuel rec).
    Proof. unfold an_term; w_walk. Qed.
    Hint Resolve w_term : awalk.
    Lemma w_paren : amrel R (an_paren fuel rec).
    Proof. unfold an_paren; w_walk. Qed.
    Hint Resolve w_paren : awalk.
    Lemma w_unary : amrel R (an_unary fuel rec).
    Proof. unfold an_unary; w_walk. Qed.
    Lemma w_tier {O} (get_op : MA (option O)) operand comb :
      amrel R get_op -> amrel R operand -> (forall a b, amrel R (comb a b)) ->
      amrel R (an_tier fuel get_op operand comb).
    Proof. intros H1 H2 H3. unfold an_tier; w_walk. Qed.
    Lemma w_accept_as t : amrel R (an_accept_as t).
    Proof. unfold an_accept_as; w_walk. Qed.
    Lemma w_both_numbers v w : amrel R (both_numbers v w).
    Proof. unfold both_numbers; w_walk. Qed.
    Hint Resolve w_unary w_accept_as w_both_numbers : awalk.

    Lemma w_exponent : amrel R (an_exponent fuel rec).
    Proof. apply w_tier; intros; w_walk. Qed.
    Lemma w_muldiv : amrel R (an_muldiv fuel rec).
    Proof. apply w_tier; [| apply w_exponent |]; intros; w_walk. Qed.
    Lemma w_addsub : amrel R (an_addsub fuel rec).
    Proof. apply w_tier; [| apply w_muldiv |]; intros; w_walk. Qed.
    Lemma w_equality : amrel R (an_equality fuel rec).
    Proof. apply w_tier; [| apply w_addsub |]; intros; w_walk. Qed.
    Lemma w_and : amrel R (an_and fuel rec).
    Proof. apply w_tier; [| apply w_equality |]; intros; w_walk. Qed.
    Lemma w_or : amrel R (an_or fuel rec).
    Proof. apply w_tier; [| apply w_and |]; intros; w_walk. Qed.
  End AExpr.

  Lemma w_analyze_expression fuel : forall n, amrel R (analyze_expression fuel n).
  Proof.
    induction fuel as [|k IH]; intros n; cbn [analyze_expression].
    - apply (amrel_out_of_fuel _ PO).
    - destruct (Nat.eqb n max_nesting); [apply (amrel_fail _ PO)|]. apply w_or, IH.
  Qed.

  Section AStmt.
    Variable fuel nest : nat.
    Variable rec : MA unit.
    Hypothesis Hrec : amrel R rec.

    Lemma w_aexpr : amrel R (aexpr fuel nest).
    Proof. apply w_analyze_expression. Qed.
    Hint Resolve w_aexpr : awalk.

    Lemma w_optional_index : amrel R (an_optional_array_index fuel nest).
    Proof. unfold an_optional_array_index; w_walk. apply w_array_index, w_aexpr. Qed.
    Lemma w_goto_or_gosub : amrel R an_goto_or_gosub.
    Proof. unfold an_goto_or_gosub; w_walk. Qed.
    Hint Resolve w_optional_index w_goto_or_gosub : awalk.
    Lemma w_statement_or_goto : amrel R (an_statement_or_goto rec).
    Proof. unfold an_statement_or_goto; w_walk. Qed.
    Hint Resolve w_statement_or_goto : awalk.
    Lemma w_if : amrel R (an_if fuel nest rec).
    Proof. unfold an_if; w_walk. Qed.
    Lemma w_assign lv t : amrel R (an_assign lv t).
    Proof. unfold an_assign; w_walk. Qed.
    Hint Resolve w_assign : awalk.
    Lemma w_assignment sym : amrel R (an_assignment fuel nest sym).
    Proof. unfold an_assignment; w_walk. Qed.
    Hint Resolve w_assignment : awalk.
    Lemma w_let : amrel R (an_let fuel nest).
    Proof. unfold an_let; w_walk. Qed.
    Lemma w_parse_lvalue : amrel R (an_parse_lvalue fuel nest).
    Proof. unfold an_parse_lvalue; w_walk. Qed.
    Hint Resolve w_parse_lvalue : awalk.
    Lemma w_read : amrel R (an_read fuel nest).
    Proof. unfold an_read; w_walk. Qed.
    Lemma w_input : amrel R (an_input fuel nest).
    Proof. unfold an_input; w_walk. Qed.
    Lemma w_dim : amrel R (an_dim fuel nest).
    Proof. unfold an_dim; w_walk. Qed.
    Lemma w_print : amrel R (an_print fuel nest).
    Proof. unfold an_print; w_walk. Qed.
    Lemma w_for : amrel R (an_for fuel nest).
    Proof. unfold an_for; w_walk. Qed.
    Lemma w_next : amrel R an_next.
    Proof. unfold an_next; w_walk. Qed.
    Lemma w_def : (forall n a, mrel R (define_function n a)) -> amrel R (an_def fuel nest).
    Proof. intros Hdef. unfold an_def; w_walk. Qed.
    Hint Resolve w_if w_let w_read w_input w_dim w_print w_for w_next : awalk.

    (* DEF is the one statement whose effect (define_function) not every [R]
       of interest respects; what is asked of it may depend on the state in
       which DEF was read. *)
    Lemma w_statement_rest st t s1 : next_token (fst st) = (Ok t, s1) ->
      (t = Some TDef -> R s1 (fst (snd (an_def fuel nest (s1, snd st))))) ->
      R s1 (fst (snd (an_statement_body fuel nest rec st))).
    Proof.
      intros E Hd. unfold an_statement_body, abind. unfold lift at 1. rewrite E. cbn [fst snd].
      assert (K : forall m : MA unit, amrel R m -> R s1 (fst (snd (m (s1, snd st)))))
        by (intros m Hm; exact (Hm (s1, snd st))).
      destruct t as [[]|]; try (apply K; solve [w_walk]).
      exact (Hd eq_refl).
    Qed.

    Lemma w_statement_body :
      (forall s s1 acc, next_token s = (Ok (Some TDef), s1) ->
         R s (fst (snd (an_def fuel nest (s1, acc))))) ->
      amrel R (an_statement_body fuel nest rec).
    Proof.
      intros Hdef st. pose proof (cr_next R CR (fst st)) as H1.
      destruct (next_token (fst st)) as [r s1] eqn:E.
      assert (Hr : forall t, r = Ok t -> t <> Some TDef -> R (fst st) (fst (snd (an_statement_body fuel nest rec st)))).
      { intros t -> Ht. exact (po_trans _ PO _ _ _ H1 (w_statement_rest st t s1 E (fun e => match Ht e with end))). }
      destruct r as [[[]|]|e l|p| |]; try (eapply Hr; [reflexivity|discriminate]).
      (* left: DEF, which is the caller's, and a read that gives no token, where the body ends as the read left it *)
      1: { unfold an_statement_body, abind. unfold lift at 1. rewrite E. exact (Hdef _ _ _ E). }
      all: unfold an_statement_body, abind, lift; rewrite E; exact H1.
    Qed.
  End AStmt.

  Lemma w_def_read : (forall n a, mrel R (define_function n a)) ->
    forall fuel nest s s1 acc, next_token s = (Ok (Some TDef), s1) ->
    R s (fst (snd (an_def fuel nest (s1, acc)))).
  Proof.
    intros Hd fuel nest s s1 acc E. pose proof (cr_next R CR s) as H. rewrite E in H.
    exact (po_trans _ PO _ _ _ H (w_def fuel nest Hd (s1, acc))).
  Qed.

  Hypothesis Hdef : forall fuel nest s s1 acc, next_token s = (Ok (Some TDef), s1) ->
    R s (fst (snd (an_def fuel nest (s1, acc)))).

  Lemma w_analyze_statement fuel : forall n, amrel R (analyze_statement fuel n).
  Proof.
    induction fuel as [|k IH]; intros n; cbn [analyze_statement].
    - apply (amrel_out_of_fuel _ PO).
    - destruct (Nat.eqb n max_nesting); [apply (amrel_fail _ PO)|]. apply w_statement_body; [apply IH|apply Hdef].
  Qed.

  Hypothesis Hhas : mrel R has_next_token.

  Lemma w_walk_line fuel m : forall stmts st, R (fst st) (fst (snd (walk_line fuel stmts m st))).
  Proof.
    induction stmts as [|k IH]; intros st; cbn [walk_line]; [apply (po_refl _ PO)|].
    pose proof (Hhas (fst st)) as H1.
    destruct (has_next_token (fst st)) as [[[|]|e l|p| |] p1]; cbn [fst snd] in *; try exact H1.
    pose proof (po_trans _ PO _ _ _ H1 (w_analyze_statement fuel 0 (p1, snd st))) as H2.
    destruct (analyze_statement fuel 0 (p1, snd st)) as [[u|e l|p| |] st']; cbn [fst snd] in *; try exact H2.
    - eapply (po_trans _ PO); [exact H2|apply IH].
    - destruct (populate_error_location e l (fst st')) as [l0|]; [|exact H2].
      destruct (map_location_to_source m l0) as [[fl r]|]; exact H2.
  Qed.

  Hypothesis Hline : mrel R next_line.

  Lemma w_walk_lines fuel m : forall n msgs st, R (fst st) (fst (snd (walk_lines fuel n m msgs st))).
  Proof.
    induction n as [|n IH]; intros msgs st; cbn [walk_lines]; [apply (po_refl _ PO)|].
    pose proof (w_walk_line fuel m (S (length (match fst (cur_tokens (fst st)) with Ok ts => ts | _ => [] end))) st) as H1.
    destruct (walk_line fuel _ m st) as [[om|e l|p| |] st']; cbn [fst snd] in *; try exact H1.
    pose proof (po_trans _ PO _ _ _ H1 (Hline (fst st'))) as H2.
    destruct (next_line (fst st')) as [[[|]|e l|p| |] p1]; cbn [fst snd] in *; try exact H2.
    eapply (po_trans _ PO); [exact H2|]. apply (IH _ (p1, snd st')).
  Qed.
End Walk.

(* section hints end with the section; other files walk too *)
#[export] Hint Resolve amrel_ret amrel_fail amrel_log amrel_lift amrel_get
  amrel_check amrel_check_number amrel_prev_loc w_aexpr w_array_index w_unary_arg
  w_check_arguments w_user_function_call w_function_call w_term w_paren w_unary w_accept_as w_both_numbers
  w_exponent w_muldiv w_addsub w_equality w_and w_or
  w_analyze_expression w_optional_index w_goto_or_gosub w_statement_or_goto w_if w_assign w_assignment w_let
  w_parse_lvalue w_read w_input w_dim w_print w_for w_next : awalk.

Lemma AF_cursor : cursor_rel AF.
Proof.
  split; [split; [exact AF_refl|exact AF_trans] | exact raf_peek | exact raf_next_token
         | exact raf_next_unwrapped | exact raf_expect | exact raf_accept | exact raf_peek_is | exact @raf_try
         | exact raf_reset_data].
Qed.

Lemma af_def_read fuel nest s s1 acc : next_token s = (Ok (Some TDef), s1) ->
  AF s (fst (snd (an_def fuel nest (s1, acc)))).
Proof. exact (w_def_read AF AF_cursor raf_define_function fuel nest s s1 acc). Qed.

Lemma af_analyze_statement fuel n : amrel AF (analyze_statement fuel n).
Proof. exact (w_analyze_statement AF AF_cursor af_def_read fuel n). Qed.

Lemma af_walk_line fuel m stmts st : AF (fst st) (fst (snd (walk_line fuel stmts m st))).
Proof. exact (w_walk_line AF AF_cursor af_def_read raf_has_next fuel m stmts st). Qed.

Lemma af_walk_lines fuel m n msgs st : AF (fst st) (fst (snd (walk_lines fuel n m msgs st))).
Proof. exact (w_walk_lines AF AF_cursor af_def_read raf_has_next raf_next_line fuel m n msgs st). Qed.

Lemma af_walk_lines_eq fuel m n msgs p acc r msgs' st' :
  walk_lines fuel n m msgs (p, acc) = (r, msgs', st') -> AF p (fst st').
Proof. intros H. pose proof (af_walk_lines fuel m n msgs (p, acc)) as H0. rewrite H in H0. exact H0. Qed.
