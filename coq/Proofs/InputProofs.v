(* Proofs/InputProofs.v — the statement evaluator's head and the turn, in normal form (for every
   file that takes a statement or a turn apart); then the INPUT statement (C08).

   1. [statement_body_eq]: a statement is its trace record ([traced s]), its first token, and the one
   table [dispatch]; [statement_eq] says it in Safety's cursor vocabulary, [statement_head] (Section
   Engine) at ExprSem's [at_idx] states.  [rns_eq]: a turn counts a read, runs the statement under the
   cursor if there is one, then [after_statement], which on an existing line never fails and leaves
   [turn_end s].  Section IfScan: IF with the scan for ELSE as a loop of its own ([if_eq]).  ([trace_of] and
   [after_statement] are used in the statements of C08, which is why this part is not a file of its own.)

   2. Whenever a program reaches INPUT the interpreter reports that it awaits
   input, having changed nothing but the state flag (and the hook counters /
   the trace record); the cursor is left ON the INPUT token, so that after a
   reply exactly the INPUT statement is executed again, wherever it sits.
   A reply whose first item suits the target is stored exactly as the
   assignment of that value would store it; surplus items give EXTRA IGNORED;
   text offered to a numeric target gives REENTER and the same request again.
   The statements are equations: [evaluate_statement] on a state whose cursor
   is ON an INPUT token equals an explicit state, computed by symbolic
   execution over ExprSem's [at_idx] states (Section Engine). *)
From Coq Require Import List NArith ZArith Bool Lia.
From Abasic Require Import Model.Bytes Model.Token Model.Data Model.State Model.Eval Model.Interp Proofs.Monad
     Proofs.StoreProofs Proofs.ExprSem Proofs.Safety.
Import ListNotations.
Local Open Scope nat_scope.

(* The record a traced statement starts with. *)
Definition trace_of (s : interp) : list output :=
  if enable_tracing s
  then match loc_line (loc s) with Some n => [OTrace n] | None => [] end
  else [].

Lemma set_outputs_nil s : set_outputs (outputs s ++ []) s = s.
Proof. rewrite app_nil_r. destruct s; reflexivity. Qed.

Definition traced (s : interp) : interp := set_outputs (outputs s ++ trace_of s) s.

(* the head of [evaluate_statement_body], once the tracing flag is read *)
Lemma trace_prefix_eq s :
  (if enable_tracing s
   then (l <- get_line_number ;;
         match l with Some n => push_output (OTrace n) | None => ret tt end)
   else ret tt) s
  = (Ok tt, traced s).
Proof.
  unfold traced, trace_of, get_line_number. destruct (enable_tracing s); [|rewrite set_outputs_nil; reflexivity].
  rewrite bind_assoc, bind_get, bind_ret.
  destruct (loc_line (loc s)); [reflexivity|]. rewrite set_outputs_nil; reflexivity.
Qed.

(* what [evaluate_statement_body] does once it has read the statement's first token *)
Definition dispatch (f n : nat) (rec : M unit) (t : token) : M unit :=
  match t with
  | TStop => break_at_current_location
  | TDim => evaluate_dim_statement f n
  | TPrint | TQuestionMark => evaluate_print_statement f n
  | TInput => evaluate_input_statement f n
  | TIf => evaluate_if_statement f n rec
  | TGoto => evaluate_goto_statement
  | TGosub => evaluate_gosub_statement
  | TReturn => return_to_last_gosub
  | TEnd => program_end
  | TFor => evaluate_for_statement f n
  | TNext => evaluate_next_statement
  | TRestore => reset_data_cursor
  | TDef => evaluate_def_statement f
  | TRead => evaluate_read_statement f n
  | TRemark _ | TColon | TData _ => ret tt
  | TLet => evaluate_let_statement f n
  | TSymbol sym => evaluate_assignment_statement f n sym
  | TElse => b <- is_else_of_then_clause ;; if b then discard_remaining_tokens else fail EUnexpectedToken
  | _ => fail EUnexpectedToken
  end.


(* the statement evaluator: the trace record, the first token, the dispatch *)
Lemma statement_body_eq f n rec s :
  evaluate_statement_body f n rec s =
  (t <- next_token ;; match t with Some t => dispatch f n rec t | None => ret tt end) (traced s).
Proof.
  unfold evaluate_statement_body. rewrite bind_get, bind_run, trace_prefix_eq.
  apply bind_ext. intros [t|] s1; [destruct t|]; reflexivity.
Qed.

Lemma imm_line_exists s : loc_line (loc s) = None -> line_exists s (loc s).
Proof. intros Hl. unfold line_exists. rewrite Hl. exact I. Qed.

(* the trace switch is irrelevant on the immediate line *)
Lemma traced_imm s : loc_line (loc s) = None -> traced s = s.
Proof. intros Hl. unfold traced, trace_of. rewrite Hl. destruct (enable_tracing s); apply set_outputs_nil. Qed.

Lemma statement_eq f d s : line_exists s (loc s) -> Nat.eqb d max_nesting = false ->
  evaluate_statement (S f) d s =
  match nth_error (cur_toks s) (loc_idx (loc s)) with
  | Some t => dispatch f (S d) (evaluate_statement f (S d)) t (adv (traced s))
  | None => (Ok tt, bump (traced s))
  end.
Proof.
  intros Hl Hd. cbn [evaluate_statement]. rewrite Hd, statement_body_eq, bind_run, (next_token_eq (traced s) Hl).
  change (nth_error (cur_toks (traced s)) (loc_idx (loc (traced s)))) with (nth_error (cur_toks s) (loc_idx (loc s))).
  destruct (nth_error (cur_toks s) (loc_idx (loc s))); reflexivity.
Qed.

(* the fixed tail of [run_next_statement]: stay on the line, go to the next one, or return to Idle *)
Definition after_statement : M unit :=
  h2 <- has_next_token ;;
  if h2 then ret tt
  else
    n <- next_line ;;
    if n then ret tt
    else set_and_goto_immediate_line [] ;;; return_to_idle_state.

Lemma has_next_token_cases s :
  has_next_token s =
  (Ok (match nth_error (cur_toks s) (loc_idx (loc s)) with Some _ => true | None => false end), bump s)
  \/ ~ line_exists s (loc s) /\ exists p, has_next_token s = (Panic p, bump s).
Proof.
  unfold has_next_token, peek_next_token, cur_tokens, tokens_for_line, cur_toks, line_exists, line_ok.
  rewrite bind_run, bind_modify, bind_run, bind_get. fold (bump s). change (loc (bump s)) with (loc s).
  change (st_toks (bump s)) with (st_toks s). change (immediate (bump s)) with (immediate s).
  destruct (loc_line (loc s)) as [n|]; [|left; reflexivity].
  destruct (toks_get n (st_toks s)); [left; reflexivity | right; split; [intros H; exact (H eq_refl) | eexists; reflexivity]].
Qed.


(* The turn in normal form: count a read, run the statement the cursor is on (if
   any), then [after_statement], which on an existing line never fails and leaves
   [turn_end] (without the line already the first peek panics: the [_cases] forms). *)
Definition turn_end (s : interp) : interp :=
  match nth_error (cur_toks s) (loc_idx (loc s)) with
  | Some _ => bump s
  | None =>
      match match loc_line (loc s) with Some n => keys_after n (st_keys s) | None => None end with
      | Some n' => set_loc (mkloc (Some n') 0) (bump s)
      | None => set_state Idle (imm_reset [] (bump s))
      end
  end.

Lemma after_statement_cases s :
  after_statement s = (Ok tt, turn_end s)
  \/ ~ line_exists s (loc s) /\ exists p, after_statement s = (Panic p, bump s).
Proof.
  unfold after_statement, turn_end. rewrite bind_run.
  destruct (has_next_token_cases s) as [-> | (Hn & p & ->)]; [left | right; eauto].
  destruct (nth_error (cur_toks s) (loc_idx (loc s))); [reflexivity|].
  cbv iota. rewrite bind_run, next_line_cases. change (loc (bump s)) with (loc s).
  destruct (loc_line (loc s)) as [n|]; [|reflexivity].
  unfold store_after. change (st_keys (bump s)) with (st_keys s). destruct (keys_after n (st_keys s)); reflexivity.
Qed.

Lemma after_statement_eq s : line_exists s (loc s) -> after_statement s = (Ok tt, turn_end s).
Proof. intros H. destruct (after_statement_cases s) as [E | [Hn _]]; [exact E | contradiction]. Qed.

Definition turn_statement (fuel : nat) (s : interp) : M unit :=
  match nth_error (cur_toks s) (loc_idx (loc s)) with Some _ => evaluate_statement fuel 0 | None => ret tt end.

Lemma rns_cases fuel s :
  run_next_statement fuel s = (turn_statement fuel s ;;; after_statement) (bump (set_state Running s))
  \/ ~ line_exists s (loc s) /\ exists p, run_next_statement fuel s = (Panic p, bump (set_state Running s)).
Proof.
  unfold run_next_statement, turn_statement. rewrite bind_modify, bind_run.
  destruct (has_next_token_cases (set_state Running s)) as [-> | (Hn & p & ->)]; [left | right; eauto].
  change (nth_error (cur_toks (set_state Running s)) (loc_idx (loc (set_state Running s))))
    with (nth_error (cur_toks s) (loc_idx (loc s))).
  destruct (nth_error (cur_toks s) (loc_idx (loc s))); reflexivity.
Qed.

Lemma rns_eq fuel s : line_exists s (loc s) ->
  run_next_statement fuel s = (turn_statement fuel s ;;; after_statement) (bump (set_state Running s)).
Proof. intros H. destruct (rns_cases fuel s) as [E | [Hn _]]; [exact E | contradiction]. Qed.

Lemma rns_at_token fuel s t :
  line_exists s (loc s) -> nth_error (cur_toks s) (loc_idx (loc s)) = Some t ->
  run_next_statement fuel s = (evaluate_statement fuel 0 ;;; after_statement) (bump (set_state Running s)).
Proof. intros Hl Hi. rewrite (rns_eq fuel s Hl). unfold turn_statement. rewrite Hi. reflexivity. Qed.

(* IF in normal form.  The model (like the source) runs the ELSE clause inside the loop that scans for it; here the
   scan is a loop of its own that only moves the cursor and answers whether it stands behind an ELSE, and the clause
   (THEN's or ELSE's) comes after it, once.  A walk over IF is then an ordinary walk: the scan has no statement in it. *)
(* what IF does behind a clause it has run: a further ELSE belongs to an enclosing IF and takes the rest of the line *)
Definition else_probe : M unit := e <- peek_is TElse ;; if e then discard_remaining_tokens else ret tt.

Section IfScan.
  Variable rec : M unit.

  (* the false branch of [evaluate_if_statement fuel nest rec] is [repeat_m fuel if_scan_body tt] by conversion *)
  Definition if_scan_body (_ : unit) : M (unit + unit) :=
    t <- next_token ;;
    match t with
    | None => ret (inr tt)
    | Some TColon => discard_remaining_tokens ;;; ret (inl tt)
    | Some TElse =>
        statement_or_goto_line_number rec ;;;
        e <- peek_is TElse ;;
        (if e then discard_remaining_tokens else ret tt) ;;;
        ret (inr tt)
    | Some _ => ret (inl tt)
    end.

  (* the clause IF runs, then the look at what follows it *)
  Definition if_clause : M unit := statement_or_goto_line_number rec ;;; else_probe.

  (* every token but ':' and ELSE continues the scan, ':' discards the rest of the line first *)
  Definition else_scan_body (_ : unit) : M (unit + bool) :=
    t <- next_token ;;
    match t with
    | None => ret (inr false)
    | Some TColon => discard_remaining_tokens ;;; ret (inl tt)
    | Some TElse => ret (inr true)
    | Some _ => ret (inl tt)
    end.

  Lemma if_scan_eq : forall k u s,
    repeat_m k if_scan_body u s = (b <- repeat_m k else_scan_body u ;; if b then if_clause else ret tt) s.
  Proof.
    induction k as [|k IH]; intros u s; [reflexivity|].
    cbn [repeat_m]. unfold if_scan_body at 1, else_scan_body at 1. rewrite !bind_assoc. apply bind_ext.
    intros [t|] s1; [destruct t|]; try reflexivity; try apply (IH tt).
    - unfold bind at 1 2 3 4. destruct (discard_remaining_tokens s1) as [[[]|? ?|?| |] s2]; try reflexivity. apply (IH tt).
    - match goal with |- ?l = _ => change (l = if_clause s1) end. unfold if_clause. rewrite bind_assoc. apply bind_ext. intros _ s2.
      rewrite bind_assoc. apply bind_ext. intros e s3. rewrite bind_assoc.
      unfold bind, ret. destruct e; [destruct (discard_remaining_tokens s3) as [[[]|? ?|?| |] ?]|]; reflexivity.
  Qed.

  Lemma if_eq fuel nest s :
    evaluate_if_statement fuel nest rec s =
    (c <- evaluate_expression fuel nest ;; expect_next_token TThen ;;;
     b <- (if to_bool c then ret true else repeat_m fuel else_scan_body tt) ;;
     if b then if_clause else ret tt) s.
  Proof.
    unfold evaluate_if_statement. apply bind_ext. intros c s1. apply bind_ext. intros _ s2.
    destruct (to_bool c); [reflexivity | apply if_scan_eq].
  Qed.

  (* the model's own shape, with the names of this section *)
  Lemma if_unfold fuel nest : evaluate_if_statement fuel nest rec =
    (c <- Eval.expr fuel nest ;; expect_next_token TThen ;;; if to_bool c then if_clause else repeat_m fuel if_scan_body tt).
  Proof. reflexivity. Qed.

  (* the scan meets an ELSE: its clause runs from behind it, and the scan is over *)
  Lemma if_scan_else k s s1 : next_token s = (Ok (Some TElse), s1) -> repeat_m (S k) if_scan_body tt s = if_clause s1.
  Proof.
    intros H. rewrite if_scan_eq. cbn [repeat_m]. unfold else_scan_body at 1.
    rewrite !bind_assoc, (bind_ok _ _ _ _ _ H). reflexivity.
  Qed.
End IfScan.

(* The INPUT statement. *)

Lemma token_eqb_input t : token_eqb t TInput = true <-> t = TInput.
Proof. destruct t; cbn; split; intros H; try reflexivity; discriminate. Qed.

Lemma token_eqb_lparen t : token_eqb t TLeftParen = true <-> t = TLeftParen.
Proof. destruct t; cbn; split; intros H; try reflexivity; discriminate. Qed.

(* Value::coerce_from_data_element always produces a value of the variable's type *)
Lemma coerce_data_type_matches v e val : coerce_data v e = Ok val -> type_matches v val = true.
Proof.
  unfold coerce_data, type_matches. destruct (ends_with_dollar v) eqn:E, e; intros H;
    inversion H; subst; try rewrite E; reflexivity.
Qed.

(* ... and fails in exactly one way: text offered to a numeric variable *)
Lemma coerce_data_cases v e :
  (exists val, coerce_data v e = Ok val)
  \/ (coerce_data v e = Err EDataTypeMismatch None
      /\ ends_with_dollar v = false /\ exists t, e = DStr t).
Proof.
  unfold coerce_data. destruct (ends_with_dollar v), e; eauto.
Qed.

Lemma coerce_data_reenter v t : ends_with_dollar v = false ->
  coerce_data v (DStr t) = Err EDataTypeMismatch None.
Proof. unfold coerce_data. intros ->. reflexivity. Qed.

Lemma coerce_data_number v x : ends_with_dollar v = false -> coerce_data v (DNum x) = Ok (VNum x).
Proof. unfold coerce_data. intros ->. reflexivity. Qed.

Lemma coerce_data_string v t : ends_with_dollar v = true -> coerce_data v (DStr t) = Ok (VStr t).
Proof. unfold coerce_data. intros ->. reflexivity. Qed.

(* the reply parser never returns an empty list *)
Lemma parse_data_nonempty text : exists first more consumed, parse_data text = (first :: more, consumed).
Proof.
  unfold parse_data. pose proof (dp_run_nonempty (utf8_chars text) false [] [] 0) as H.
  destruct (dp_run (utf8_chars text) false [] [] 0) as [[|first more] consumed]; cbn [fst] in H;
    [congruence|eauto].
Qed.

Definition excess_of (more : list data_elem) (consumed : nat) (text : bytes) : bool :=
  match more with [] => Nat.ltb consumed (length text) | _ => true end.

Definition extra_of (more : list data_elem) (consumed : nat) (text : bytes) : list output :=
  if excess_of more consumed text then [OExtraIgnored] else [].

Lemma excess_of_iff more consumed text :
  excess_of more consumed text = true <-> (more <> [] \/ consumed < length text).
Proof.
  unfold excess_of. destruct more as [|x more].
  - rewrite Nat.ltb_lt. split; [auto|]. intros [H|H]; [congruence|exact H].
  - split; [intros _; left; discriminate|reflexivity].
Qed.

Lemma extra_of_yes more consumed text :
  (more <> [] \/ consumed < length text) -> extra_of more consumed text = [OExtraIgnored].
Proof. intros H. apply excess_of_iff in H. unfold extra_of. rewrite H. reflexivity. Qed.

Lemma extra_of_no consumed text : length text <= consumed -> extra_of [] consumed text = [].
Proof.
  intros H. unfold extra_of, excess_of. destruct (Nat.ltb_spec consumed (length text)); [lia|reflexivity].
Qed.

Lemma at_idx_here s o r :
  set_reads r (set_outputs o s) = at_idx s (loc_idx (loc s)) r o.
Proof. destruct s as [? ? ? [? ?] ? ? ? ? ? ? ? ? ? ? ? ? ? ? ?]; reflexivity. Qed.

Lemma cur_tokens_ext s s' :
  st_toks s' = st_toks s -> immediate s' = immediate s -> loc_line (loc s') = loc_line (loc s) ->
  fst (cur_tokens s') = fst (cur_tokens s).
Proof.
  intros H1 H2 H3. unfold cur_tokens. rewrite !bind_get. unfold tokens_for_line.
  rewrite H1, H2, H3. destruct (loc_line (loc s)) as [n|]; [|reflexivity].
  destruct (toks_get n (st_toks s)); reflexivity.
Qed.

Section Engine.
  Variable s : interp.
  Variable toks : list token.
  Hypothesis Htoks : fst (cur_tokens s) = Ok toks.

  (* rewind_before_token(Input): from any cursor [j], the scan stops on the highest index below [j] that
     holds an INPUT token ([Safety.await_finds], at an [at_idx] state) *)
  Lemma await_at i j r o :
    i < j -> nth_error toks i = Some TInput ->
    (forall k, i < k < j -> nth_error toks k <> Some TInput) ->
    rewind_program_and_await_input (at_idx s j r o)
    = (Ok tt, set_state AwaitingInput (at_idx s i (r + (j - i)) o)).
  Proof.
    intros Hij Hi Hno. apply cur_tokens_iff in Htoks as [Hl <-].
    rewrite (await_finds (at_idx s j r o) i (j - S i) Hl); [| cbn; lia | exact Hi | intros q H1 H2; apply Hno; lia].
    unfold rewound. replace (S (j - S i)) with (j - i) by lia. reflexivity.
  Qed.

  Lemma statement_head f d i r o t :
    nth_error toks i = Some t -> Nat.eqb d max_nesting = false ->
    evaluate_statement (S f) d (at_idx s i r o)
    = dispatch f (S d) (evaluate_statement f (S d)) t (at_idx s (S i) (S r) (o ++ trace_of s)).
  Proof.
    intros Ht Hd. cbn [evaluate_statement]. rewrite Hd, statement_body_eq.
    change (traced (at_idx s i r o)) with (at_idx s i r (o ++ trace_of s)).
    erewrite bind_ok by (apply (next_some s toks Htoks); exact Ht). reflexivity.
  Qed.

  Lemma statement_is_input f n i r o :
    nth_error toks i = Some TInput -> n < max_nesting ->
    evaluate_statement (S f) n (at_idx s i r o)
    = evaluate_input_statement f (S n) (at_idx s (S i) (S r) (o ++ trace_of s)).
  Proof. intros Hi Hn. apply (statement_head f n i r o TInput Hi). apply Nat.eqb_neq. lia. Qed.

  (* Interpreter::take_input *)
  Lemma take_input_none i r o : input s = None ->
    take_input (at_idx s i r o) = (Ok None, at_idx s i r o).
  Proof.
    intros Hin. unfold take_input. rewrite bind_get.
    change (input (at_idx s i r o)) with (input s). rewrite Hin. reflexivity.
  Qed.

  Lemma take_input_some i r o text elems c :
    input s = Some text -> parse_data text = (elems, c) ->
    take_input (at_idx s i r o)
    = (Ok (Some (elems, Nat.ltb c (length text))), at_idx (set_input None s) i r o).
  Proof.
    intros Hin Hp. unfold take_input. rewrite bind_get.
    change (input (at_idx s i r o)) with (input s). rewrite Hin.
    rewrite bind_modify, Hp. reflexivity.
  Qed.

  Lemma cur_tokens_taken : fst (cur_tokens (set_input None s)) = Ok toks.
  Proof. rewrite <- Htoks. apply cur_tokens_ext; reflexivity. Qed.

  (* no reply pending: suspend *)
  Lemma input_awaits_at f n i r o :
    nth_error toks i = Some TInput -> n < max_nesting -> input s = None ->
    evaluate_statement (S f) n (at_idx s i r o)
    = (Ok tt, set_state AwaitingInput (at_idx s i (S (S r)) (o ++ trace_of s))).
  Proof.
    intros Hi Hn Hin. rewrite statement_is_input by assumption.
    unfold evaluate_input_statement.
    erewrite bind_ok by (apply take_input_none; exact Hin).
    rewrite (await_at i (S i)) by (try assumption; lia).
    replace (S r + (S i - i)) with (S (S r)) by lia. reflexivity.
  Qed.

  (* a reply is pending: parse the target, then store or ask again *)
  Definition taken (i r : nat) (o : list output) : interp :=
    at_idx (set_input None s) (S i) (S r) (o ++ trace_of s).

  Lemma input_reply_at f n i r o text first more consumed lv s2 :
    nth_error toks i = Some TInput -> n < max_nesting ->
    input s = Some text -> parse_data text = (first :: more, consumed) ->
    parse_lvalue f (S n) (taken i r o) = (Ok lv, s2) ->
    evaluate_statement (S f) n (at_idx s i r o)
    = match coerce_data (lv_sym lv) first with
      | Ok val =>
          (assign_value lv val ;;;
           if excess_of more consumed text then push_output OExtraIgnored else ret tt) s2
      | Err EDataTypeMismatch _ => (push_output OReenter ;;; rewind_program_and_await_input) s2
      | Err e l => (Err e l, s2)
      | _ => (Panic PCellIndex, s2)
      end.
  Proof.
    intros Hi Hn Hin Hp Hlv. rewrite statement_is_input by assumption.
    unfold evaluate_input_statement.
    erewrite bind_ok by (apply take_input_some; eassumption).
    fold (taken i r o). cbv iota beta. rewrite (bind_ok _ _ _ _ _ Hlv).
    unfold excess_of.
    destruct (coerce_data (lv_sym lv) first) as [val|e l|p| |]; try reflexivity.
    destruct e; reflexivity.
  Qed.

  Lemma parse_lvalue_scalar_at f n j r o v :
    nth_error toks j = Some (TSymbol v) -> nth_error toks (S j) <> Some TLeftParen ->
    parse_lvalue f n (at_idx s j r o) = (Ok (mklv v None), at_idx s (S j) (S (S r)) o).
  Proof.
    intros Hv Hnp. unfold parse_lvalue.
    erewrite bind_ok by (apply (next_some s toks Htoks); exact Hv).
    unfold parse_optional_array_index. rewrite bind_assoc.
    erewrite bind_ok by apply (peek_is_at s toks Htoks).
    assert (E : match nth_error toks (S j) with Some t => token_eqb t TLeftParen | None => false end = false).
    { destruct (nth_error toks (S j)) as [t|]; [|reflexivity].
      destruct (token_eqb t TLeftParen) eqn:E; [|reflexivity].
      apply token_eqb_lparen in E. subst t. congruence. }
    rewrite E. reflexivity.
  Qed.
End Engine.

(* Scalar targets.

   Throughout: [toks] are the tokens of the current line, the cursor
   [loc_idx (loc s)] is ON the INPUT token; [trace_of s] is the one TRACE
   record a numbered line emits when tracing is on (else nothing). *)

Lemma awaiting_state_eq s r o :
  set_state AwaitingInput (at_idx (set_input None s) (loc_idx (loc s)) r o)
  = set_reads r (set_state AwaitingInput (set_input None (set_outputs o s))).
Proof. destruct s as [? ? ? [? ?] ? ? ? ? ? ? ? ? ? ? ? ? ? ? ?]; reflexivity. Qed.

(* C08, first sentence.  Nothing but the state flag (and the hook counter, and
   the trace record) changes; the cursor is back ON the INPUT token.  The
   counter is the number of cursor reads: 2 = the INPUT token read, and the one
   look the rewind takes at it.  Below, 3 = INPUT, the target, the look for a
   "(" after it; 5 = those 3 and the rewind's looks at the target and at INPUT. *)
Theorem input_awaits : forall fuel n s toks,
  fst (cur_tokens s) = Ok toks ->
  nth_error toks (loc_idx (loc s)) = Some TInput ->
  input s = None ->
  1 <= fuel -> n < max_nesting ->
  evaluate_statement fuel n s
  = (Ok tt, set_reads (2 + reads s)
              (set_state AwaitingInput (set_outputs (outputs s ++ trace_of s) s))).
Proof.
  intros fuel n s toks Htoks Hi Hin Hf Hn. destruct fuel as [|f]; [lia|].
  rewrite <- (at_idx_self s) at 1.
  rewrite (input_awaits_at s toks Htoks) by assumption.
  f_equal. destruct s as [? ? ? [? ?] ? ? ? ? ? ? ? ? ? ? ? ? ? ? ?]; reflexivity.
Qed.

Corollary input_awaits_frame : forall fuel n s toks,
  fst (cur_tokens s) = Ok toks ->
  nth_error toks (loc_idx (loc s)) = Some TInput ->
  input s = None ->
  1 <= fuel -> n < max_nesting ->
  let r := evaluate_statement fuel n s in
  let s' := snd r in
  fst r = Ok tt
  /\ state s' = AwaitingInput
  /\ loc s' = loc s                       (* the cursor is ON the INPUT token again *)
  /\ input s' = None
  /\ outputs s' = outputs s ++ trace_of s
  /\ reads s' = 2 + reads s
  /\ variables s' = variables s /\ arrays s' = arrays s /\ stack s' = stack s
  /\ loops s' = loops s /\ data_it s' = data_it s /\ functions s' = functions s
  /\ breakpoint s' = breakpoint s /\ rng s' = rng s
  /\ st_toks s' = st_toks s /\ st_keys s' = st_keys s /\ immediate s' = immediate s
  /\ enable_warnings s' = enable_warnings s /\ enable_tracing s' = enable_tracing s
  /\ pow_oracle s' = pow_oracle s.
Proof.
  intros fuel n s toks Htoks Hi Hin Hf Hn. cbv zeta.
  rewrite (input_awaits fuel n s toks) by assumption. cbn [fst snd].
  repeat split; try reflexivity. exact Hin.
Qed.

(* A reply is pending and the target is a scalar: the cursor is ON the INPUT token of [INPUT v], not followed by "(". *)
Section ScalarReply.
  Variables (fuel n : nat) (s : interp) (toks : list token) (v text : bytes)
            (first : data_elem) (more : list data_elem) (consumed : nat).
  Hypothesis Htoks : fst (cur_tokens s) = Ok toks.
  Let i := loc_idx (loc s).
  Hypotheses (Hi : nth_error toks i = Some TInput) (Hv : nth_error toks (S i) = Some (TSymbol v))
             (Hnp : nth_error toks (S (S i)) <> Some TLeftParen) (Hin : input s = Some text)
             (Hp : parse_data text = (first :: more, consumed)) (Hf : 1 <= fuel) (Hn : n < max_nesting).

  Lemma scalar_reply_at f :
    evaluate_statement (S f) n s
    = match coerce_data v first with
      | Ok val => (assign_value (mklv v None) val ;;; if excess_of more consumed text then push_output OExtraIgnored else ret tt)
                    (set_input None (at_idx s (S (S i)) (3 + reads s) (outputs s ++ trace_of s)))
      | Err EDataTypeMismatch _ => (push_output OReenter ;;; rewind_program_and_await_input)
                    (set_input None (at_idx s (S (S i)) (3 + reads s) (outputs s ++ trace_of s)))
      | Err e l => (Err e l, set_input None (at_idx s (S (S i)) (3 + reads s) (outputs s ++ trace_of s)))
      | _ => (Panic PCellIndex, set_input None (at_idx s (S (S i)) (3 + reads s) (outputs s ++ trace_of s)))
      end.
  Proof.
    rewrite <- (at_idx_self s) at 1. fold i.
    erewrite (input_reply_at s toks Htoks) by
      (try eassumption; apply (parse_lvalue_scalar_at _ toks (cur_tokens_taken s toks Htoks)); eassumption).
    reflexivity.
  Qed.

  (* C08, second sentence: the semantic form.  With a reply pending, the
     statement is: consume the reply and the two tokens INPUT [v], then do exactly
     what the assignment statement does with the value ([assign_value], the
     function [evaluate_assignment_statement] ends with), then EXTRA IGNORED if
     anything of the reply is left. *)
  Theorem input_accept_is_assignment val : coerce_data v first = Ok val ->
    evaluate_statement fuel n s
    = (assign_value (mklv v None) val ;;;
       if excess_of more consumed text then push_output OExtraIgnored else ret tt)
        (set_input None (at_idx s (S (S i)) (3 + reads s) (outputs s ++ trace_of s))).
  Proof. intros Hc. rewrite <- (Nat.succ_pred_pos fuel Hf), scalar_reply_at, Hc. reflexivity. Qed.

  Theorem input_accepts_scalar val : coerce_data v first = Ok val ->
    evaluate_statement fuel n s
    = (Ok tt,
       set_outputs (outputs s ++ trace_of s ++ extra_of more consumed text)
         (set_variables (alist_set v val (variables s))
            (set_input None
               (set_reads (3 + reads s)
                  (set_loc (mkloc (loc_line (loc s)) (S (S i))) s))))).
  Proof.
    intros Hc. rewrite (input_accept_is_assignment val Hc).
    unfold assign_value. cbn [lv_index lv_sym]. unfold variables_set.
    rewrite (coerce_data_type_matches _ _ _ Hc). rewrite bind_modify.
    unfold extra_of. destruct (excess_of more consumed text).
    - unfold push_output, modify. f_equal.
      destruct s as [? ? ? [? ?] ? ? ? ? ? ? ? ? ? ? ? ? ? ? ?]; cbn. rewrite <- app_assoc. reflexivity.
    - unfold ret. f_equal.
      destruct s as [? ? ? [? ?] ? ? ? ? ? ? ? ? ? ? ? ? ? ? ?]; cbn. rewrite app_nil_r. reflexivity.
  Qed.

  Corollary input_accepts_scalar_frame val : coerce_data v first = Ok val ->
    let r := evaluate_statement fuel n s in
    let s' := snd r in
    fst r = Ok tt
    /\ variables s' = alist_set v val (variables s)
    /\ variables s' = variables (snd (variables_set v val s))        (* what LET v = val stores *)
    /\ type_matches v val = true
    /\ input s' = None
    /\ loc s' = mkloc (loc_line (loc s)) (S (S i))                   (* just after the target *)
    /\ outputs s' = outputs s ++ trace_of s ++ extra_of more consumed text
    /\ (extra_of more consumed text = [OExtraIgnored] <-> (more <> [] \/ consumed < length text))
    /\ (extra_of more consumed text = [] <-> ~ (more <> [] \/ consumed < length text))
    /\ reads s' = 3 + reads s
    /\ state s' = state s
    /\ arrays s' = arrays s /\ stack s' = stack s
    /\ loops s' = loops s /\ data_it s' = data_it s /\ functions s' = functions s
    /\ breakpoint s' = breakpoint s /\ rng s' = rng s
    /\ st_toks s' = st_toks s /\ st_keys s' = st_keys s /\ immediate s' = immediate s
    /\ enable_warnings s' = enable_warnings s /\ enable_tracing s' = enable_tracing s
    /\ pow_oracle s' = pow_oracle s.
  Proof.
    intros Hc. cbv zeta. rewrite (input_accepts_scalar val Hc).
    cbn [fst snd]. pose proof (coerce_data_type_matches _ _ _ Hc) as Htm.
    assert (Hx : extra_of more consumed text = [OExtraIgnored] <-> (more <> [] \/ consumed < length text)).
    { rewrite <- excess_of_iff. unfold extra_of. destruct (excess_of more consumed text);
        split; intros H; try reflexivity; discriminate. }
    assert (Hy : extra_of more consumed text = [] <-> ~ (more <> [] \/ consumed < length text)).
    { rewrite <- excess_of_iff. unfold extra_of. destruct (excess_of more consumed text);
        split; intros H; try reflexivity; try discriminate; congruence. }
    repeat (split; [reflexivity|]).
    split. { unfold variables_set. rewrite Htm. reflexivity. }
    split; [exact Htm|].
    repeat (split; [reflexivity|]).
    split; [exact Hx|]. split; [exact Hy|].
    repeat split; reflexivity.
  Qed.

  (* C08, third sentence: text offered to a numeric variable.  REENTER, and the
     state is the one [input_awaits] describes: awaiting input, the cursor back ON
     the INPUT token, the reply consumed, everything else untouched. *)
  Theorem input_reenter : coerce_data v first = Err EDataTypeMismatch None ->
    evaluate_statement fuel n s
    = (Ok tt,
       set_reads (5 + reads s)
         (set_state AwaitingInput
            (set_input None
               (set_outputs (outputs s ++ trace_of s ++ [OReenter]) s)))).
  Proof.
    intros Hc. rewrite <- (Nat.succ_pred_pos fuel Hf), scalar_reply_at, Hc.
    pose proof (cur_tokens_taken s toks Htoks) as Htoks1.
    unfold push_output. rewrite bind_modify.
    match goal with
    | |- rewind_program_and_await_input ?st = _ =>
        change st with (at_idx (set_input None s) (S (S i)) (S (S (S (reads s))))
                               ((outputs s ++ trace_of s) ++ [OReenter]))
    end.
    rewrite (await_at _ toks Htoks1 i) by (try assumption; try lia; intros k Hk;
      assert (k = S i) by lia; subst k; rewrite Hv; discriminate).
    replace (S (S (S (reads s))) + (S (S i) - i)) with (5 + reads s) by lia.
    rewrite <- app_assoc. f_equal. apply awaiting_state_eq.
  Qed.

  (* "the same request again": but for the REENTER record and the hook counter,
     the state after a refused reply IS the state of the first request. *)
  Corollary input_reenter_same_request : coerce_data v first = Err EDataTypeMismatch None ->
    let first_request := snd (evaluate_statement fuel n (set_input None s)) in
    evaluate_statement fuel n s
    = (Ok tt, set_reads (3 + reads first_request)
                (set_outputs (outputs first_request ++ [OReenter]) first_request)).
  Proof.
    intros Hc. cbv zeta. rewrite (input_reenter Hc).
    rewrite (input_awaits fuel n (set_input None s) toks); try assumption; try reflexivity;
      [|exact (cur_tokens_taken s toks Htoks)].
    cbn [snd]. f_equal.
    destruct s as [? ? ? [? ?] ? ? ? ? ? ? ? ? ? ? ? ? ? ? ?]; cbn. rewrite <- app_assoc. reflexivity.
  Qed.
End ScalarReply.

Corollary input_reenter_text : forall fuel n s toks v text t more consumed,
  fst (cur_tokens s) = Ok toks ->
  let i := loc_idx (loc s) in
  nth_error toks i = Some TInput ->
  nth_error toks (S i) = Some (TSymbol v) ->
  nth_error toks (S (S i)) <> Some TLeftParen ->
  input s = Some text ->
  parse_data text = (DStr t :: more, consumed) ->
  ends_with_dollar v = false ->
  1 <= fuel -> n < max_nesting ->
  evaluate_statement fuel n s
  = (Ok tt,
     set_reads (5 + reads s)
       (set_state AwaitingInput
          (set_input None
             (set_outputs (outputs s ++ trace_of s ++ [OReenter]) s)))).
Proof.
  intros. eapply input_reenter; eauto. apply coerce_data_reenter; assumption.
Qed.

Corollary input_reenter_frame : forall fuel n s toks v text first more consumed,
  fst (cur_tokens s) = Ok toks ->
  let i := loc_idx (loc s) in
  nth_error toks i = Some TInput ->
  nth_error toks (S i) = Some (TSymbol v) ->
  nth_error toks (S (S i)) <> Some TLeftParen ->
  input s = Some text ->
  parse_data text = (first :: more, consumed) ->
  coerce_data v first = Err EDataTypeMismatch None ->
  1 <= fuel -> n < max_nesting ->
  let r := evaluate_statement fuel n s in
  let s' := snd r in
  fst r = Ok tt
  /\ state s' = AwaitingInput
  /\ loc s' = loc s                       (* ON the INPUT token again *)
  /\ input s' = None
  /\ outputs s' = outputs s ++ trace_of s ++ [OReenter]
  /\ reads s' = 5 + reads s
  /\ variables s' = variables s /\ arrays s' = arrays s /\ stack s' = stack s
  /\ loops s' = loops s /\ data_it s' = data_it s /\ functions s' = functions s
  /\ breakpoint s' = breakpoint s /\ rng s' = rng s
  /\ st_toks s' = st_toks s /\ st_keys s' = st_keys s /\ immediate s' = immediate s
  /\ enable_warnings s' = enable_warnings s /\ enable_tracing s' = enable_tracing s
  /\ pow_oracle s' = pow_oracle s.
Proof.
  intros fuel n s toks v text first more consumed Htoks i Hi Hv Hnp Hin Hp Hc Hf Hn. cbv zeta.
  rewrite (input_reenter fuel n s toks v text first more consumed) by assumption.
  cbn [fst snd]. repeat split; reflexivity.
Qed.

(* Every reply to a scalar INPUT is either stored or refused with REENTER:
   the other branches of the model's match are dead. *)
Theorem input_reply_total : forall fuel n s toks v text,
  fst (cur_tokens s) = Ok toks ->
  let i := loc_idx (loc s) in
  nth_error toks i = Some TInput ->
  nth_error toks (S i) = Some (TSymbol v) ->
  nth_error toks (S (S i)) <> Some TLeftParen ->
  input s = Some text ->
  1 <= fuel -> n < max_nesting ->
  exists first more consumed,
    parse_data text = (first :: more, consumed)
    /\ ((exists val, coerce_data v first = Ok val
                     /\ variables (snd (evaluate_statement fuel n s)) = alist_set v val (variables s)
                     /\ state (snd (evaluate_statement fuel n s)) = state s)
        \/ (coerce_data v first = Err EDataTypeMismatch None
            /\ ends_with_dollar v = false /\ (exists t, first = DStr t)
            /\ variables (snd (evaluate_statement fuel n s)) = variables s
            /\ state (snd (evaluate_statement fuel n s)) = AwaitingInput))
    /\ fst (evaluate_statement fuel n s) = Ok tt.
Proof.
  intros fuel n s toks v text Htoks i Hi Hv Hnp Hin Hf Hn.
  destruct (parse_data_nonempty text) as (first & more & consumed & Hp).
  exists first, more, consumed. split; [exact Hp|].
  destruct (coerce_data_cases v first) as [[val Hc]|(Hc & Hd & Ht)].
  - rewrite (input_accepts_scalar fuel n s toks v text first more consumed) with (val := val) by assumption.
    cbn [fst snd]. split; [|reflexivity]. left. exists val. repeat split; try reflexivity. exact Hc.
  - rewrite (input_reenter fuel n s toks v text first more consumed) by assumption.
    cbn [fst snd]. split; [|reflexivity]. right. repeat split; try reflexivity; assumption.
Qed.

(* Any target (scalar or array cell, whatever its subscripts).

   With a reply pending the statement is: trace, consume INPUT, take the reply,
   parse the target [lv] (for an array cell this evaluates the subscripts),
   then do exactly what the assignment statement ends with — [assign_value lv
   val] — and EXTRA IGNORED if anything is left; or REENTER and await again. *)
Theorem input_reply_any_target : forall fuel n s toks text first more consumed lv s2,
  fst (cur_tokens s) = Ok toks ->
  let i := loc_idx (loc s) in
  nth_error toks i = Some TInput ->
  input s = Some text ->
  parse_data text = (first :: more, consumed) ->
  n < max_nesting ->
  parse_lvalue fuel (S n)
     (at_idx (set_input None s) (S i) (S (reads s)) (outputs s ++ trace_of s)) = (Ok lv, s2) ->
  evaluate_statement (S fuel) n s
  = match coerce_data (lv_sym lv) first with
    | Ok val =>
        (assign_value lv val ;;;
         if excess_of more consumed text then push_output OExtraIgnored else ret tt) s2
    | Err EDataTypeMismatch _ => (push_output OReenter ;;; rewind_program_and_await_input) s2
    | Err e l => (Err e l, s2)
    | _ => (Panic PCellIndex, s2)
    end.
Proof.
  intros fuel n s toks text first more consumed lv s2 Htoks i Hi Hin Hp Hn Hlv.
  rewrite <- (at_idx_self s) at 1. fold i.
  apply (input_reply_at s toks Htoks fuel n i (reads s) (outputs s) text first more consumed lv s2); assumption.
Qed.

(* The host API: a reply makes the interpreter Running with the reply pending, and the
   next call executes the statement under the cursor — which is the INPUT token the
   interpreter rewound to — and nothing before it; then the tail of every turn. *)
Theorem provide_input_spec text s : state s = AwaitingInput ->
  provide_input text s = (Ok tt, set_state Running (set_input (Some text) s)).
Proof. intros H. unfold provide_input. rewrite H. reflexivity. Qed.

Theorem reply_resumes_at_input : forall fuel text s,
  state s = AwaitingInput -> line_exists s (loc s) ->
  nth_error (cur_toks s) (loc_idx (loc s)) = Some TInput ->
  let s1 := snd (provide_input text s) in
  state s1 = Running /\ input s1 = Some text /\ loc s1 = loc s
  /\ continue_evaluating fuel s1
     = postprocess ((evaluate_statement fuel 0 ;;; after_statement) (bump s1)).
Proof.
  intros fuel text s Hst Hl Hi s1. subst s1. rewrite (provide_input_spec text s Hst). cbn [snd].
  repeat split.
  unfold continue_evaluating. change (state (set_state Running (set_input (Some text) s))) with Running.
  cbv iota. f_equal.
  exact (rns_at_token fuel (set_state Running (set_input (Some text) s)) TInput Hl Hi).
Qed.
