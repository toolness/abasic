(* The line cruncher (line_cruncher.rs) as a layer of its own.  LineCruncher is an
   iterator over the non-blank bytes of a text; its item is the byte and the
   number of bytes consumed so far, blanks included.  Here the two halves of
   that item are two functions: [nb s], the non-blank bytes of [s], and
   [off s k], where the k-th of them ends.  [nb] upper-cases, because every
   matcher that reads through the cruncher upper-cases what it reads or tests
   what upper-casing does not change; so a case flip is invisible in [nb] itself.
   [off [] k = k]: beyond the last non-blank byte the count runs on as if
   non-blank bytes followed, and then the lemmas about inserting a blank and
   about cutting hold for every [k], not only for [k <= length (nb s)].

   Four of the seven matchers (keywords, operator characters, numbers, symbols)
   and the keyword in front of REM and DATA see the text through the cruncher
   only: each is [lifted] from a function on crunched bytes.  In the source they
   are loops over crunch_remaining_bytes(); Model/Lexer.v writes the skipping of
   blanks into each loop (only chomp_one_or_two calls crunch_next), so that a
   matcher reads through the cruncher is here a lemma about it (ckf_nb,
   one_or_two_lifted, number_span_nb, symbol_span_nb), not the shape of the model.  Inserting a blank,
   flipping case and cutting act on [nb] and [off] in a way no such matcher can
   see ([lifted_edit], [lifted_cut], [lifted_none]; LexerCrunch.v, LexerRetok.v),
   and a token ends behind a non-blank ASCII byte ([lifted_ends]; LexerRanges.v). *)
From Coq Require Import List NArith ZArith Bool Lia Arith ZifyBool.
From Abasic Require Import Model.Bytes Model.Num Model.Token Model.Lexer Gen.Tables.
Import ListNotations.
Local Open Scope nat_scope.

Fixpoint nb (s : bytes) : bytes :=
  match s with
  | [] => []
  | b :: t => if is_basic_ws b then nb t else to_upper b :: nb t
  end.

Fixpoint off (s : bytes) (k : nat) : nat :=
  match s with
  | [] => k
  | b :: t => match k with
              | 0 => 0
              | S k' => S (off t (if is_basic_ws b then k else k'))
              end
  end.

Lemma off_0 s : off s 0 = 0.
Proof. now destruct s. Qed.

Lemma off_cons b t k : off (b :: t) (S k) = S (off t (if is_basic_ws b then S k else k)).
Proof. reflexivity. Qed.

Lemma off_pos s k : off s (S k) = S (Nat.pred (off s (S k))).
Proof. now destruct s. Qed.

(* the k-th non-blank byte *)
Lemma nb_nth : forall s m u, nth_error (nb s) m = Some u ->
  exists c, nth_error s (Nat.pred (off s (S m))) = Some c /\ is_basic_ws c = false /\ to_upper c = u.
Proof.
  induction s as [|b t IH]; intros m u; cbn [nb off]; [now destruct m|].
  destruct (is_basic_ws b) eqn:Eb.
  - intros H. destruct (IH _ _ H) as (c & Hc & Hw). exists c. now rewrite off_pos.
  - destruct m as [|m]; cbn [nth_error Nat.pred].
    + intros H. injection H as <-. rewrite off_0. exists b. auto.
    + intros H. destruct (IH _ _ H) as (c & Hc & Hw). exists c. now rewrite off_pos.
Qed.

(* Cutting behind the k-th non-blank byte *)
Lemma nb_firstn : forall s k, nb (firstn (off s k) s) = firstn k (nb s).
Proof.
  induction s as [|b t IH]; intros k; [now rewrite !firstn_nil|].
  destruct k as [|k]; [reflexivity|]. cbn [off firstn nb].
  destruct (is_basic_ws b); [apply (IH (S k))|]. cbn [firstn]. now rewrite IH.
Qed.

Lemma off_firstn : forall s k j, j <= k -> off (firstn (off s k) s) j = off s j.
Proof.
  induction s as [|b t IH]; intros k j Hj; [now rewrite firstn_nil|].
  destruct k as [|k]; [now replace j with 0 by lia|]. cbn [off firstn].
  destruct j as [|j]; [reflexivity|]. destruct (is_basic_ws b); rewrite IH by lia; reflexivity.
Qed.

(* Cutting anywhere behind it *)
Lemma nb_firstn_ge : forall s j k, off s k <= j ->
  exists c, k <= c /\ nb (firstn j s) = firstn c (nb s) /\ off (firstn j s) k = off s k.
Proof.
  induction s as [|b t IH]; intros j k Hk; [exists k; now rewrite !firstn_nil|].
  destruct j as [|j]; [exists 0; destruct k; [auto|cbn in Hk; lia]|]. cbn [firstn nb].
  destruct k as [|k].
  - destruct (IH j 0) as (c & _ & E & _); [rewrite off_0; lia|].
    destruct (is_basic_ws b); [exists c|exists (S c); cbn [firstn]; rewrite E]; auto using Nat.le_0_l.
  - rewrite !off_cons in *. destruct (is_basic_ws b).
    + destruct (IH j (S k)) as (c & Hc & E & O); [lia|]. exists c. now rewrite O.
    + destruct (IH j k) as (c & Hc & E & O); [lia|]. exists (S c). cbn [firstn]. rewrite E, O. auto with arith.
Qed.

(* The model's own two readers of the cruncher, [crunch_next] and [leading_ws], in these terms. *)
Lemma crunch_next_nb : forall s,
  match crunch_next s with
  | Some (b, n) => n = off s 1 /\ nb s = to_upper b :: nb (skipn n s)
                   /\ forall k, off s (S k) = n + off (skipn n s) k
  | None => nb s = []
  end.
Proof.
  induction s as [|x t IH]; cbn [crunch_next nb off]; [reflexivity|].
  destruct (is_basic_ws x).
  - destruct (crunch_next t) as [[c n]|]; [|exact IH]. destruct IH as (-> & E & H).
    cbn [skipn]. repeat split; [exact E|]. intros k. now rewrite H.
  - rewrite off_0. cbn [skipn]. repeat split.
Qed.

Lemma leading_ws_off : forall s, leading_ws s = Nat.pred (off s 1).
Proof.
  induction s as [|b t IH]; [reflexivity|]. cbn [leading_ws]. rewrite off_cons.
  destruct (is_basic_ws b); [now rewrite IH, off_pos|now rewrite off_0].
Qed.

(* Where a token of such a matcher ends: behind a non-blank ASCII byte.  ASCII,
   because in valid UTF-8 the position behind an ASCII byte is a character
   boundary (LexerRanges.Valid_after_ascii): that is all C13_boundaries needs of
   these matchers. *)
Definition nb_ascii (c : N) : Prop := is_basic_ws c = false /\ (c < 128)%N.

Definition ends_nb (s : bytes) (n : nat) : Prop :=
  exists m c, n = S m /\ nth_error s m = Some c /\ nb_ascii c.

Lemma ends_nb_bounds s n : ends_nb s n -> 1 <= n <= length s.
Proof.
  intros (m & c & -> & Hc & _). assert (m < length s) by (apply nth_error_Some; congruence). lia.
Qed.

(* A matcher that sees [s] through the cruncher only: [f] answers on the crunched
   bytes, with the number of them it consumes.  Below, the function on crunched
   bytes of a matcher ends in [p] ([anykwp], [op12p], [nump], [symp] / [symbolp]);
   [number_m], [symbol_m] are the loops of chomp_number and chomp_symbol in the
   shape [lifted] asks for, an option of what was read and where it ended. *)
Definition lifted {A} (f : bytes -> option (A * nat)) (m : bytes -> option (A * nat)) : Prop :=
  forall s, m s = match f (nb s) with Some (a, k) => Some (a, off s k) | None => None end.

(* [f] decides from the bytes it consumes: cut behind them it answers the same,
   and where it finds nothing it finds nothing in any cut. *)
Record decides {A} (f : bytes -> option (A * nat)) : Prop := {
  d_cut : forall cs a k, f cs = Some (a, k) -> f (firstn k cs) = Some (a, k);
  d_none : forall cs m, f cs = None -> f (firstn m cs) = None }.

(* [f] consumes at least one byte, the last of them ASCII. *)
Definition ends_ascii {A} (f : bytes -> option (A * nat)) : Prop :=
  forall cs a k, f cs = Some (a, k) -> exists m u, k = S m /\ nth_error cs m = Some u /\ (u < 128)%N.

(* [f] answers the same on every cut that holds what it consumes.  (Not so the
   symbols: `IFOR` is the symbol I in front of FOR, its cut `IFO` the symbol IFO.
   Needed of the keywords: DATA is cut behind its items, not behind its keyword.) *)
Definition stable_cut {A} (f : bytes -> option (A * nat)) : Prop :=
  forall cs a k m, f cs = Some (a, k) -> k <= m -> f (firstn m cs) = Some (a, k).

Section Lifted.
Context {A : Type} (f m : bytes -> option (A * nat)).
Hypothesis L : lifted f m.

(* texts with the same crunched bytes, their offsets related by [phi] *)
Lemma lifted_edit phi s s' :
  nb s' = nb s -> (forall k, off s' k = phi (off s k)) ->
  m s' = match m s with Some (a, n) => Some (a, phi n) | None => None end.
Proof. intros E H. rewrite !L, E. destruct (f (nb s)) as [[a k]|]; [now rewrite H|reflexivity]. Qed.

Lemma lifted_ends s a n : ends_ascii f -> m s = Some (a, n) -> ends_nb s n.
Proof.
  intros Hf. rewrite L. destruct (f (nb s)) as [[a' k]|] eqn:E; [|discriminate]. intros H; injection H as -> <-.
  destruct (Hf _ _ _ E) as (j & u & -> & Hu & Hlt).
  destruct (nb_nth _ _ _ Hu) as (c & Hc & Hw & Hup).
  exists (Nat.pred (off s (S j))), c. split; [apply off_pos|]. split; [exact Hc|]. split; [exact Hw|].
  subst u. unfold to_upper, is_lower in Hlt. destruct (_ && _) eqn:E1 in Hlt; lia.
Qed.

Lemma lifted_cut_ge s a n j :
  stable_cut f -> m s = Some (a, n) -> n <= j -> m (firstn j s) = Some (a, n).
Proof.
  intros Hmono. rewrite !L. destruct (f (nb s)) as [[a' k]|] eqn:E; [|discriminate]. intros H Hj; injection H as -> <-.
  destruct (nb_firstn_ge s j k Hj) as (c & Hc & En & Eo). now rewrite En, (Hmono _ _ _ _ E Hc), Eo.
Qed.

Hypothesis D : decides f.

Lemma lifted_cut s a n : m s = Some (a, n) -> m (firstn n s) = Some (a, n).
Proof.
  rewrite !L. destruct (f (nb s)) as [[a' k]|] eqn:E; [|discriminate]. intros H; injection H as -> <-.
  now rewrite nb_firstn, (d_cut f D _ _ _ E), off_firstn.
Qed.

Lemma lifted_none s j : m s = None -> m (firstn j s) = None.
Proof.
  rewrite !L. destruct (f (nb s)) as [[a' k]|] eqn:E; [discriminate|]. intros _.
  destruct (nb_firstn_ge s j 0) as (k & _ & -> & _); [rewrite off_0; lia|]. now rewrite (d_none f D _ _ E).
Qed.

End Lifted.

(* Bytes: upper-casing is invisible to every test a matcher makes.  ([lia] sees
   through the comparisons the classes of Model/Bytes.v are made of: ZifyBool.) *)
Lemma up_eqb c b : is_alpha c = false -> (c =? to_upper b)%N = (c =? b)%N.
Proof. unfold to_upper, is_alpha, is_upper, is_lower. destruct ((97 <=? b)%N && _) eqn:E; lia. Qed.
Lemma up_eqb' c b : is_alpha c = false -> (to_upper b =? c)%N = (b =? c)%N.
Proof. intros H. rewrite !(N.eqb_sym _ c). now apply up_eqb. Qed.
Lemma up_alpha b : is_alpha (to_upper b) = is_alpha b.
Proof. unfold to_upper, is_alpha, is_upper, is_lower. destruct ((97 <=? b)%N && (b <=? 122)%N) eqn:E; lia. Qed.
Lemma up_alnum b : is_alnum (to_upper b) = is_alnum b.
Proof. unfold is_alnum. rewrite up_alpha. unfold to_upper, is_digit, is_alpha, is_upper, is_lower. destruct ((97 <=? b)%N && (b <=? 122)%N) eqn:E; lia. Qed.
Lemma up_digdot b : (is_digit (to_upper b) || (to_upper b =? 46)%N) = (is_digit b || (b =? 46)%N)
  /\ ((is_digit b || (b =? 46)%N) = true -> to_upper b = b).
Proof. unfold to_upper, is_digit, is_lower. destruct ((97 <=? b)%N && (b <=? 122)%N) eqn:E; lia. Qed.

(* Tokens that carry text of the line verbatim. *)
Definition verb_tok (t : token) : bool :=
  match t with TString _ | TRemark _ | TData _ => true | _ => false end.

(* What a lookup returns is an entry of its table, so a fact about all entries
   is a fact about every lookup. *)
Lemma first_keyword_In tbl s t n :
  first_keyword tbl s = Some (t, n) -> exists kw, In (kw, t) tbl /\ chomp_keyword kw s = Some n.
Proof.
  induction tbl as [|[kw t0] tbl IH]; cbn [first_keyword]; [discriminate|].
  destruct (chomp_keyword kw s) as [k|] eqn:Ek.
  - intros H; inversion H; subst. exists kw. split; [now left|exact Ek].
  - intros H. destruct (IH H) as (kw' & Hin & Hk). exists kw'. split; [now right|exact Hk].
Qed.

Lemma lookup_punct_In tbl b t : lookup_punct tbl b = Some t -> In (b, t) tbl.
Proof.
  induction tbl as [|[c t0] tbl IH]; cbn [lookup_punct]; [discriminate|].
  destruct (N.eqb_spec c b) as [->|_]; [intros H; inversion H; now left|]. intros H. right. auto.
Qed.

Lemma lookup_two_In tbl f b t : lookup_two tbl f b = Some t -> exists f0, In (f0, b, t) tbl.
Proof.
  induction tbl as [|[[f0 c] t0] tbl IH]; cbn [lookup_two]; [discriminate|].
  destruct (token_eqb f0 f); cbn [andb]; [destruct (N.eqb_spec c b) as [->|_]|].
  - intros H; inversion H; subst. exists f0. now left.
  - intros H. destruct (IH H) as [f1 H1]. exists f1. now right.
  - intros H. destruct (IH H) as [f1 H1]. exists f1. now right.
Qed.

Definition all_ascii (kw : bytes) : bool := forallb (fun b => (b <? 128)%N) kw.

(* A fact about all entries of a generated table is decided by computation. *)
Lemma table_fact {A} (P Q : A -> bool) tbl x :
  forallb (fun e => P e && negb (Q e)) tbl = true -> In x tbl -> P x = true /\ Q x = false.
Proof.
  intros F H. apply (proj1 (forallb_forall _ _) F) in H. apply andb_true_iff in H as [H1 H2].
  now apply negb_true_iff in H2.
Qed.

Lemma keywords_facts kw t : In (kw, t) keywords -> all_ascii kw = true /\ verb_tok t = false.
Proof. apply (table_fact (fun e => all_ascii (fst e)) (fun e => verb_tok (snd e))). vm_compute. reflexivity. Qed.

Definition op_char (c : N) : bool := (c <? 128)%N && negb (is_alpha c).

Lemma op_char_spec c : op_char c = true -> (c < 128)%N /\ is_alpha c = false.
Proof. unfold op_char. destruct (is_alpha c); lia. Qed.

Lemma punct_facts c t : In (c, t) punct -> op_char c = true /\ verb_tok t = false.
Proof. apply (table_fact (fun e => op_char (fst e)) (fun e => verb_tok (snd e))). vm_compute. reflexivity. Qed.

Lemma two_char_facts f c t : In (f, c, t) two_char -> op_char c = true /\ verb_tok t = false.
Proof. apply (table_fact (fun e => op_char (snd (fst e))) (fun e => verb_tok (snd e))). vm_compute. reflexivity. Qed.

(* chomp_keyword on crunched bytes: does the text start with the keyword *)
Fixpoint starts (kw cs : bytes) : bool :=
  match kw, cs with
  | [], _ => true
  | k :: kw', b :: t => (b =? k)%N && starts kw' t
  | _ :: _, [] => false
  end.

Lemma starts_firstn : forall kw cs m, starts kw (firstn m cs) = (length kw <=? m) && starts kw cs.
Proof.
  induction kw as [|k kw IH]; intros cs m; [reflexivity|].
  destruct m as [|m]; [reflexivity|]. destruct cs as [|b t]; cbn [firstn starts length]; [now rewrite andb_false_r|].
  rewrite IH. change (S (length kw) <=? S m) with (length kw <=? m). now destruct (b =? k)%N, (length kw <=? m).
Qed.

Lemma starts_nth : forall kw cs, starts kw cs = true -> forall m u, nth_error kw m = Some u -> nth_error cs m = Some u.
Proof.
  induction kw as [|k kw IH]; intros cs H m u Hm; [now destruct m|]. destruct cs as [|b t]; [discriminate|].
  cbn [starts] in H. apply andb_true_iff in H as [Hb H]. apply N.eqb_eq in Hb. subst k.
  destruct m as [|m]; [exact Hm|]. exact (IH _ H _ _ Hm).
Qed.

Lemma ckf_nb : forall s kw acc,
  chomp_keyword_from kw s acc = if starts kw (nb s) then Some (acc + off s (length kw)) else None.
Proof.
  induction s as [|b t IH]; intros [|k kw] acc; cbn [chomp_keyword_from nb length off];
    rewrite ?Nat.add_0_r; try reflexivity.
  destruct (is_basic_ws b).
  - rewrite IH. cbn [length]. destruct (starts _ _); [f_equal; lia|reflexivity].
  - cbn [starts]. destruct (to_upper b =? k)%N; [|reflexivity].
    rewrite IH. cbn [andb]. destruct (starts _ _); [f_equal; lia|reflexivity].
Qed.

Definition kw_hit (kw cs : bytes) : bool := match kw with [] => false | _ => starts kw cs end.

Fixpoint anykwp (tbl : list (bytes * token)) (cs : bytes) : option (token * nat) :=
  match tbl with
  | [] => None
  | (kw, t) :: tbl' => if kw_hit kw cs then Some (t, length kw) else anykwp tbl' cs
  end.

Lemma first_keyword_lifted tbl : lifted (anykwp tbl) (first_keyword tbl).
Proof.
  intros s. induction tbl as [|[kw t] tbl IH]; cbn [first_keyword anykwp]; [reflexivity|].
  unfold chomp_keyword, kw_hit. destruct kw as [|k kw]; [exact IH|]. rewrite ckf_nb.
  destruct (starts _ _); [reflexivity|exact IH].
Qed.

Lemma kw_hit_firstn kw cs m : kw_hit kw (firstn m cs) = (length kw <=? m) && kw_hit kw cs.
Proof. unfold kw_hit. destruct kw; [now rewrite andb_false_r|apply starts_firstn]. Qed.

Lemma anykwp_mono tbl : stable_cut (anykwp tbl).
Proof.
  intros cs a k m. induction tbl as [|[kw t] tbl IH]; cbn [anykwp]; [discriminate|].
  rewrite kw_hit_firstn. destruct (kw_hit kw cs); [|now rewrite andb_false_r].
  intros H Hm; injection H as <- <-. now rewrite leb_correct.
Qed.

Lemma anykwp_decides tbl : decides (anykwp tbl).
Proof.
  split; [intros cs a k H; exact (anykwp_mono _ _ _ _ _ H (le_n _))|].
  intros cs m. induction tbl as [|[kw t] tbl IH]; cbn [anykwp]; [reflexivity|].
  rewrite kw_hit_firstn. destruct (kw_hit kw cs); [discriminate|]. now rewrite andb_false_r.
Qed.

Lemma anykwp_ends tbl : (forall kw t, In (kw, t) tbl -> all_ascii kw = true) -> ends_ascii (anykwp tbl).
Proof.
  intros Ha cs a k. induction tbl as [|[kw t] tbl IH]; cbn [anykwp]; [discriminate|].
  destruct (kw_hit kw cs) eqn:E; [|apply IH; intros kw' t' H; apply (Ha kw' t'); now right].
  intros H; injection H as _ <-. specialize (Ha kw t (or_introl eq_refl)).
  unfold kw_hit in E. destruct kw as [|k0 kw0] eqn:Ekw; [discriminate|]. rewrite <- Ekw in *.
  assert (Hlen : length kw = S (length kw0)) by now subst.
  destruct (nth_error kw (length kw0)) as [u|] eqn:Eu; [|apply nth_error_None in Eu; lia].
  exists (length kw0), u. split; [exact Hlen|]. split; [exact (starts_nth _ _ E _ _ Eu)|].
  apply nth_error_In in Eu. unfold all_ascii in Ha. rewrite forallb_forall in Ha. apply Ha in Eu. lia.
Qed.

Lemma anykwp_nil tbl : anykwp tbl [] = None.
Proof. induction tbl as [|[[|k kw] t] tbl IH]; cbn; auto. Qed.

(* [chomp_keyword kw] answers a length only, so it is not of the type [lifted]
   speaks of: it is read as the keyword table of the one entry [kw], whose token
   (any would do) is projected away again. *)
Definition one (kw : bytes) : list (bytes * token) := [(kw, TColon)].

Lemma chomp_keyword_one kw s : chomp_keyword kw s = option_map snd (first_keyword (one kw) s).
Proof. cbn [one first_keyword]. now destruct (chomp_keyword kw s). Qed.

Lemma chomp_keyword_edit kw phi s s' : nb s' = nb s -> (forall k, off s' k = phi (off s k)) ->
  chomp_keyword kw s' = option_map phi (chomp_keyword kw s).
Proof.
  intros E H. rewrite !chomp_keyword_one, (lifted_edit _ _ (first_keyword_lifted _) phi s s' E H).
  now destruct (first_keyword _ s) as [[t n]|].
Qed.

Definition any_keyword_lifted : lifted (anykwp keywords) chomp_any_keyword := first_keyword_lifted keywords.

Lemma any_keyword_ends : ends_ascii (anykwp keywords).
Proof. apply anykwp_ends. intros kw t H. now apply keywords_facts in H. Qed.

(* chomp_one_or_two on crunched bytes *)
Definition op12p (cs : bytes) : option (token * nat) :=
  match cs with
  | [] => None
  | b :: r =>
      match lookup_punct punct b with
      | None => None
      | Some t =>
          match r with
          | c :: _ => match lookup_two two_char t c with Some t2 => Some (t2, 2) | None => Some (t, 1) end
          | [] => Some (t, 1)
          end
      end
  end.

Lemma lookup_punct_up tbl b : (forall c t, In (c, t) tbl -> is_alpha c = false) ->
  lookup_punct tbl (to_upper b) = lookup_punct tbl b.
Proof.
  induction tbl as [|[c t] tbl IH]; intros H; cbn [lookup_punct]; [reflexivity|].
  rewrite (up_eqb c b (H c t (or_introl eq_refl))), IH; [reflexivity|]. intros c' t' Hin. apply (H c' t'). now right.
Qed.

Lemma lookup_two_up tbl f b : (forall f0 c t, In (f0, c, t) tbl -> is_alpha c = false) ->
  lookup_two tbl f (to_upper b) = lookup_two tbl f b.
Proof.
  induction tbl as [|[[f0 c] t] tbl IH]; intros H; cbn [lookup_two]; [reflexivity|].
  rewrite (up_eqb c b (H f0 c t (or_introl eq_refl))), IH; [reflexivity|]. intros f1 c' t' Hin. apply (H f1 c' t'). now right.
Qed.

Lemma punct_no_letter c t : In (c, t) punct -> is_alpha c = false.
Proof. intros H. now apply punct_facts, proj1, op_char_spec in H. Qed.
Lemma two_char_no_letter f c t : In (f, c, t) two_char -> is_alpha c = false.
Proof. intros H. now apply two_char_facts, proj1, op_char_spec in H. Qed.

Lemma one_or_two_lifted : lifted op12p chomp_one_or_two.
Proof.
  intros s. unfold chomp_one_or_two, op12p. pose proof (crunch_next_nb s) as H1.
  destruct (crunch_next s) as [[b n]|]; [|now rewrite H1]. destruct H1 as (En & -> & Hoff).
  rewrite (lookup_punct_up _ _ punct_no_letter). destruct (lookup_punct punct b) as [t|]; [|reflexivity].
  pose proof (crunch_next_nb (skipn n s)) as H2.
  destruct (crunch_next (skipn n s)) as [[c j]|]; [|now rewrite H2, En]. destruct H2 as (-> & -> & _).
  rewrite (lookup_two_up _ _ _ two_char_no_letter). destruct (lookup_two two_char t c); [|now rewrite En].
  now rewrite (Hoff 1).
Qed.

Lemma op12p_decides : decides op12p.
Proof.
  split; unfold op12p.
  - intros [|b [|c r]] a k; try discriminate; destruct (lookup_punct punct b) as [t|] eqn:Eb; try discriminate.
    + intros H; injection H as <- <-. cbn [firstn]. now rewrite Eb.
    + destruct (lookup_two two_char t c) eqn:Ec; intros H; injection H as <- <-; cbn [firstn]; now rewrite Eb, ?Ec.
  - intros [|b r] [|m]; try reflexivity. cbn [firstn]. destruct (lookup_punct punct b) as [t|]; [|reflexivity].
    destruct r as [|c r]; [discriminate|]. destruct (lookup_two two_char t c); discriminate.
Qed.

(* what it finds is an entry of [punct] at the first byte or of [two_char] at the second *)
Lemma op12p_spec cs t k : op12p cs = Some (t, k) ->
  verb_tok t = false /\ exists m u, k = S m /\ nth_error cs m = Some u /\ (u < 128)%N.
Proof.
  unfold op12p. destruct cs as [|b r]; [discriminate|]. destruct (lookup_punct punct b) as [t1|] eqn:E1; [|discriminate].
  apply lookup_punct_In, punct_facts in E1 as [Hb Hv1]. apply op_char_spec, proj1 in Hb.
  assert (One : Some (t1, 1) = Some (t, k) ->
                verb_tok t = false /\ exists m u, k = S m /\ nth_error (b :: r) m = Some u /\ (u < 128)%N)
    by (intros H; injection H as <- <-; split; [exact Hv1|exists 0, b; auto]).
  destruct r as [|c r]; [exact One|]. destruct (lookup_two two_char t1 c) as [t2|] eqn:E2; [|exact One].
  intros H; injection H as <- <-. apply lookup_two_In in E2 as [f0 E2]. apply two_char_facts in E2 as [Hc Hv2].
  apply op_char_spec, proj1 in Hc. split; [exact Hv2|exists 1, c; auto].
Qed.

Lemma op12p_ends : ends_ascii op12p.
Proof. intros cs t k H. apply (op12p_spec _ _ _ H). Qed.

(* number_span on crunched bytes: the leading digits and dots *)
Fixpoint digdots (cs : bytes) : bytes :=
  match cs with
  | b :: t => if is_digit b || (b =? 46)%N then b :: digdots t else []
  | [] => []
  end.

Lemma number_span_nb : forall s k d l,
  number_span s k d l =
  (d ++ digdots (nb s), match digdots (nb s) with [] => l | dd => k + off s (length dd) end).
Proof.
  induction s as [|b t IH]; intros k d l; cbn [number_span nb digdots]; [now rewrite app_nil_r|].
  destruct (is_basic_ws b) eqn:Eb.
  - rewrite IH. destruct (digdots (nb t)) as [|x dd]; [reflexivity|]. cbn [length]. rewrite off_cons, Eb. f_equal. lia.
  - cbn [digdots]. destruct (up_digdot b) as [-> E]. destruct (is_digit b || (b =? 46)%N); [|now rewrite app_nil_r].
    rewrite (E eq_refl), IH, <- app_assoc. cbn [app length]. rewrite off_cons, Eb. f_equal.
    destruct (digdots (nb t)); cbn [length]; rewrite ?off_0; lia.
Qed.

Definition nump (cs : bytes) : option (bytes * nat) :=
  match digdots cs with [] => None | dd => Some (dd, length dd) end.

Definition number_m (s : bytes) : option (bytes * nat) :=
  match number_span s 0 [] 0 with (_, 0) => None | r => Some r end.

Lemma number_lifted : lifted nump number_m.
Proof.
  intros s. unfold number_m, nump. rewrite number_span_nb. cbn [app Nat.add].
  destruct (digdots (nb s)) as [|x dd]; [reflexivity|]. cbn [length]. now rewrite off_pos.
Qed.

(* the number the digits spell, if they spell a finite one *)
Definition num_val (d : bytes) : option f64 :=
  match parse_f64 d with Some x => if f64_is_finite x then Some x else None | None => None end.

Lemma chomp_number_eq p s :
  chomp_number p s =
  match number_m s with
  | None => NoMatch
  | Some (d, n) => match num_val d with
                   | Some x => Match (TNumber x) n
                   | None => Fail (InvalidNumber p (p + n))
                   end
  end.
Proof.
  unfold chomp_number, number_m, num_val. destruct (number_span s 0 [] 0) as [d [|n]]; [reflexivity|].
  destruct (parse_f64 d) as [x|]; [destruct (f64_is_finite x)|]; reflexivity.
Qed.

Lemma digdots_firstn : forall cs, digdots (firstn (length (digdots cs)) cs) = digdots cs.
Proof.
  induction cs as [|b t IH]; [reflexivity|]. cbn [digdots]. destruct (is_digit b || (b =? 46)%N) eqn:E; [|reflexivity].
  cbn [length firstn digdots]. now rewrite E, IH.
Qed.

Lemma digdots_nth : forall cs m, m < length (digdots cs) ->
  exists u, nth_error cs m = Some u /\ (is_digit u || (u =? 46)%N) = true.
Proof.
  induction cs as [|b t IH]; intros m; cbn [digdots]; [cbn; lia|].
  destruct (is_digit b || (b =? 46)%N) eqn:E; [|cbn; lia].
  destruct m as [|m]; cbn [length nth_error]; [eauto|]. intros H. apply IH. lia.
Qed.

Lemma nump_decides : decides nump.
Proof.
  split; unfold nump.
  - intros cs a k. destruct (digdots cs) as [|x dd] eqn:E; [discriminate|]. intros H; injection H as <- <-.
    pose proof (digdots_firstn cs) as H. rewrite E in H. cbn [length] in *. now rewrite H.
  - intros [|b t] [|m]; try reflexivity. cbn [firstn digdots]. now destruct (is_digit b || (b =? 46)%N).
Qed.

Lemma nump_ends : ends_ascii nump.
Proof.
  unfold nump. intros cs a k. destruct (digdots cs) as [|x dd] eqn:E; [discriminate|]. intros H; injection H as _ <-.
  destruct (digdots_nth cs (length dd)) as (u & Hu & Hd); [rewrite E; cbn; lia|].
  exists (length dd), u. repeat split; [exact Hu|]. unfold is_digit in Hd. lia.
Qed.

(* symbol_span on crunched bytes, the keyword look-ahead included *)
Fixpoint symp (chars cs : bytes) : bytes * nat :=
  match cs with
  | [] => (chars, 0)
  | b :: t =>
      let dollar := (b =? 36)%N in
      let valid := match chars with [] => is_alpha b | _ => is_alnum b || dollar end in
      if negb valid then (chars, 0)
      else if dollar then (chars ++ [b], 1)
      else match anykwp keywords t with
           | Some _ => (chars ++ [b], 1)
           | None => let (c, k) := symp (chars ++ [b]) t in (c, S k)
           end
  end.

Lemma dollar_na : is_alpha 36 = false. Proof. reflexivity. Qed.

Lemma symbol_span_nb : forall s chars c p,
  symbol_span s chars c p =
  let (ch, k) := symp chars (nb s) in (ch, match k with 0 => c | _ => c + p + off s k end).
Proof.
  induction s as [|b t IH]; intros chars c p; cbn [symbol_span nb symp]; [reflexivity|].
  destruct (is_basic_ws b) eqn:Eb.
  - rewrite IH. destruct (symp chars (nb t)) as [ch [|k]]; [reflexivity|]. rewrite off_cons, Eb. f_equal. lia.
  - cbn [symp]. rewrite up_alpha, up_alnum, (up_eqb' _ _ dollar_na).
    destruct (negb _); [reflexivity|].
    assert (One : forall ch : bytes, (ch, c + p + 1) = (ch, c + p + off (b :: t) 1))
      by (intros ch; now rewrite off_cons, Eb, off_0).
    destruct (b =? 36)%N; [apply One|].
    unfold chomp_any_keyword. rewrite first_keyword_lifted.
    destruct (anykwp keywords (nb t)) as [[? ?]|]; [apply One|].
    rewrite IH. destruct (symp _ (nb t)) as [ch [|k]]; [apply One|]. rewrite !off_cons, Eb. f_equal. lia.
Qed.

Definition symbolp (cs : bytes) : option (bytes * nat) :=
  match symp [] cs with ([], _) => None | r => Some r end.

Definition symbol_m (s : bytes) : option (bytes * nat) :=
  match symbol_span s [] 0 0 with ([], _) => None | r => Some r end.

(* nothing consumed: the characters are as they were; else there are some, and
   the last byte consumed is ASCII *)
Lemma symp_spec : forall cs chars,
  match symp chars cs with
  | (ch, 0) => ch = chars
  | (ch, S k) => ch <> [] /\ exists u, nth_error cs k = Some u /\ (u < 128)%N
  end.
Proof.
  induction cs as [|b t IH]; intros chars; cbn [symp]; [reflexivity|].
  destruct (negb _) eqn:Ev; [reflexivity|].
  assert (One : chars ++ [b] <> [] /\ exists u, nth_error (b :: t) 0 = Some u /\ (u < 128)%N).
  { split; [now destruct chars|]. exists b. split; [reflexivity|]. apply negb_false_iff in Ev.
    destruct chars; unfold is_alnum, is_alpha, is_upper, is_lower, is_digit in Ev; lia. }
  destruct (b =? 36)%N; [exact One|]. destruct (anykwp keywords t); [exact One|].
  specialize (IH (chars ++ [b])). destruct (symp _ t) as [ch [|k]]; [now subst|exact IH].
Qed.

Lemma symbol_lifted : lifted symbolp symbol_m.
Proof.
  intros s. unfold symbol_m, symbolp. rewrite symbol_span_nb. pose proof (symp_spec (nb s) []) as H.
  destruct (symp [] (nb s)) as [ch [|k]]; [now subst|]. cbn [Nat.add]. destruct ch; [now destruct H|reflexivity].
Qed.

Lemma chomp_symbol_eq s :
  chomp_symbol s = match symbol_m s with None => NoMatch | Some (ch, n) => Match (TSymbol ch) n end.
Proof. unfold chomp_symbol, symbol_m. now destruct (symbol_span s [] 0 0) as [[|x ch] n]. Qed.

(* the keyword look-ahead sees no keyword in a cut where it saw none in the text *)
Lemma symp_cut : forall cs chars ch k, symp chars cs = (ch, k) -> symp chars (firstn k cs) = (ch, k).
Proof.
  induction cs as [|b t IH]; intros chars ch k; cbn [symp]; [intros H; injection H as <- <-; reflexivity|].
  destruct (negb _) eqn:Ev; [intros H; injection H as <- <-; reflexivity|].
  assert (One : (chars ++ [b], 1) = (ch, k) -> symp chars (firstn k (b :: t)) = (ch, k)).
  { intros H; injection H as <- <-. cbn [firstn symp]. rewrite Ev. destruct (b =? 36)%N; [reflexivity|].
    now rewrite anykwp_nil. }
  destruct (b =? 36)%N eqn:Ed; [exact One|]. destruct (anykwp keywords t) eqn:Ek; [exact One|].
  destruct (symp _ t) as [c j] eqn:E. intros H; injection H as <- <-. cbn [firstn symp]. rewrite Ed, Ev.
  now rewrite (d_none _ (anykwp_decides keywords) _ _ Ek), (IH _ _ _ E).
Qed.

Lemma symbolp_decides : decides symbolp.
Proof.
  split; unfold symbolp.
  - intros cs a k. destruct (symp [] cs) as [ch j] eqn:E. destruct ch as [|x ch]; [discriminate|].
    intros H; injection H as <- <-. now rewrite (symp_cut _ _ _ _ E).
  - intros [|b t] [|m]; try reflexivity. cbn [firstn symp]. destruct (negb _); [reflexivity|].
    destruct (b =? 36)%N; [discriminate|]. destruct (anykwp keywords t); [discriminate|].
    pose proof (symp_spec t ([] ++ [b])) as Hc. destruct (symp _ t) as [ch [|j]]; [subst; discriminate|].
    destruct ch; [now destruct Hc|discriminate].
Qed.

Lemma symbolp_ends : ends_ascii symbolp.
Proof.
  unfold symbolp. intros cs a k. pose proof (symp_spec cs []) as Hc. destruct (symp [] cs) as [ch [|j]].
  - subst. discriminate.
  - destruct ch; [now destruct Hc|]. intros H; injection H as _ <-. destruct Hc as [_ (u & Hu)]. eauto.
Qed.
