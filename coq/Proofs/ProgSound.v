(* Proofs/ProgSound.v — C06, whole programs: if the checker accepts every line
   of a program, no run of it fails with a syntax error or a type mismatch
   ([CheckSound.benign]; that every GOTO / GOSUB target exists is shown on the
   way, but [benign] lets EUndefinedStatement pass, so the theorems do not say
   it).  The theorems are in Proofs/ProgSoundElse.v; here is what they are
   stated with and built from.

   A position is ACCEPTED when the checker's walk over the rest of its line
   succeeds from it ([AccAt]).  [Inv], the invariant of a run of a program
   without ELSE and INPUT: the interpreter is on the program, holds no user
   function, satisfies the name-suffix typing invariant, and its cursor, every
   return address on the GOSUB stack and every FOR loop's start are accepted
   positions.  An error-free analysis accepts every stored line from its first
   token ([accepted_lines_nodef]). *)
From Coq Require Import List NArith ZArith Bool Lia.
From Abasic Require Import Model.Num Model.Token Model.State Model.Eval Model.Interp Model.Analyzer
     Proofs.Monad Proofs.Frames Proofs.StoreProofs Proofs.Safety Proofs.Caps Proofs.ImmFrame
     Proofs.AnalyzerFrame Proofs.CheckSound Proofs.AnalyzerFns Proofs.AnalyzerSafety
     Proofs.AnalyzerTermination Proofs.InputProofs.
Import ListNotations.
Local Open Scope nat_scope.

(* [cur_line], [bumped], [advd], [line_there] are Safety's [cur_toks], [bump], [adv], [line_exists _ (loc _)]
   (and [cur_line] is PlainToks' [line_of]) under the names the statements of C06 use: the bodies are the same,
   and the proofs pass from one spelling to the other by conversion *)
Definition cur_line (s : interp) : list token :=
  match loc_line (loc s) with
  | None => immediate s
  | Some n => match toks_get n (st_toks s) with Some ts => ts | None => [] end
  end.

Definition bumped (s : interp) : interp := set_reads (S (reads s)) s.
Definition advd (s : interp) : interp := set_loc (mkloc (loc_line (loc s)) (S (loc_idx (loc s)))) (bumped s).

Definition line_there (s : interp) : Prop := forall n, loc_line (loc s) = Some n -> toks_get n (st_toks s) <> None.

Lemma peek_cases s :
  (exists p, peek_next_token s = (Panic p, bumped s))
  \/ (peek_next_token s = (Ok (nth_error (cur_line s) (loc_idx (loc s))), bumped s) /\ line_there s).
Proof.
  unfold peek_next_token, cur_tokens, tokens_for_line, cur_line, line_there, bind, get, modify, ret, bumped. cbn.
  destruct (loc_line (loc s)) as [n|]; [|right; split; [reflexivity | discriminate]].
  destruct (toks_get n (st_toks s)) eqn:E; [right; split; [reflexivity|] | left; eexists; reflexivity].
  intros n' H. injection H as <-. congruence.
Qed.

Lemma line_there_exists s : line_there s -> line_exists s (loc s).
Proof. unfold line_there, line_exists, line_ok. intros H. destruct (loc_line (loc s)) as [n|]; [exact (H n eq_refl) | exact I]. Qed.

Lemma cur_tokens_there s : line_there s -> cur_tokens s = (Ok (cur_line s), s).
Proof. intros H. exact (cur_tokens_eq s (line_there_exists s H)). Qed.

Lemma peek_there s : line_there s -> peek_next_token s = (Ok (nth_error (cur_line s) (loc_idx (loc s))), bumped s).
Proof. intros H. exact (peek_eq s (line_there_exists s H)). Qed.

Lemma has_next_there s : line_there s ->
  has_next_token s = (Ok (match nth_error (cur_line s) (loc_idx (loc s)) with Some _ => true | None => false end), bumped s).
Proof. intros H. unfold has_next_token. rewrite bind_run, (peek_there s H). reflexivity. Qed.

Lemma discard_there s : line_there s ->
  discard_remaining_tokens s = (Ok tt, set_loc (mkloc (loc_line (loc s)) (length (cur_line s))) s).
Proof. intros H. unfold discard_remaining_tokens. rewrite bind_run, (cur_tokens_there s H). reflexivity. Qed.

Lemma is_else_there s : line_there s ->
  is_else_of_then_clause s = (Ok (then_before (rev (firstn (Nat.pred (loc_idx (loc s))) (cur_line s)))), s).
Proof. intros H. unfold is_else_of_then_clause. rewrite bind_run, (cur_tokens_there s H), bind_get. reflexivity. Qed.

Lemma line_there_bumped s : line_there s -> line_there (bumped s).
Proof. exact (fun H => H). Qed.
Lemma line_there_advd s : line_there s -> line_there (advd s).
Proof. exact (fun H => H). Qed.

Lemma C_cur_line s sa : C s sa -> cur_line sa = cur_line s /\ (line_there s <-> line_there sa).
Proof.
  intros (C1 & _ & C3 & C4). unfold cur_line, line_there. rewrite C1, C3, C4. split; reflexivity.
Qed.

Definition eq_but_reads (a b : interp) : Prop := set_reads 0 a = set_reads 0 b.
Lemma ebr_trans a b c : eq_but_reads a b -> eq_but_reads b c -> eq_but_reads a c.
Proof. unfold eq_but_reads; congruence. Qed.
Lemma ebr_bumped a : eq_but_reads a (bumped a). Proof. reflexivity. Qed.
Lemma ebr_sym a b : eq_but_reads a b -> eq_but_reads b a. Proof. unfold eq_but_reads; congruence. Qed.
Lemma ebr_refl a : eq_but_reads a a. Proof. reflexivity. Qed.
Lemma ebr_fields a b : eq_but_reads a b ->
  st_toks a = st_toks b /\ st_keys a = st_keys b /\ immediate a = immediate b /\ loc a = loc b /\ functions a = functions b.
Proof.
  intros H. unfold eq_but_reads in H.
  repeat split; [exact (f_equal st_toks H) | exact (f_equal st_keys H) | exact (f_equal immediate H)
                | exact (f_equal loc H) | exact (f_equal functions H)].
Qed.

Lemma goto_ok s n : store_has n s = true ->
  goto_line_number n s = (Ok tt, set_loc (mkloc (Some n) 0) (set_breakpoint None s)).
Proof. intros H. rewrite goto_eq, H. reflexivity. Qed.

Lemma an_goto_inv sa acc sa' acc' : an_goto_or_gosub (sa, acc) = (Ok tt, (sa', acc')) ->
  exists x, next_token sa = (Ok (Some (TNumber x)), sa') /\ acc' = acc
            /\ store_has (Z.to_N (f64_to_u64_sat x)) sa' = true.
Proof.
  unfold an_goto_or_gosub, abind, lift. cbn [fst snd].
  destruct (next_token sa) as [[t|e l|p| |] sa1]; try discriminate.
  destruct t as [t|]; [|discriminate]. destruct t; try discriminate.
  unfold get. cbn [fst snd]. destruct (store_has _ sa1) eqn:Eh; [|discriminate].
  unfold aret. intros E. injection E as <- <-. eexists. split; [reflexivity|]. split; [reflexivity | exact Eh].
Qed.

Lemma an_next_inv sa acc sa' acc' : an_next (sa, acc) = (Ok tt, (sa', acc')) ->
  exists sym, next_token sa = (Ok (Some (TSymbol sym)), sa') /\ type_of_name sym = TyNumber.
Proof.
  unfold an_next, abind, lift. cbn [fst snd].
  destruct (next_token sa) as [[t|e l|p| |] sa1]; try discriminate.
  destruct t as [t|]; [|discriminate]. destruct t; try discriminate.
  unfold prev_loc, aget_loc, abind, lift, get, aret, log_access, check_number, check. cbn [fst snd].
  match goal with |- context [vtype_eqb (type_of_name ?n) _] =>
    destruct (vtype_eqb (type_of_name n) TyNumber) eqn:Ev; [|discriminate];
    unfold aret; intros E; injection E as <- _; exists n; split; [reflexivity|];
    destruct (type_of_name n); [discriminate | reflexivity]
  end.
Qed.

Lemma variables_get_kind sym s : caps_inv s ->
  variables_get sym s = (Ok (match alist_get sym (variables s) with Some v => v | None => default_value sym end), s)
  /\ kind (match alist_get sym (variables s) with Some v => v | None => default_value sym end) = type_of_name sym.
Proof.
  intros (_ & _ & _ & K4 & _). split; [reflexivity|].
  destruct (alist_get sym (variables s)) as [v|] eqn:E; [|apply default_kind].
  apply kind_type_matches. apply (K4 sym v). apply alist_get_In. exact E.
Qed.

Lemma next_token_cases s :
  (exists p, next_token s = (Panic p, bumped s))
  \/ (line_there s /\
      next_token s = match nth_error (cur_line s) (loc_idx (loc s)) with
                     | Some t => (Ok (Some t), advd s)
                     | None => (Ok None, bumped s)
                     end).
Proof.
  unfold next_token. rewrite bind_run.
  destruct (peek_cases s) as [[p Hp] | [Hp Hl]]; rewrite Hp; [left; eexists; reflexivity|].
  right. split; [exact Hl|]. destruct (nth_error (cur_line s) (loc_idx (loc s))); reflexivity.
Qed.

Lemma next_token_there s : line_there s ->
  next_token s = match nth_error (cur_line s) (loc_idx (loc s)) with
                 | Some t => (Ok (Some t), advd s)
                 | None => (Ok None, bumped s)
                 end.
Proof. intros H. exact (next_token_eq s (line_there_exists s H)). Qed.

Lemma R_advd s sa : R s sa -> R (advd s) (advd sa).
Proof.
  intros ((C1 & C2 & C3 & C4) & Hc & F1 & F2).
  split; [split; [exact C1|]; split; [exact C2|]; split; [exact C3|]; unfold advd; cbn [loc set_loc]; rewrite C4; reflexivity|].
  split; [exact Hc|]. split; [exact F1 | exact F2].
Qed.

Lemma next_token_agrees s sa t sa' : R s sa -> next_token sa = (Ok (Some t), sa') ->
  nth_error (cur_line s) (loc_idx (loc s)) = Some t /\ next_token s = (Ok (Some t), advd s) /\ R (advd s) sa'.
Proof.
  intros HR En. destruct (next_token_cases sa) as [[p Hp] | [Hl Hn]]; [congruence|]. rewrite En in Hn.
  destruct (C_cur_line s sa (proj1 HR)) as [Ecl Hlt].
  rewrite Ecl, <- (proj2 (proj2 (proj2 (proj1 HR)))) in Hn.
  destruct (nth_error (cur_line s) (loc_idx (loc s))) as [t0|] eqn:Et; [|discriminate Hn]. injection Hn as -> ->.
  split; [reflexivity|]. split; [rewrite (next_token_there s (proj2 Hlt Hl)), Et; reflexivity | exact (R_advd _ _ HR)].
Qed.

Lemma accept_cases e s :
  (exists p, accept_next_token e s = (Panic p, bumped s))
  \/ (line_there s /\
      accept_next_token e s = match nth_error (cur_line s) (loc_idx (loc s)) with
                              | Some t => if token_eqb t e then (Ok true, advd s) else (Ok false, bumped s)
                              | None => (Ok false, bumped s)
                              end).
Proof.
  unfold accept_next_token. rewrite bind_run.
  destruct (peek_cases s) as [[p Hp] | [Hp Hl]]; rewrite Hp; [left; eexists; reflexivity|].
  right. split; [exact Hl|]. destruct (nth_error (cur_line s) (loc_idx (loc s))) as [t|]; [|reflexivity].
  destruct (token_eqb t e); reflexivity.
Qed.

Lemma an_statement_or_goto_inv arec sa acc st' :
  an_statement_or_goto arec (sa, acc) = (Ok tt, st') ->
  line_there sa /\
  match nth_error (cur_line sa) (loc_idx (loc sa)) with
  | Some (TNumber _) => an_goto_or_gosub (bumped sa, acc) = (Ok tt, st')
  | _ => arec (bumped sa, acc) = (Ok tt, st')
  end.
Proof.
  unfold an_statement_or_goto, abind, lift. cbn [fst snd].
  destruct (peek_cases sa) as [[p Hp] | [Hp Hl]]; rewrite Hp; [discriminate|]. cbn [fst snd]. intros E.
  split; [exact Hl|]. destruct (nth_error (cur_line sa) (loc_idx (loc sa))) as [[]|]; exact E.
Qed.

Lemma an_if_inv f n arec sa acc st' :
  an_if f n arec (sa, acc) = (Ok tt, st') ->
  exists ty sa1 acc1 sa2 sa3 acc3,
    analyze_expression f n (sa, acc) = (Ok ty, (sa1, acc1))
    /\ expect_next_token TThen sa1 = (Ok tt, sa2)
    /\ an_statement_or_goto arec (sa2, acc1) = (Ok tt, (sa3, acc3))
    /\ (e <-- lift (accept_next_token TElse) ;; if e then an_statement_or_goto arec else aret tt) (sa3, acc3) = (Ok tt, st').
Proof.
  unfold an_if, aexpr. unfold abind at 1.
  destruct (analyze_expression f n (sa, acc)) as [[ty|? ?|?| |] [sa1 acc1]] eqn:E1; try discriminate.
  unfold abind at 1, lift at 1. cbn [fst snd].
  destruct (expect_next_token TThen sa1) as [[[]|? ?|?| |] sa2] eqn:E2; try discriminate.
  unfold abind at 1.
  destruct (an_statement_or_goto arec (sa2, acc1)) as [[[]|? ?|?| |] [sa3 acc3]] eqn:E3; try discriminate.
  intros E. exists ty, sa1, acc1, sa2, sa3, acc3.
  split; [reflexivity|]. split; [exact E2|]. split; [exact E3 | exact E].
Qed.

Lemma an_else_inv arec sa acc st' :
  (e <-- lift (accept_next_token TElse) ;; if e then an_statement_or_goto arec else aret tt) (sa, acc) = (Ok tt, st') ->
  nth_error (cur_line sa) (loc_idx (loc sa)) = Some TElse /\ an_statement_or_goto arec (advd sa, acc) = (Ok tt, st')
  \/ nth_error (cur_line sa) (loc_idx (loc sa)) <> Some TElse /\ st' = (bumped sa, acc).
Proof.
  unfold abind at 1, lift at 1. cbn [fst snd].
  destruct (accept_cases TElse sa) as [[p Hp] | [_ Hacc]]; rewrite ?Hp, ?Hacc; [discriminate|].
  destruct (nth_error (cur_line sa) (loc_idx (loc sa))) as [t|]; [destruct (token_eqb t TElse) eqn:Eq|]; intros E.
  - left. split; [destruct t; try discriminate Eq; reflexivity | exact E].
  - right. split; [intros [= ->]; discriminate Eq | injection E as <-; reflexivity].
  - right. split; [discriminate | injection E as <-; reflexivity].
Qed.

Lemma scan_cases rec n s :
  (exists p, repeat_m (S n) (if_scan_body rec) tt s = (Panic p, bumped s))
  \/ (line_there s /\ (nth_error (cur_line s) (loc_idx (loc s)) <> Some TElse ->
        repeat_m (S n) (if_scan_body rec) tt s =
        match nth_error (cur_line s) (loc_idx (loc s)) with
        | None => (Ok tt, bumped s)
        | Some TColon => repeat_m n (if_scan_body rec) tt (set_loc (mkloc (loc_line (loc s)) (length (cur_line s))) (advd s))
        | Some _ => repeat_m n (if_scan_body rec) tt (advd s)
        end)).
Proof.
  destruct (next_token_cases s) as [[p Hp] | [Hl Hn]]; [left; exists p | right; split; [exact Hl|]; intros Hne];
    cbn [repeat_m]; unfold if_scan_body at 1; rewrite bind_assoc, bind_run; rewrite ?Hp, ?Hn; [reflexivity|].
  destruct (nth_error (cur_line s) (loc_idx (loc s))) as [t|]; [|reflexivity].
  destruct t; try (rewrite bind_ret; reflexivity); [|congruence].
  rewrite bind_assoc, bind_run, (discard_there _ (line_there_advd s Hl)), bind_ret. reflexivity.
Qed.

Lemma edispatch_dispatch f n rec t : edispatch f n rec (Some t) = dispatch f n rec t.
Proof. destruct t; reflexivity. Qed.

(* the statement evaluator by the token under the cursor, in the vocabulary of this file: Proofs/InputProofs.v's
   [statement_body_eq]; [traced s] differs from [s] in [outputs] only *)
Lemma body_cases fi nest rec s :
  (exists p, evaluate_statement_body fi nest rec s = (Panic p, bumped (traced s)))
  \/ (line_there s /\
      evaluate_statement_body fi nest rec s =
        match nth_error (cur_line s) (loc_idx (loc s)) with
        | Some t => edispatch fi nest rec (Some t) (advd (traced s))
        | None => (Ok tt, bumped (traced s))
        end).
Proof.
  rewrite statement_body_eq, bind_run.
  destruct (next_token_cases (traced s)) as [[p Hp] | [Hl Hn]]; rewrite ?Hp, ?Hn; [left; eexists; reflexivity|].
  right. split; [exact Hl|]. change (cur_line (traced s)) with (cur_line s). change (loc (traced s)) with (loc s).
  destruct (nth_error (cur_line s) (loc_idx (loc s))) as [t|]; [rewrite edispatch_dispatch|]; reflexivity.
Qed.

Lemma an_body_inv f n arec sa acc st' : an_statement_body f n arec (sa, acc) = (Ok tt, st') ->
  line_there sa /\
  match nth_error (cur_line sa) (loc_idx (loc sa)) with
  | Some t => adispatch f n arec (Some t) (advd sa, acc) = (Ok tt, st')
  | None => st' = (bumped sa, acc)
  end.
Proof.
  rewrite an_statement_body_dispatch. unfold abind at 1, lift at 1. cbn [fst snd].
  destruct (next_token_cases sa) as [[p Hp] | [Hl Hn]]; rewrite ?Hp, ?Hn; [discriminate|]. intros E. split; [exact Hl|].
  destruct (nth_error (cur_line sa) (loc_idx (loc sa))); [exact E|]. cbn [adispatch] in E. injection E as <-. reflexivity.
Qed.

Lemma analyze_statement_inv f n sa acc st' : analyze_statement f n (sa, acc) = (Ok tt, st') ->
  exists f', f = S f' /\ line_there sa /\
  match nth_error (cur_line sa) (loc_idx (loc sa)) with
  | Some t => adispatch f' (S n) (analyze_statement f' (S n)) (Some t) (advd sa, acc) = (Ok tt, st')
  | None => st' = (bumped sa, acc)
  end.
Proof.
  destruct f as [|f]; cbn [analyze_statement]; [discriminate|].
  destruct (Nat.eqb n max_nesting); [discriminate|]. intros E. exists f. split; [reflexivity|].
  exact (an_body_inv _ _ _ _ _ _ E).
Qed.

(* [Reach fi s0 s]: [s] is reached from [s0] by continue calls that succeeded *)
Inductive Reach (fi : nat) (s0 : interp) : interp -> Prop :=
| reach_refl : Reach fi s0 s0
| reach_step s1 s2 : Reach fi s0 s1 -> state s1 = Running -> continue_evaluating fi s1 = (Ok tt, s2) -> Reach fi s0 s2.

Definition turn_ok (fi : nat) (s : interp) : Prop :=
  match continue_evaluating fi s with (Err e _, _) => benign e | _ => True end.

Lemma run_prefix_facts s : exists s1,
  run_from_first_numbered_line s = (Ok tt, s1) /\ functions s1 = [] /\ stack s1 = [] /\ loops s1 = []
  /\ st_toks s1 = st_toks s /\ st_keys s1 = st_keys s /\ immediate s1 = []
  /\ variables s1 = variables s /\ arrays s1 = arrays s
  /\ loc s1 = match hd_error (st_keys s) with Some n => mkloc (Some n) 0 | None => imm0 end.
Proof.
  eexists. split.
  - unfold run_from_first_numbered_line, reset_runtime_state, reset_data_cursor, program_end, set_and_goto_immediate_line,
      bind, modify. cbn. reflexivity.
  - unfold store_first. destruct s as [tk ks ? ? bp ? ? ? ? ? ? ? ? ? ? ? ? ? ?]. cbn.
    destruct bp; cbn; destruct ks; cbn; repeat split.
Qed.

(* every return address on the GOSUB stack and every FOR loop's start satisfies [P] *)
Definition FramesP (P : location -> Prop) (s : interp) : Prop :=
  Forall (fun fr => P (fr_ret fr)) (stack s) /\ Forall (fun lp => P (lp_loc lp)) (loops s).

Lemma drop_loop_framesP P sym s : FramesP P s -> FramesP P (drop_loop sym s).
Proof.
  intros [F1 F2]. unfold drop_loop. destruct (find_loop_rev sym (loops s)) as [i|]; [|split; assumption].
  split; [exact F1|]. replace (loops (set_loops _ s)) with (firstn i (loops s)) by reflexivity.
  rewrite <- (firstn_skipn i (loops s)) in F2. apply Forall_app in F2. apply F2.
Qed.

Section Prog.
  Variable fa : nat.                          (* the checker's fuel *)
  Variable ptoks : list (N * list token).     (* the stored program *)
  Variable pkeys : list N.

  Definition onprog (s : interp) : Prop := st_toks s = ptoks /\ st_keys s = pkeys /\ immediate s = [].

  (* the checker's walk over the rest of a line succeeds *)
  Definition Accepts (st : astate) : Prop := exists stmts m st', walk_line fa stmts m st = (Ok None, st').
  Definition AccAt (l : location) : Prop :=
    exists sa acc, onprog sa /\ functions sa = [] /\ loc sa = l /\ Accepts (sa, acc).

  Definition FramesOK (s : interp) : Prop :=
    Forall (fun fr => AccAt (fr_ret fr)) (stack s) /\ Forall (fun lp => AccAt (lp_loc lp)) (loops s).

  Definition Good (s : interp) : Prop := onprog s /\ caps_inv s /\ functions s = [] /\ FramesOK s.

  Lemma onprog_step {A} (m : M A) s :
    mrel (keeps st_toks) m -> mrel (keeps st_keys) m -> mrel IM m -> onprog s -> onprog (snd (m s)).
  Proof.
    intros Ht Hkk Hi (O1 & O2 & O3). pose proof (Ht s) as T. pose proof (Hkk s) as T2. pose proof (Hi s) as I1.
    unfold keeps, IM in *. rewrite O3 in I1.
    split; [congruence|]. split; [congruence|].
    destruct (immediate (snd (m s))); [reflexivity | cbn in I1; lia].
  Qed.

  Lemma drop_loop_frames sym s : FramesOK s -> FramesOK (drop_loop sym s).
  Proof. exact (drop_loop_framesP AccAt sym s). Qed.

  Lemma onprog_AF sa sa' : AF sa sa' -> onprog sa -> onprog sa'.
  Proof. intros (A1 & A2 & A3 & _) (O1 & O2 & O3). repeat split; congruence. Qed.

  Lemma next_token_bothP P s sa acc : R s sa -> onprog s -> FramesP P s ->
    fst (next_token s) = fst (next_token sa)
    /\ lift next_token (sa, acc) = (fst (next_token sa), (snd (next_token sa), acc))
    /\ R (snd (next_token s)) (snd (next_token sa)) /\ onprog (snd (next_token s)) /\ FramesP P (snd (next_token s)).
  Proof.
    intros HR Hon Hfr. destruct (cp_next_token s sa (proj1 HR)) as (E & HC & K1 & K2).
    split; [exact E|]. split; [unfold lift; cbn [fst snd]; destruct (next_token sa); reflexivity|].
    split; [eapply R_same_rt; eassumption|]. split.
    - apply (onprog_step next_token s); [apply fr_next_token, keeps_setters_ok, rf_st_toks
        | apply fr_next_token, keeps_setters_ok, rf_st_keys | apply fr_next_token, IM_setters_ok | exact Hon].
    - destruct K1 as (S1 & S2 & _). unfold FramesP. rewrite S1, S2. exact Hfr.
  Qed.

  Lemma next_token_both s sa acc : R s sa -> onprog s -> FramesOK s ->
    fst (next_token s) = fst (next_token sa)
    /\ lift next_token (sa, acc) = (fst (next_token sa), (snd (next_token sa), acc))
    /\ R (snd (next_token s)) (snd (next_token sa)) /\ onprog (snd (next_token s)) /\ FramesOK (snd (next_token s)).
  Proof. exact (next_token_bothP AccAt s sa acc). Qed.

  Lemma AccAt_walk sa acc stmts m st' : onprog sa -> functions sa = [] ->
    walk_line fa stmts m (sa, acc) = (Ok None, st') -> AccAt (loc sa).
  Proof.
    intros Hon Hfn Hw. exists sa, acc. split; [exact Hon|]. split; [exact Hfn|]. split; [reflexivity|].
    exists stmts, m, st'. exact Hw.
  Qed.

  Lemma AccAt_end sa l : onprog sa -> functions sa = [] ->
    nth_error (cur_line (set_loc l sa)) (loc_idx l) = None ->
    (forall n, loc_line l = Some n -> toks_get n ptoks <> None) ->
    AccAt l.
  Proof.
    intros Hon Hfn Hnone Hline. exists (set_loc l sa), [].
    split; [exact Hon|]. split; [exact Hfn|]. split; [reflexivity|].
    exists 1, (mkmap [] []), (bumped (set_loc l sa), []). cbn [walk_line fst snd].
    rewrite has_next_there.
    - replace (loc_idx (loc (set_loc l sa))) with (loc_idx l) by reflexivity. rewrite Hnone. reflexivity.
    - intros n Hn. destruct Hon as (O1 & _). replace (st_toks (set_loc l sa)) with ptoks by (destruct sa; symmetry; exact O1).
      apply Hline. exact Hn.
  Qed.

  Lemma AccAt_imm0 sa : onprog sa -> functions sa = [] -> AccAt imm0.
  Proof.
    intros Hon Hfn. apply (AccAt_end sa imm0 Hon Hfn); [|discriminate].
    unfold cur_line. destruct Hon as (_ & _ & O3). destruct sa; cbn in *. subst. reflexivity.
  Qed.

  Lemma walk_line_accepts_inv stmts m sa acc st' :
    walk_line fa stmts m (sa, acc) = (Ok None, st') ->
    line_there sa /\
    match nth_error (cur_line sa) (loc_idx (loc sa)) with
    | None => True
    | Some _ => exists k sa1 acc1, stmts = S k /\ analyze_statement fa 0 (bumped sa, acc) = (Ok tt, (sa1, acc1))
                                  /\ walk_line fa k m (sa1, acc1) = (Ok None, st')
    end.
  Proof.
    destruct stmts as [|k]; [discriminate|]. cbn [walk_line fst snd]. unfold has_next_token. rewrite bind_run.
    destruct (peek_cases sa) as [[p Hp] | [Hp Hl]]; rewrite Hp; [discriminate|]. intros Hw. split; [exact Hl|].
    destruct (nth_error (cur_line sa) (loc_idx (loc sa))) as [t|]; [|exact I]. unfold ret in Hw.
    destruct (analyze_statement fa 0 (bumped sa, acc)) as [[[]|e l|p| |] [sa1 acc1]];
      try discriminate Hw;
      try (destruct (populate_error_location e l (fst (sa1, acc1))) as [l0|];
           [destruct (map_location_to_source m l0) as [[? ?]|]|]; discriminate Hw).
    exists k, sa1, acc1. split; [reflexivity|]. split; [reflexivity | exact Hw].
  Qed.

  Lemma store_has_line s n : onprog s -> store_has n s = true -> toks_get n ptoks <> None.
  Proof. intros (O1 & _) H. unfold store_has in H. rewrite O1 in H. destruct (toks_get n ptoks); [discriminate | discriminate H]. Qed.

  Lemma onprog_of_C s sa : C s sa -> onprog s -> onprog sa.
  Proof. intros (C1 & C2 & C3 & C4) (O1 & O2 & O3). repeat split; congruence. Qed.

  Definition Inv (s : interp) : Prop :=
    onprog s /\ caps_inv s /\ functions s = [] /\ FramesOK s /\ AccAt (loc s).

  (* the run invariants ([Inv], ProgSoundElse's [InvL] and [GoodS]) read only these nine fields *)
  Lemma inv_ext (P Q : location -> Prop) s s' :
    onprog s /\ caps_inv s /\ functions s = [] /\ FramesP P s /\ Q (loc s) ->
    st_toks s' = st_toks s -> st_keys s' = st_keys s -> immediate s' = immediate s -> loc s' = loc s ->
    functions s' = functions s -> stack s' = stack s -> loops s' = loops s ->
    variables s' = variables s -> arrays s' = arrays s ->
    onprog s' /\ caps_inv s' /\ functions s' = [] /\ FramesP P s' /\ Q (loc s').
  Proof.
    intros ((O1 & O2 & O3) & Hc & Hf & (F1 & F2) & Ha) E1 E2 E3 E4 E5 E6 E7 E8 E9.
    split; [repeat split; congruence|]. split; [apply (caps_inv_ext s); assumption|]. split; [congruence|].
    split; [unfold FramesP; rewrite E6, E7; split; assumption | rewrite E4; exact Ha].
  Qed.

  Lemma Inv_ext s s' : Inv s ->
    st_toks s' = st_toks s -> st_keys s' = st_keys s -> immediate s' = immediate s -> loc s' = loc s ->
    functions s' = functions s -> stack s' = stack s -> loops s' = loops s ->
    variables s' = variables s -> arrays s' = arrays s -> Inv s'.
  Proof. exact (inv_ext AccAt AccAt s s'). Qed.

End Prog.

Definition clean_program (T : list (N * list token)) : Prop :=
  forall n ts, toks_get n T = Some ts -> clean_line ts = true.

Definition nodef_program (T : list (N * list token)) : Prop :=
  forall n ts, toks_get n T = Some ts -> nodef_line ts = true.

(* on lines without ELSE the scan of a false IF runs to the end of the line and changes nothing else *)
Section Clean.
  Variable ptoks : list (N * list token).
  Variable pkeys : list N.
  Hypothesis Hclean : forall n ts, toks_get n ptoks = Some ts -> clean_line ts = true.
  Notation onprog := (onprog ptoks pkeys).

  Lemma clean_at s i t : onprog s -> nth_error (cur_line s) i = Some t -> clean_tok t = true.
  Proof.
    intros (H1 & _ & H3) Hn. unfold cur_line in Hn. rewrite H1, H3 in Hn.
    destruct (loc_line (loc s)) as [n|]; [|destruct i; discriminate].
    destruct (toks_get n ptoks) as [ts|] eqn:E; [|destruct i; discriminate].
    pose proof (Hclean n ts E) as Hc. unfold clean_line in Hc. rewrite forallb_forall in Hc.
    apply Hc. eapply nth_error_In; eassumption.
  Qed.

  Lemma scan_clean rec : forall n s, onprog s ->
    match repeat_m n (if_scan_body rec) tt s with
    | (Ok _, s') => functions s' = functions s /\ stack s' = stack s /\ loops s' = loops s /\ onprog s'
                    /\ line_there s' /\ nth_error (cur_line s') (loc_idx (loc s')) = None
    | (Err _ _, _) => False
    | _ => True
    end.
  Proof.
    induction n as [|n IH]; intros s Hon; [exact I|].
    destruct (scan_cases rec n s) as [[p Hp] | [Hl Hs]]; [rewrite Hp; exact I|].
    assert (Hne : nth_error (cur_line s) (loc_idx (loc s)) <> Some TElse).
    { intros E. pose proof (clean_at s _ _ Hon E) as Hc. discriminate Hc. }
    rewrite (Hs Hne). destruct (nth_error (cur_line s) (loc_idx (loc s))) as [t|] eqn:Et.
    - (* one token on, or behind ":" to the end of the line: program, frames and function table stay *)
      assert (Hgo : forall s0, onprog s0 -> functions s0 = functions s -> stack s0 = stack s -> loops s0 = loops s ->
                match repeat_m n (if_scan_body rec) tt s0 with
                | (Ok _, s') => functions s' = functions s /\ stack s' = stack s /\ loops s' = loops s /\ onprog s'
                                /\ line_there s' /\ nth_error (cur_line s') (loc_idx (loc s')) = None
                | (Err _ _, _) => False
                | _ => True
                end).
      { intros s0 Ho E1 E2 E3. pose proof (IH s0 Ho) as H. rewrite E1, E2, E3 in H. exact H. }
      destruct t; apply Hgo; try exact Hon; reflexivity.
    - repeat split; try apply Hon; [exact Hl | exact Et].
  Qed.
End Clean.

Definition is_error_msg (msg : message) : bool := match msg with MError _ _ _ => true | _ => false end.

(* From the analysis to the program: [walk_lines] goes over the stored lines in key order, each from its first token
   in a state of the same kind (on the program [T], no function defined: DEF-free lines), and its messages are
   those of the single lines.  So a walk that added no message accepted every line ([walk_accepts], which gives the
   hypothesis [G] of Proofs/ProgSoundElse.v), and every message it added comes from the walk of one stored line
   ([walk_msg_origin], for Proofs/LineComplete.v).  From Proofs/AnalyzerSafety.v: [WI T st], the invariant of the
   walk (the state holds [T], its accesses are in [T], the cursor is on a stored line or on the empty immediate
   line); [walk_line_spec], what one line's walk keeps of it; [walk_start], that the walk starts in it. *)
Section Link.
  Variable T : list (N * list token).
  Variable keys : list N.
  Variable m : source_map.
  Variable fuel : nat.
  Hypothesis Hsorted : keys_sorted keys.
  Hypothesis HK : forall k, In k keys -> toks_get k T <> None.
  Hypothesis Hnodef : forall n ts, toks_get n T = Some ts -> nodef_line ts = true.

  Lemma walk_line_msg_is_error : forall stmts st msg st',
    walk_line fuel stmts m st = (Ok (Some msg), st') -> is_error_msg msg = true.
  Proof.
    induction stmts as [|k IHk]; intros st msg st' Ew; cbn [walk_line] in Ew; [discriminate Ew|].
    destruct (has_next_token (fst st)) as [[[|]|? ?|?| |] p1]; try discriminate Ew.
    destruct (analyze_statement fuel 0 (p1, snd st)) as [[u|e l|p| |] st1]; try discriminate Ew.
    - exact (IHk st1 msg st' Ew).
    - destruct (populate_error_location e l (fst st1)) as [l0|]; [|discriminate Ew].
      destruct (map_location_to_source m l0) as [[fl r]|]; [|discriminate Ew].
      injection Ew as <- _. reflexivity.
  Qed.

  Lemma walk_lines_appends : forall n msgs st r msgs' stf,
    walk_lines fuel n m msgs st = (r, msgs', stf) ->
    exists extra, msgs' = msgs ++ extra /\ forallb is_error_msg extra = true.
  Proof.
    intros n msgs st r msgs' stf E.
    destruct (AnalyzerProofs.walk_lines_adds fuel m _ walk_line_msg_is_error _ _ _ _ _ _ E) as (x & Hx & HP).
    exists x. split; [exact Hx | apply forallb_forall, Forall_forall, HP].
  Qed.

  (* one line of the walk, from the first token of stored line [ln]: the line's own walk,
     then the walk goes on from the first token of the next stored line, in a state of the same kind *)
  Lemma walk_lines_step n msgs st ln :
    WI T st -> st_keys (fst st) = keys -> immediate (fst st) = [] -> functions (fst st) = [] ->
    loc (fst st) = mkloc (Some ln) 0 ->
    exists stmts, match walk_line fuel stmts m st with
    | (Ok om, st') =>
        let msgs' := match om with Some msg => msgs ++ [msg] | None => msgs end in
        walk_lines fuel (S n) m msgs st =
          match keys_after ln keys with
          | Some n' => walk_lines fuel n m msgs' (set_loc (mkloc (Some n') 0) (fst st'), snd st')
          | None => (Ok tt, msgs', (fst st', snd st'))
          end
        /\ forall n', keys_after ln keys = Some n' ->
             let st1 := (set_loc (mkloc (Some n') 0) (fst st'), snd st') in
             In n' keys /\ (ln < n')%N /\ (forall k, In k keys -> (ln < k)%N -> (n' <= k)%N)
             /\ WI T st1 /\ st_keys (fst st1) = keys /\ immediate (fst st1) = [] /\ functions (fst st1) = []
    | (r, st') => walk_lines fuel (S n) m msgs st = (match r with Panic p => Panic p | OutOfFuel => OutOfFuel | _ => Panic PUnwrapLine end, msgs, st')
    end.
  Proof.
    intros HW Hk Him Hfn Hloc. cbn [walk_lines].
    set (stmts := S (length (match fst (cur_tokens (fst st)) with Ok ts => ts | _ => [] end))). exists stmts.
    assert (HT : st_toks (fst st) = T) by apply HW.
    destruct (walk_line_spec T m fuel stmts st HW) as (HW' & Hkeys' & Hline & _).
    pose proof (af_walk_line fuel m stmts st) as Haf. pose proof (fn_walk_line fuel m stmts st) as Hfns.
    destruct (walk_line fuel stmts m st) as [[om|e l|p| |] st'] eqn:Ew; try reflexivity.
    cbn [fst snd] in Haf, Hfns, HW', Hkeys', Hline.
    assert (Hcs : CleanStore (fst st)) by (split; [rewrite HT; exact Hnodef | exact Him]).
    destruct Haf as (A1 & A2 & A3 & _). destruct Hfns as (_ & _ & _ & F4). specialize (F4 Hcs).
    assert (Hl' : loc_line (loc (fst st')) = Some ln) by (rewrite Hline, Hloc; reflexivity).
    rewrite (next_line_eq (fst st') ln Hl'), Hkeys', Hk.
    split; [destruct (keys_after ln keys); reflexivity|].
    intros n' Eka. pose proof (keys_after_spec ln keys Hsorted) as Hsp. rewrite Eka in Hsp.
    destruct Hsp as (Hin' & Hlt & Hleast).
    split; [exact Hin'|]. split; [exact Hlt|]. split; [exact Hleast|]. cbn [fst snd].
    split.
    { destruct HW' as (HT' & Hacc' & _). split; [exact HT' | split; [exact Hacc'|]]. left.
      pose proof (HK n' Hin') as Hne'. destruct (toks_get n' T) as [ts|] eqn:Eg; [|congruence].
      exists n', ts. cbn. repeat split; try assumption. lia. }
    split; [cbn; congruence|]. split; [cbn; congruence | cbn; congruence].
  Qed.

  Lemma walk_accepts : forall n msgs st stf ln,
    WI T st -> st_keys (fst st) = keys -> immediate (fst st) = [] -> functions (fst st) = [] ->
    loc (fst st) = mkloc (Some ln) 0 ->
    walk_lines fuel n m msgs st = (Ok tt, msgs, stf) ->
    forall k, In k keys -> (ln <= k)%N -> AccAt fuel T keys (mkloc (Some k) 0).
  Proof.
    induction n as [|n IH]; intros msgs st stf ln HW Hk Him Hfn Hloc E k Hin Hle; [discriminate E|].
    destruct (walk_lines_step n msgs st ln HW Hk Him Hfn Hloc) as (stmts & Hstep).
    destruct (walk_line fuel stmts m st) as [[om|e l|p| |] st'] eqn:Ew;
      try (rewrite Hstep in E; discriminate E).
    destruct Hstep as [Estep Hnext]. rewrite Estep in E.
    assert (Hom : om = None).
    { destruct om as [msg|]; [|reflexivity]. exfalso.
      destruct (keys_after ln keys) as [n'|].
      - destruct (walk_lines_appends _ _ _ _ _ _ E) as (x & Hx & _).
        apply (f_equal (@length message)) in Hx. rewrite !app_length in Hx. cbn [length] in Hx. lia.
      - injection E as E _. apply (f_equal (@length message)) in E. rewrite app_length in E. cbn [length] in E. lia. }
    subst om.
    assert (Hacc : AccAt fuel T keys (mkloc (Some ln) 0)).
    { rewrite <- Hloc. destruct st as [sa acc].
      apply (AccAt_walk fuel T keys sa acc stmts m st'); [split; [apply HW | split; assumption] | exact Hfn | exact Ew]. }
    destruct (N.eq_dec k ln) as [-> | Hne]; [exact Hacc|].
    destruct (keys_after ln keys) as [n'|] eqn:Eka.
    - destruct (Hnext n' eq_refl) as (Hin' & Hlt & Hleast & HW1 & K1 & I1 & F1).
      apply (IH msgs _ stf n' HW1 K1 I1 F1 eq_refl E k Hin). apply Hleast; [exact Hin | lia].
    - exfalso. pose proof (keys_after_spec ln keys Hsorted) as Hsp. rewrite Eka in Hsp. specialize (Hsp k Hin). lia.
  Qed.

  (* where a message of the walk comes from *)
  Definition FromLine (msg : message) : Prop :=
    exists ln st1 stmts st1', In ln keys /\ st_toks (fst st1) = T /\ st_keys (fst st1) = keys
      /\ immediate (fst st1) = [] /\ functions (fst st1) = [] /\ loc (fst st1) = mkloc (Some ln) 0
      /\ walk_line fuel stmts m st1 = (Ok (Some msg), st1').

  Lemma walk_msg_origin : forall n msgs st r msgs' stf ln,
    WI T st -> st_keys (fst st) = keys -> immediate (fst st) = [] -> functions (fst st) = [] ->
    loc (fst st) = mkloc (Some ln) 0 -> In ln keys ->
    walk_lines fuel n m msgs st = (r, msgs', stf) ->
    forall msg, In msg msgs' -> In msg msgs \/ FromLine msg.
  Proof.
    induction n as [|n IH]; intros msgs st r msgs' stf ln HW Hk Him Hfn Hloc Hinl E msg Hin.
    { injection E as _ <- _. left. exact Hin. }
    destruct (walk_lines_step n msgs st ln HW Hk Him Hfn Hloc) as (stmts & Hstep).
    destruct (walk_line fuel stmts m st) as [[om|e l|p| |] st'] eqn:Ew;
      try (rewrite Hstep in E; injection E as _ <- _; left; exact Hin).
    destruct Hstep as [Estep Hnext]. rewrite Estep in E.
    set (msgs1 := match om with Some msg0 => msgs ++ [msg0] | None => msgs end) in *.
    assert (H1 : forall x, In x msgs1 -> In x msgs \/ FromLine x).
    { intros x Hx. unfold msgs1 in Hx. destruct om as [msg0|]; [|left; exact Hx].
      apply in_app_or in Hx as [Hx | [<- | []]]; [left; exact Hx|]. right.
      exists ln, st, stmts, st'. repeat split; try assumption. apply HW. }
    destruct (keys_after ln keys) as [n'|].
    - destruct (Hnext n' eq_refl) as (Hin' & _ & _ & HW1 & K1 & I1 & F1).
      destruct (IH msgs1 _ r msgs' stf n' HW1 K1 I1 F1 eq_refl Hin' E msg Hin) as [Hm | Hm];
        [exact (H1 msg Hm) | right; exact Hm].
    - injection E as _ <- _. exact (H1 msg Hin).
  Qed.
End Link.

Lemma symbol_messages_no_error m : forall ws sm msg, symbol_messages m ws = Some sm -> In msg sm -> is_error_msg msg = false.
Proof.
  induction ws as [|w r IH]; intros sm msg E Hin; cbn [symbol_messages] in E.
  - injection E as <-. destruct Hin.
  - destruct (symbol_message m w) as [x|] eqn:Ex; [|discriminate E].
    destruct (symbol_messages m r) as [xs|] eqn:Exs; [|discriminate E]. injection E as <-.
    destruct Hin as [<- | Hin]; [|exact (IH xs msg eq_refl Hin)].
    unfold symbol_message in Ex. destruct w as [[sym l] unused].
    destruct (map_location_to_source m l) as [[fl ?]|]; [|discriminate Ex]. injection Ex as <-. reflexivity.
Qed.

Lemma an_walk fuel text :
  exists n r msgs st,
    walk_lines fuel n (p_map (pass1_of' text)) (p_msgs (pass1_of' text))
               (snd (run_from_first_numbered_line (p_prog (pass1_of' text))), []) = (r, msgs, st)
    /\ (an_result (analyze fuel text) = Ok tt -> r = Ok tt)
    /\ (forall msg, In msg msgs -> In msg (an_messages (analyze fuel text)))
    /\ (forall msg, In msg (an_messages (analyze fuel text)) -> is_error_msg msg = true -> In msg msgs).
Proof.
  unfold analyze. fold (pass1_of' text).
  destruct (walk_lines _ _ _ _ _) as [[r msgs] st] eqn:Ew.
  eexists _, r, msgs, st. split; [exact Ew|].
  destruct r as [[]|e l|pp| |]; cbn [an_result an_messages];
    try (split; [intros H; discriminate H | split; intros msg H; [|intros _]; exact H]).
  destruct (symbol_messages _ _) as [sm|] eqn:Es; cbn [an_result an_messages]; (split; [reflexivity|]);
    [|split; intros msg H; [|intros _]; exact H].
  split; intros msg H; [apply in_or_app; left; exact H|]. intros He.
  apply in_app_or in H as [H|H]; [exact H|]. rewrite (symbol_messages_no_error _ _ _ _ Es H) in He. discriminate He.
Qed.

Lemma accepted_lines_gen fuel (prog : interp) (m : source_map) nl msgs0 stf :
  wf prog -> nodef_program (st_toks prog) ->
  walk_lines fuel nl m msgs0 (snd (run_from_first_numbered_line prog), []) = (Ok tt, msgs0, stf) ->
  forall n, toks_get n (st_toks prog) <> None -> AccAt fuel (st_toks prog) (st_keys prog) (mkloc (Some n) 0).
Proof.
  intros Hwf Hnodef Ew n Hn.
  destruct (rffl_fields prog) as (F1 & F2 & F3 & F4 & F5).
  destruct (wf_store _ Hwf) as (Hsorted & Hkeys & _).
  assert (Hin : In n (st_keys prog)) by (apply Hkeys; exact Hn).
  pose proof (store_first_spec prog (wf_store _ Hwf)) as Hfirst.
  destruct (store_first prog) as [ln|] eqn:Ef; [|rewrite Hfirst in Hin; destruct Hin].
  destruct Hfirst as (Hinl & Hleast).
  apply (walk_accepts (st_toks prog) (st_keys prog) m fuel
           Hsorted (fun k Hk => proj1 (Hkeys k) Hk) Hnodef
           nl msgs0 (snd (run_from_first_numbered_line prog), []) stf ln);
    cbn [fst snd]; try assumption.
  - exact (proj2 (walk_start prog Hwf)).
  - apply Hleast. exact Hin.
Qed.

Theorem accepted_lines_nodef fuel text :
  line_bound text < fuel ->
  forallb (fun msg => negb (is_error_msg msg)) (an_messages (analyze fuel text)) = true ->
  nodef_program (st_toks (p_prog (pass1_of' text))) ->
  forall n, toks_get n (st_toks (p_prog (pass1_of' text))) <> None ->
    AccAt fuel (st_toks (p_prog (pass1_of' text))) (st_keys (p_prog (pass1_of' text))) (mkloc (Some n) 0).
Proof.
  intros Hfuel Hmsgs Hnodef.
  pose proof (analysis_total fuel text Hfuel) as Hres.
  destruct (an_walk fuel text) as (nl & r & msgs & stf & Ew & Hr & Hin_msgs & _).
  specialize (Hr Hres). subst r.
  pose proof (pp_wf _ _ (PP_pass1 text)) as Hwf.
  destruct (walk_lines_appends (p_map (pass1_of' text)) fuel _ _ _ _ _ _ Ew) as (extra & Hx & Hex). subst msgs.
  assert (extra = []).
  { destruct extra as [|x xs]; [reflexivity|]. exfalso.
    rewrite forallb_forall in Hmsgs. specialize (Hmsgs x (Hin_msgs x ltac:(apply in_or_app; right; left; reflexivity))).
    cbn in Hex. destruct (is_error_msg x); discriminate. }
  subst extra. rewrite app_nil_r in Ew.
  exact (accepted_lines_gen fuel (p_prog (pass1_of' text)) (p_map (pass1_of' text)) nl (p_msgs (pass1_of' text)) stf
           Hwf Hnodef Ew).
Qed.

(* What expressions and the straight-line statements leave alone, from EVERY state and whatever the outcome: with no
   user function defined, the function table, the GOSUB stack and the FOR stack.  [set_functions], [set_stack] and
   [set_loops] break [KS], so it is no instance of the walk of Proofs/Frames.v and is walked here; the soundness proofs
   take the frame from the lock step ([CheckSound.lock]) and do not use this. *)
Definition KS (s s' : interp) : Prop :=
  functions s = [] -> functions s' = [] /\ stack s' = stack s /\ loops s' = loops s.

Lemma KS_preorder : preorder KS.
Proof.
  split; [intros s H; repeat split; assumption|].
  intros a b c H1 H2 Ha. destruct (H1 Ha) as (Hb & E1 & E2). destruct (H2 Hb) as (Hc & E3 & E4).
  repeat split; congruence.
Qed.

Lemma KS_same s s' : functions s' = functions s -> stack s' = stack s -> loops s' = loops s -> KS s s'.
Proof. intros H1 H2 H3 H. repeat split; congruence. Qed.

Create HintDb ksdb discriminated.

Ltac ksleaf :=
  idtac; lazymatch goal with
  | |- mrel _ (modify _) =>
      apply (mrel_modify KS); intros ?s; cbv beta zeta;
      repeat match goal with |- context [match ?x with _ => _ end] => destruct x end;
      apply KS_same; reflexivity
  | |- _ => first [ assumption | solve [auto 1 with ksdb nocore] ]
  end.
Ltac kswalk := unfold_head; mrel_walk KS_preorder ksleaf.

Lemma KS_tokens_for_line l : mrel KS (tokens_for_line l).
Proof. apply (mrel_same _ _ KS_preorder), same_tokens_for_line. Qed.
#[local] Hint Resolve KS_tokens_for_line : ksdb.
Lemma KS_cur_tokens : mrel KS cur_tokens. Proof. kswalk. Qed.
Lemma KS_advance : mrel KS advance. Proof. unfold advance; ksleaf. Qed.
#[local] Hint Resolve KS_cur_tokens KS_advance : ksdb.
Lemma KS_peek : mrel KS peek_next_token. Proof. kswalk. Qed.
#[local] Hint Resolve KS_peek : ksdb.
Lemma KS_has_next : mrel KS has_next_token. Proof. kswalk. Qed.
Lemma KS_next_token : mrel KS next_token. Proof. kswalk. Qed.
#[local] Hint Resolve KS_has_next KS_next_token : ksdb.
Lemma KS_next_unwrapped : mrel KS next_unwrapped_token. Proof. kswalk. Qed.
#[local] Hint Resolve KS_next_unwrapped : ksdb.
Lemma KS_expect t : mrel KS (expect_next_token t). Proof. kswalk. Qed.
Lemma KS_accept t : mrel KS (accept_next_token t). Proof. kswalk. Qed.
Lemma KS_peek_is t : mrel KS (peek_is t). Proof. kswalk. Qed.
Lemma KS_try {B} (g : token -> option B) : mrel KS (try_next_token g). Proof. kswalk. Qed.
Lemma KS_reset_data : mrel KS reset_data_cursor. Proof. unfold reset_data_cursor; ksleaf. Qed.
Lemma KS_discard : mrel KS discard_remaining_tokens. Proof. kswalk. Qed.
Lemma KS_is_else : mrel KS is_else_of_then_clause. Proof. kswalk. Qed.
Lemma KS_get_line_number : mrel KS get_line_number. Proof. kswalk. Qed.
Lemma KS_push_output o : mrel KS (push_output o). Proof. unfold push_output; ksleaf. Qed.
#[local] Hint Resolve KS_expect KS_accept KS_peek_is KS_try KS_reset_data KS_discard KS_is_else KS_get_line_number
  KS_push_output : ksdb.
Lemma KS_warn m : mrel KS (warn m). Proof. kswalk. Qed.
#[local] Hint Resolve KS_warn : ksdb.
Lemma KS_maybe_warn n : mrel KS (maybe_warn_undeclared_array n). Proof. kswalk. Qed.
Lemma KS_find_var n : mrel KS (find_variable_value_in_stack n). Proof. kswalk. Qed.
Lemma KS_variables_get n : mrel KS (variables_get n). Proof. kswalk. Qed.
Lemma KS_variables_set n v : mrel KS (variables_set n v). Proof. kswalk. Qed.
Lemma KS_rng_rnd x : mrel KS (rng_rnd x). Proof. kswalk. Qed.
Lemma KS_arrays_create n i : mrel KS (arrays_create n i). Proof. kswalk. Qed.
Lemma KS_maybe_default n d : mrel KS (maybe_create_default_array n d). Proof. kswalk. Qed.
#[local] Hint Resolve KS_maybe_warn KS_find_var KS_variables_get KS_variables_set KS_rng_rnd KS_arrays_create
  KS_maybe_default : ksdb.
Lemma KS_arrays_get n i : mrel KS (arrays_get n i). Proof. kswalk. Qed.
Lemma KS_arrays_set n i v : mrel KS (arrays_set n i v). Proof. kswalk. Qed.

Lemma KS_next_data : mrel KS next_data_element.
Proof.
  intros s. unfold next_data_element.
  destruct (data_it s) as [d|].
  - destruct (data_next _ d). apply KS_same; reflexivity.
  - destruct (data_chunks (st_keys s) (st_toks s)); try (apply (po_refl _ KS_preorder)).
    destruct (data_next _ _). apply KS_same; reflexivity.
Qed.

Lemma KS_expect_number v : mrel KS (expect_number v). Proof. kswalk. Qed.
Lemma KS_eval_unary o v : mrel KS (eval_unary o v). Proof. kswalk. Qed.
Lemma KS_eval_addsub o a b : mrel KS (eval_addsub o a b). Proof. kswalk. Qed.
Lemma KS_eval_muldiv o a b : mrel KS (eval_muldiv o a b). Proof. kswalk. Qed.
Lemma KS_eval_eq o a b : mrel KS (eval_eq o a b). Proof. kswalk. Qed.
Lemma KS_eval_and a b : mrel KS (eval_and a b). Proof. kswalk. Qed.
Lemma KS_eval_or a b : mrel KS (eval_or a b). Proof. kswalk. Qed.
Lemma KS_eval_pow a b : mrel KS (eval_pow a b). Proof. kswalk. Qed.
Lemma KS_accept_as {O} t (o : O) : mrel KS (accept_as t o). Proof. kswalk. Qed.
#[local] Hint Resolve KS_arrays_get KS_arrays_set KS_next_data KS_expect_number KS_eval_unary KS_eval_addsub
  KS_eval_muldiv KS_eval_eq KS_eval_and KS_eval_or KS_eval_pow KS_accept_as : ksdb.

Section KSExpr.
  Variable fuel : nat.
  Variable rec : M value.
  Hypothesis Hrec : mrel KS rec.

  Lemma KS_unary_arg : mrel KS (unary_number_function_arg rec). Proof. kswalk. Qed.
  Lemma KS_array_index : mrel KS (evaluate_array_index fuel rec). Proof. kswalk. Qed.
  Hint Resolve KS_unary_arg KS_array_index : ksdb.

  (* the one place where [functions s = []] is used: no user function is found, so none is called *)
  Lemma KS_user_function_call name : mrel KS (user_function_call rec name).
  Proof. intros s Hfn. unfold user_function_call. rewrite bind_get, Hfn. repeat split; assumption. Qed.
  Hint Resolve KS_user_function_call : ksdb.

  Lemma KS_function_call name : mrel KS (function_call rec name). Proof. kswalk. Qed.
  Hint Resolve KS_function_call : ksdb.

  Lemma KS_term : mrel KS (expression_term fuel rec). Proof. kswalk. Qed.
  Hint Resolve KS_term : ksdb.
  Lemma KS_paren : mrel KS (parenthesized_expression fuel rec). Proof. kswalk. Qed.
  Hint Resolve KS_paren : ksdb.
  Lemma KS_unary : mrel KS (unary_operator fuel rec). Proof. kswalk. Qed.

  Lemma KS_tier {O} (g : M (option O)) (operand : M value) (ap : O -> value -> value -> M value) :
    mrel KS g -> mrel KS operand -> (forall o a b, mrel KS (ap o a b)) -> mrel KS (tier fuel g operand ap).
  Proof. intros Hg Ho Ha. kswalk. Qed.

  Lemma KS_logical_or : mrel KS (logical_or_expression fuel rec).
  Proof.
    apply (tiers_ind fuel rec (mrel KS)); [intros; apply KS_tier; auto 1 with ksdb nocore.. | exact KS_unary].
  Qed.
End KSExpr.

Lemma KS_evaluate_expression fuel : forall n, mrel KS (evaluate_expression fuel n).
Proof.
  induction fuel as [|k IH]; intros n; cbn [evaluate_expression].
  - apply (mrel_out_of_fuel _ KS_preorder).
  - destruct (Nat.eqb n max_nesting); [apply (mrel_fail _ KS_preorder)|].
    apply KS_logical_or; apply IH.
Qed.

Section KSStmt.
  Variable fuel nest : nat.

  Lemma KS_expr : mrel KS (expr fuel nest). Proof. apply KS_evaluate_expression. Qed.
  Lemma KS_st_array_index : mrel KS (evaluate_array_index fuel (expr fuel nest)).
  Proof. apply KS_array_index, KS_expr. Qed.
  Hint Resolve KS_expr KS_st_array_index : ksdb.

  Lemma KS_optional_index : mrel KS (parse_optional_array_index fuel nest). Proof. kswalk. Qed.
  Hint Resolve KS_optional_index : ksdb.
  Lemma KS_parse_lvalue : mrel KS (parse_lvalue fuel nest). Proof. kswalk. Qed.
  Lemma KS_assign lv v : mrel KS (assign_value lv v). Proof. kswalk. Qed.
  Hint Resolve KS_parse_lvalue KS_assign : ksdb.
  Lemma KS_assignment sym : mrel KS (evaluate_assignment_statement fuel nest sym). Proof. kswalk. Qed.
  Hint Resolve KS_assignment : ksdb.
  Lemma KS_let : mrel KS (evaluate_let_statement fuel nest). Proof. kswalk. Qed.
  Lemma KS_print : mrel KS (evaluate_print_statement fuel nest). Proof. kswalk. Qed.
  Lemma KS_dim : mrel KS (evaluate_dim_statement fuel nest). Proof. kswalk. Qed.
  Lemma KS_read : mrel KS (evaluate_read_statement fuel nest). Proof. kswalk. Qed.
End KSStmt.

Lemma bind_inv_KS {A B} (m : M A) (f : A -> M B) s y s' :
  mrel KS m -> functions s = [] -> bind m f s = (Ok y, s') ->
  exists x s1, functions s1 = [] /\ stack s1 = stack s /\ loops s1 = loops s /\ f x s1 = (Ok y, s').
Proof.
  intros Hm Hfn E. rewrite bind_run in E. pose proof (Hm s Hfn) as K.
  destruct (m s) as [[x|e l|p| |] s1]; try discriminate E. destruct K as (K1 & K2 & K3).
  exists x, s1. repeat split; assumption.
Qed.

(* FOR, from any state without user functions: what [Caps.start_loop_shape] says of [start_loop], behind the [KS] frame of
   what stands before it ([CheckSound.SLF], here without the lock step's premises) *)
Lemma for_shape fi nest s s' : functions s = [] -> evaluate_for_statement fi nest s = (Ok tt, s') ->
  stack s' = stack s /\ forall lp, In lp (loops s') -> In lp (loops s) \/ lp_loc lp = loc s'.
Proof.
  intros Hfn E. unfold evaluate_for_statement in E.
  apply (bind_inv_KS _ _ _ _ _ KS_next_token Hfn) in E as (t & s1 & F1 & <- & <- & E).
  destruct t as [[]|]; try discriminate E.
  repeat (apply bind_inv_KS in E;
          [destruct E as (? & ? & ? & <- & <- & E)
          | first [apply KS_expect | apply KS_evaluate_expression | apply KS_expect_number | apply KS_accept
                  | match goal with |- mrel _ (if ?b then _ else _) => destruct b end;
                    mrel_walk KS_preorder ltac:(first [apply KS_evaluate_expression | apply KS_expect_number])]
          | assumption]).
  exact (start_loop_shape _ _ _ _ _ _ E).
Qed.
