(* Proofs/Termination.v — C09 / C01: the host calls that evaluate (a typed
   line, the continuation of a running program) hand control back.

   The interpreter's loops (operator tiers, subscript lists, PRINT items, READ
   targets, the IF scan, DEF parameters and the DEF body skip) and its
   recursion (parentheses, user-function bodies, nested IFs) are modelled with
   fuel.  "The call returns" is, in the model, "the fuel suffices": for every
   well-formed state (every reachable state is: C01) and fuel above a bound
   that depends only on the longest token list the cursor can be on — the
   stored lines and the immediate line — and the fixed nesting cap, a host
   call never answers OutOfFuel.

   Facts used: an evaluator never moves the cursor backwards on its line and
   returns to its line after a user-function call (Safety.ER); the immediate
   line only shrinks (ImmFrame.IM); an expression that succeeds consumes a
   token; every loop iteration that continues consumes a token; every level of
   recursion costs one unit of fuel and there are at most max_nesting levels
   (the nesting counter is shared by parentheses, function bodies and IFs). *)
From Coq Require Import List NArith ZArith Bool Lia.
From Abasic Require Import Model.Bytes Model.Token Model.Lexer
     Model.State Model.Eval Model.Interp Proofs.Monad Proofs.Frames Proofs.ImmFrame Proofs.StoreProofs Proofs.Safety Proofs.LexerRanges.
Import ListNotations.
Local Open Scope nat_scope.

(* [nofR m]: [m] answers OutOfFuel from no state at all: the primitives and whatever holds no loop *)
Definition nofR {A} (m : M A) : Prop := forall s, fst (m s) <> OutOfFuel.

Lemma nofR_ret {A} (a : A) : nofR (ret a). Proof. intros s; discriminate. Qed.
Lemma nofR_fail {A} e : nofR (@fail A e). Proof. intros s; discriminate. Qed.
Lemma nofR_fail_at {A} e l : nofR (@fail_at A e l). Proof. intros s; discriminate. Qed.
Lemma nofR_panic {A} p : nofR (@panic A p). Proof. intros s; discriminate. Qed.
Lemma nofR_oracle_miss {A} : nofR (@oracle_miss A). Proof. intros s; discriminate. Qed.
Lemma nofR_get {A} (f : interp -> A) : nofR (get f). Proof. intros s; discriminate. Qed.
Lemma nofR_modify f : nofR (modify f). Proof. intros s; discriminate. Qed.
Lemma nofR_lift_res {A} (r : res A) : r <> OutOfFuel -> nofR (lift_res r).
Proof. intros H s. unfold lift_res. exact H. Qed.
Lemma nofR_bind {A B} (m : M A) (f : A -> M B) : nofR m -> (forall a, nofR (f a)) -> nofR (bind m f).
Proof.
  intros Hm Hf s. unfold bind. specialize (Hm s).
  destruct (m s) as [[a|e l|p| |] s1]; cbn [fst] in *; try discriminate; [apply Hf | congruence].
Qed.

Create HintDb nofdb discriminated.
#[local] Hint Resolve nofR_modify nofR_lift_res : nofdb.

Ltac nofr_step :=
  idtac; lazymatch goal with
  | |- nofR (ret _) => apply nofR_ret
  | |- nofR (fail _) => apply nofR_fail
  | |- nofR (fail_at _ _) => apply nofR_fail_at
  | |- nofR (panic _) => apply nofR_panic
  | |- nofR oracle_miss => apply nofR_oracle_miss
  | |- nofR (get _) => apply nofR_get
  | |- nofR (bind _ _) => apply nofR_bind; [| intro]
  | |- ?P (match ?x with _ => _ end) => case_scrutinee P x
  | |- _ => first [ solve [auto 2 with nofdb nocore] | intros ?s0; discriminate ]
  end.
Ltac nofr_walk := repeat nofr_step.
Ltac nw := unfold_head; nofr_walk.

Lemma nofR_tokens_for_line l : nofR (tokens_for_line l).
Proof. intros s. unfold tokens_for_line. destruct l as [n|]; [destruct (toks_get n (st_toks s))|]; discriminate. Qed.
#[local] Hint Resolve nofR_tokens_for_line : nofdb.
Lemma nofR_cur_tokens : nofR cur_tokens. Proof. nw. Qed.
Lemma nofR_advance : nofR advance. Proof. apply nofR_modify. Qed.
#[local] Hint Resolve nofR_cur_tokens nofR_advance : nofdb.
Lemma nofR_peek : nofR peek_next_token. Proof. nw. Qed.
#[local] Hint Resolve nofR_peek : nofdb.
Lemma nofR_has_next : nofR has_next_token. Proof. nw. Qed.
Lemma nofR_next_token : nofR next_token. Proof. nw. Qed.
Lemma nofR_accept t : nofR (accept_next_token t). Proof. nw. Qed.
Lemma nofR_peek_is t : nofR (peek_is t). Proof. nw. Qed.
Lemma nofR_try {B} (g : token -> option B) : nofR (try_next_token g). Proof. nw. Qed.
Lemma nofR_discard : nofR discard_remaining_tokens. Proof. nw. Qed.
#[local] Hint Resolve nofR_has_next nofR_next_token nofR_accept nofR_peek_is nofR_try nofR_discard : nofdb.
Lemma nofR_next_unwrapped : nofR next_unwrapped_token. Proof. nw. Qed.
#[local] Hint Resolve nofR_next_unwrapped : nofdb.
Lemma nofR_expect t : nofR (expect_next_token t). Proof. nw. Qed.
Lemma nofR_rewind_loop i t : nofR (rewind_loop i t).
Proof. induction i as [|i IH]; cbn [rewind_loop]; nofr_walk. Qed.
#[local] Hint Resolve nofR_expect nofR_rewind_loop : nofdb.
Lemma nofR_rewind t : nofR (rewind_before_token t). Proof. nw. Qed.
Lemma nofR_set_imm ts : nofR (set_and_goto_immediate_line ts). Proof. apply nofR_modify. Qed.
Lemma nofR_remove_loop sym : nofR (remove_loop_with_name sym). Proof. nw. Qed.
Lemma nofR_variables_set n v : nofR (variables_set n v). Proof. nw. Qed.
Lemma nofR_variables_get n : nofR (variables_get n). Proof. nw. Qed.
Lemma nofR_reset_data : nofR reset_data_cursor. Proof. apply nofR_modify. Qed.
Lemma nofR_program_end : nofR program_end. Proof. apply nofR_modify. Qed.
Lemma nofR_get_line_number : nofR get_line_number. Proof. nw. Qed.
#[local] Hint Resolve nofR_rewind nofR_set_imm nofR_remove_loop nofR_variables_set nofR_variables_get
  nofR_reset_data nofR_program_end nofR_get_line_number : nofdb.
Lemma nofR_program_break : nofR program_break_at_current_location. Proof. nw. Qed.
Lemma nofR_continue_bp : nofR continue_from_breakpoint. Proof. nw. Qed.
Lemma nofR_start_loop sym a b c : nofR (start_loop sym a b c). Proof. nw. Qed.
Lemma nofR_end_loop sym : nofR (end_loop sym). Proof. nw. Qed.
Lemma nofR_reset_runtime : nofR reset_runtime_state. Proof. nw. Qed.
Lemma nofR_goto n : nofR (goto_line_number n). Proof. nw. Qed.
#[local] Hint Resolve nofR_program_break nofR_continue_bp nofR_start_loop nofR_end_loop nofR_reset_runtime
  nofR_goto : nofdb.
Lemma nofR_run_from_first : nofR run_from_first_numbered_line. Proof. nw. Qed.
Lemma nofR_gosub n : nofR (gosub_line_number n). Proof. nw. Qed.
Lemma nofR_return : nofR return_to_last_gosub. Proof. nw. Qed.
Lemma nofR_define_function n a : nofR (define_function n a). Proof. nw. Qed.
Lemma nofR_push_fn n b : nofR (push_function_call n b). Proof. nw. Qed.
Lemma nofR_pop_fn : nofR pop_function_call. Proof. nw. Qed.
Lemma nofR_find_var n : nofR (find_variable_value_in_stack n). Proof. nw. Qed.
Lemma nofR_next_line : nofR next_line. Proof. nw. Qed.
Lemma nofR_push_output o : nofR (push_output o). Proof. apply nofR_modify. Qed.
Lemma nofR_rng_rnd x : nofR (rng_rnd x). Proof. nw. Qed.
Lemma nofR_is_else : nofR is_else_of_then_clause. Proof. nw. Qed.
#[local] Hint Resolve nofR_run_from_first nofR_gosub nofR_return nofR_define_function nofR_push_fn nofR_pop_fn
  nofR_find_var nofR_next_line nofR_push_output nofR_rng_rnd nofR_is_else : nofdb.
Lemma nofR_warn m : nofR (warn m). Proof. nw. Qed.
#[local] Hint Resolve nofR_warn : nofdb.
Lemma nofR_maybe_warn n : nofR (maybe_warn_undeclared_array n). Proof. nw. Qed.

Lemma acv_nof name mi : array_create_value name mi <> OutOfFuel.
Proof.
  unfold array_create_value. destruct mi; [discriminate|].
  destruct (existsb _ _); [discriminate|]. destruct (checked_product _ _); [|discriminate].
  destruct (max_dim_total <? _)%N; discriminate.
Qed.
Lemma ali_nof a idx : array_linear_index a idx <> OutOfFuel.
Proof. unfold array_linear_index. destruct (negb _); [discriminate|]. destruct (linear_index _ _ _ _); discriminate. Qed.
Lemma cd_nof n e : coerce_data n e <> OutOfFuel.
Proof. unfold coerce_data. destruct (ends_with_dollar n); destruct e; discriminate. Qed.
#[local] Hint Resolve nofR_maybe_warn acv_nof ali_nof cd_nof : nofdb.

Lemma nofR_arrays_create n i : nofR (arrays_create n i). Proof. nw. Qed.
Lemma nofR_maybe_default n d : nofR (maybe_create_default_array n d). Proof. nw. Qed.
#[local] Hint Resolve nofR_arrays_create nofR_maybe_default : nofdb.
Lemma nofR_arrays_get n i : nofR (arrays_get n i). Proof. nw. Qed.
Lemma nofR_arrays_set n i v : nofR (arrays_set n i v). Proof. nw. Qed.
Lemma nofR_next_data : nofR next_data_element.
Proof.
  intros s. unfold next_data_element.
  destruct (data_it s) as [d|].
  - destruct (data_next _ d); discriminate.
  - destruct (data_chunks (st_keys s) (st_toks s)); try discriminate. destruct (data_next _ _); discriminate.
Qed.
Lemma nofR_eval_unary o v : nofR (eval_unary o v). Proof. nw. Qed.
Lemma nofR_eval_addsub o a b : nofR (eval_addsub o a b). Proof. nw. Qed.
Lemma nofR_eval_muldiv o a b : nofR (eval_muldiv o a b). Proof. nw. Qed.
Lemma nofR_eval_eq o a b : nofR (eval_eq o a b). Proof. nw. Qed.
Lemma nofR_eval_and a b : nofR (eval_and a b). Proof. nw. Qed.
Lemma nofR_eval_or a b : nofR (eval_or a b). Proof. nw. Qed.
Lemma nofR_eval_pow a b : nofR (eval_pow a b). Proof. nw. Qed.
Lemma nofR_expect_number v : nofR (expect_number v). Proof. nw. Qed.
Lemma nofR_take_input : nofR take_input. Proof. nw. Qed.
Lemma nofR_await : nofR rewind_program_and_await_input. Proof. nw. Qed.
Lemma nofR_break : nofR break_at_current_location. Proof. nw. Qed.
Lemma nofR_accept_as {O} t (o : O) : nofR (accept_as t o). Proof. nw. Qed.
#[local] Hint Resolve nofR_arrays_get nofR_arrays_set nofR_next_data nofR_eval_unary nofR_eval_addsub
  nofR_eval_muldiv nofR_eval_eq nofR_eval_and nofR_eval_or nofR_eval_pow nofR_expect_number nofR_take_input
  nofR_await nofR_break nofR_accept_as : nofdb.

(* the length of the longest stored line *)
Fixpoint longest (T : list (N * list token)) : nat :=
  match T with [] => 0 | (_, ts) :: r => Nat.max (length ts) (longest r) end.

Lemma longest_bound L : forall n ts, toks_get n L = Some ts -> length ts <= longest L.
Proof.
  induction L as [|[k v] L IH]; intros n ts H; [discriminate|]. cbn [toks_get longest] in *.
  destruct (k =? n)%N; [inversion H; subst; lia|]. pose proof (IH n ts H). lia.
Qed.

(* the measure of the fuel bound: no line the cursor can be on, stored or immediate, is longer than [lim s];
   [room s], the tokens left in front of the cursor, is what every loop of the interpreter decreases *)
Definition lim (s : interp) : nat := Nat.max (longest (st_toks s)) (length (immediate s)).

Definition room (s : interp) : nat := length (cur_toks s) - loc_idx (loc s).

Lemma room_lim s : room s <= lim s.
Proof.
  unfold room, lim, cur_toks. destruct (loc_line (loc s)) as [n|]; [|lia].
  destruct (toks_get n (st_toks s)) as [ts|] eqn:E; [pose proof (longest_bound _ n ts E); lia | cbn; lia].
Qed.

(* [T g m]: from a well-formed state whose lines are no longer than [g], [m]
   does not starve, and a normal return leaves such a state again *)
Definition T {A} (g : nat) (m : M A) : Prop :=
  forall s, wf s -> lim s <= g ->
    fst (m s) <> OutOfFuel /\ (forall a, fst (m s) = Ok a -> wf (snd (m s)) /\ lim (snd (m s)) <= lim s).

Lemma T_intro {A} g (m : M A) :
  (forall s, wf s -> lim s <= g -> fst (m s) <> OutOfFuel) -> orel SRw m -> mrel IM m -> T g m.
Proof.
  intros H1 H2 H3 s Hwf Hg. split; [apply H1; assumption|]. intros a Ha.
  destruct (H2 s Hwf) as [A1 A2 _ _ _]. split; [exact A1|].
  pose proof (H3 s) as HI. unfold IM in HI. unfold lim. rewrite A2. lia.
Qed.

Lemma T_prim {A} g (m : M A) : nofR m -> orel SRw m -> mrel IM m -> T g m.
Proof. intros H1. apply T_intro. intros s _ _. apply H1. Qed.

Lemma T_ret {A} g (a : A) : T g (ret a).
Proof. intros s Hwf Hg. split; [discriminate|]. intros _ _. split; [exact Hwf | apply le_n]. Qed.
Lemma T_fail {A} g e : T g (@fail A e).
Proof. intros s Hwf Hg. split; [discriminate|]. intros a H; discriminate. Qed.
Lemma T_fail_at {A} g e l : T g (@fail_at A e l).
Proof. intros s Hwf Hg. split; [discriminate|]. intros a H; discriminate. Qed.
Lemma T_panic {A} g p : T g (@panic A p).
Proof. intros s Hwf Hg. split; [discriminate|]. intros a H; discriminate. Qed.
Lemma T_oracle_miss {A} g : T g (@oracle_miss A).
Proof. intros s Hwf Hg. split; [discriminate|]. intros a H; discriminate. Qed.
Lemma T_get {A} g (f : interp -> A) : T g (get f).
Proof. intros s Hwf Hg. split; [discriminate|]. intros _ _. split; [exact Hwf | apply le_n]. Qed.
Lemma T_lift_res {A} g (r : res A) : r <> OutOfFuel -> T g (lift_res r).
Proof. intros H s Hwf Hg. split; [exact H|]. intros _ _. split; [exact Hwf | apply le_n]. Qed.

Lemma T_bind {A B} g (m : M A) (f : A -> M B) : T g m -> (forall a, T g (f a)) -> T g (bind m f).
Proof.
  intros Hm Hf s Hwf Hg. unfold bind. destruct (Hm s Hwf Hg) as [H1 H2].
  destruct (m s) as [[a|e l|p| |] s1]; cbn [fst snd] in *; try (split; [discriminate | intros b Hb; discriminate]); [|congruence].
  destruct (H2 a eq_refl) as [Hwf1 Hl1].
  destruct (Hf a s1 Hwf1 ltac:(lia)) as [H3 H4]. split; [exact H3|].
  intros b Hb. destruct (H4 b Hb) as [H5 H6]. split; [exact H5 | lia].
Qed.

Lemma T_weaken {A} g g' (m : M A) : g' <= g -> T g m -> T g' m.
Proof. intros Hg Hm s Hwf Hl. apply Hm; [exact Hwf | lia]. Qed.

(* the cursor equations of Safety.v at a well-formed state *)
Lemma next_token_w s : wf s ->
  next_token s = match nth_error (cur_toks s) (loc_idx (loc s)) with
                 | Some t => (Ok (Some t), adv s)
                 | None => (Ok None, bump s)
                 end.
Proof. intros Hwf. apply next_token_eq, (wf_loc _ Hwf). Qed.

Lemma accept_w t s : wf s ->
  accept_next_token t s =
  match nth_error (cur_toks s) (loc_idx (loc s)) with
  | Some t' => if token_eqb t' t then (Ok true, adv s) else (Ok false, bump s)
  | None => (Ok false, bump s)
  end.
Proof. intros Hwf. apply accept_eq, (wf_loc _ Hwf). Qed.

Lemma try_w {B} (g : token -> option B) s : wf s ->
  try_next_token g s =
  match nth_error (cur_toks s) (loc_idx (loc s)) with
  | Some t' => match g t' with Some b => (Ok (Some b), adv s) | None => (Ok None, bump s) end
  | None => (Ok None, bump s)
  end.
Proof. intros Hwf. apply try_eq, (wf_loc _ Hwf). Qed.

Lemma room_step s t : nth_error (cur_toks s) (loc_idx (loc s)) = Some t -> room (adv s) < room s.
Proof.
  intros H. assert (Hlt : loc_idx (loc s) < length (cur_toks s)) by (apply nth_error_Some; congruence).
  unfold room, adv. change (cur_toks (set_loc _ (bump s))) with (cur_toks s). cbn [loc set_loc loc_idx]. lia.
Qed.

Lemma room_bump s : room (bump s) = room s.
Proof. reflexivity. Qed.

Lemma er_ok {A} (m : M A) s a s' : orel ERw m -> wf s -> m s = (Ok a, s') ->
  wf s' /\ cur_toks s' = cur_toks s /\ loc_idx (loc s) <= loc_idx (loc s') /\ lim s' = lim s.
Proof.
  intros Hm Hwf E. pose proof (Hm s Hwf) as H. rewrite E in H. cbn [fst snd forget] in H.
  destruct H as [A1 A2 A3 A4 A5 A6 A7 A8 A9]. destruct (A9 eq_refl) as [B1 B2].
  split; [exact A1|]. split; [unfold cur_toks; rewrite B1, A2, A4; reflexivity|]. split; [exact B2|].
  unfold lim. rewrite A2, A4. reflexivity.
Qed.

Lemma T_intro_er {A} g (m : M A) :
  (forall s, wf s -> lim s <= g -> fst (m s) <> OutOfFuel) -> orel ERw m -> T g m.
Proof.
  intros H1 H2 s Hwf Hg. split; [apply H1; assumption|]. intros a Ha.
  destruct (m s) as [r s'] eqn:E. cbn [fst snd] in *. subst r.
  destruct (er_ok m s a s' H2 Hwf E) as (A1 & _ & _ & A4). split; [exact A1 | lia].
Qed.

Lemma T_er {A} g (m : M A) : nofR m -> orel ERw m -> T g m.
Proof. intros H1. apply T_intro_er. intros s _ _. apply H1. Qed.

Lemma T_repeat {St Res} g (body : St -> M (St + Res)) :
  (forall acc, T g (body acc)) ->
  (forall acc s acc' s', wf s -> body acc s = (Ok (inl acc'), s') -> room s' < room s) ->
  forall k acc s, wf s -> lim s <= g -> room s < k ->
    fst (repeat_m k body acc s) <> OutOfFuel
    /\ (forall r, fst (repeat_m k body acc s) = Ok r ->
          wf (snd (repeat_m k body acc s)) /\ lim (snd (repeat_m k body acc s)) <= lim s).
Proof.
  intros HT Hlt. induction k as [|k IH]; intros acc s Hwf Hg Hk; [lia|].
  cbn [repeat_m]. unfold bind.
  destruct (HT acc s Hwf Hg) as [H1 H2].
  destruct (body acc s) as [[[acc'|r]|e l|p| |] s1] eqn:Eb; cbn [fst snd] in *;
    try (split; [discriminate | intros r0 Hr0; discriminate]); [| |congruence].
  - destruct (H2 _ eq_refl) as [Hwf1 Hl1]. pose proof (Hlt acc s acc' s1 Hwf Eb) as Hr.
    destruct (IH acc' s1 Hwf1 ltac:(lia) ltac:(lia)) as [I1 I2]. split; [exact I1|].
    intros r Hr0. destruct (I2 r Hr0) as [J1 J2]. split; [exact J1 | lia].
  - destruct (H2 _ eq_refl) as [Hwf1 Hl1]. split; [discriminate|]. intros r0 _. split; assumption.
Qed.

(* PROGRESS.  That a run has taken a token is said as a triple of Safety's [ospec], not as a relation between the
   state a run starts from and the one it ends in: behind a [bind] the start state is gone, and a triple's
   assertions speak of one state each.  So the start state's room is fixed as a bound [k] that the triple is
   stated for every value of: from a state with at most [k] tokens left ([at_most k]) the run ends, according to the
   value it returns, with fewer than [k] left ([below k]), with at most [k] again, or, behind a statement that may have
   jumped, anywhere.  At [anyR], which allows everything, [ospec] is a plain triple about normal returns.
   Every step of an expression carries [at_most k] on, and [below k] (the cursor clause of [ER]); the reads of the
   cursor turn the one into the other; [ospec_bind] puts the steps together with no side condition left. *)
Definition anyR (_ : interp) (_ : res unit) (_ : interp) : Prop := True.
Lemma anyR_ocat : ocat anyR. Proof. split; intros; exact I. Qed.

Definition at_most (k : nat) (s : interp) : Prop := wf s /\ room s <= k.
Definition below (k : nat) (s : interp) : Prop := wf s /\ room s < k.

(* what makes the loops of the tiers and the lists end: a run that returns has taken at least one token (every
   expression does); a read that looks for an operator has taken one when it found one *)
Definition consumes {A} (m : M A) : Prop := forall k, ospec (at_most k) anyR m (fun _ => below k).

Definition consumes_some {O} (m : M (option O)) : Prop :=
  forall k, ospec (at_most k) anyR m (fun o => match o with Some _ => below k | None => at_most k end).

(* read at the room of the start state *)
Lemma consumes_run {A} (m : M A) s a s' : consumes m -> wf s -> m s = (Ok a, s') -> wf s' /\ room s' < room s.
Proof. intros H Hwf E. destruct (H (room s) s (conj Hwf (le_n _))) as [_ HQ]. rewrite E in HQ. exact (HQ _ eq_refl). Qed.

Lemma ER_room s s' : wf s -> ERw s (Ok tt) s' -> wf s' /\ room s' <= room s.
Proof.
  intros Hwf H. destruct (H Hwf) as [A1 A2 A3 A4 A5 A6 A7 A8 A9]. destruct (A9 eq_refl) as [B1 B2].
  split; [exact A1|]. unfold room. rewrite (cur_toks_same s s' A2 A4 B1). lia.
Qed.

Lemma at_most_carried {A} k (m : M A) : orel ERw m -> ospec (at_most k) anyR m (fun _ => at_most k).
Proof.
  apply (ospec_carried ERw anyR); [intros; exact I|]. intros s s' [Hwf Hk] H.
  destruct (ER_room s s' Hwf H). split; [assumption | lia].
Qed.

Lemma below_carried {A} k (m : M A) : orel ERw m -> ospec (below k) anyR m (fun _ => below k).
Proof.
  apply (ospec_carried ERw anyR); [intros; exact I|]. intros s s' [Hwf Hk] H.
  destruct (ER_room s s' Hwf H). split; [assumption | lia].
Qed.

(* a statement may jump: nothing is known after it *)
Lemma ospec_any {A} (P : interp -> Prop) (m : M A) : ospec P anyR m (fun _ _ => True).
Proof. intros s _. split; [exact I | trivial]. Qed.

Lemma ospec_never {A} (P : interp -> Prop) (m : M A) Q : (forall s a, fst (m s) <> Ok a) -> ospec P anyR m Q.
Proof. intros H s _. split; [exact I|]. intros a E. destruct (H s a E). Qed.

(* what [T_loop] asks of a loop's body: an iteration that goes on has taken a token *)
Definition goes_on_eating {St Res} (body : St -> M (St + Res)) : Prop :=
  forall acc k, ospec (at_most k) anyR (body acc) (fun r => match r with inl _ => below k | inr _ => fun _ => True end).

Lemma T_loop {St Res} g k (body : St -> M (St + Res)) acc :
  g < k -> (forall acc, T g (body acc)) -> goes_on_eating body -> T g (repeat_m k body acc).
Proof.
  intros Hk HT H s Hwf Hg. pose proof (room_lim s) as Hr. apply (T_repeat g body HT); [|exact Hwf|exact Hg|lia].
  intros a s0 a' s' Hwf0 E. destruct (H a (room s0) s0 (conj Hwf0 (le_n _))) as [_ HQ]. rewrite E in HQ. exact (proj2 (HQ _ eq_refl)).
Qed.

(* the rest of the line is dropped: not a step of [ER] (the cursor may stand behind the end), but no room is left *)
Lemma eat_discard k : ospec (below k) anyR discard_remaining_tokens (fun _ => below k).
Proof.
  apply ospec_post; [intros s; exact I|]. intros s u s' [Hwf Hk]. unfold discard_remaining_tokens.
  rewrite bind_run, (cur_tokens_eq s (wf_loc _ Hwf)). unfold modify. intros H; inversion H; subst. split.
  - apply wf_set_loc; [exact Hwf | exact (wf_loc _ Hwf)].
  - unfold room at 1. cbn [loc set_loc loc_idx]. change (cur_toks (set_loc _ s)) with (cur_toks s). lia.
Qed.

(* What a peek learned, as an assertion: the state has at most [k] tokens left and the cursor stands on [t] (on
   nothing, at [None]).  A peek takes nothing; the read that follows a peek that saw a token takes it ([eat_seen],
   PRINT's separators), and so does the [advance] by which [next_token], [accept_next_token] and [try_next_token]
   take what their own peek saw ([eat_advance]). *)
Definition sees (t : option token) (k : nat) (s : interp) : Prop :=
  at_most k s /\ nth_error (cur_toks s) (loc_idx (loc s)) = t.

Lemma peek_sees k : ospec (at_most k) anyR peek_next_token (fun t => sees t k).
Proof.
  apply ospec_post; [intros s; exact I|]. intros s t s' [Hwf Hk]. rewrite (peek_eq s (wf_loc _ Hwf)).
  intros H; inversion H; subst. split; [split; [exact (wf_bump s Hwf) | exact Hk] | reflexivity].
Qed.

Lemma eat_advance k t : ospec (sees (Some t) k) anyR advance (fun _ => below k).
Proof.
  apply ospec_post; [intros s; exact I|]. intros s u s' [[Hwf Hk] E] H. inversion H; subst.
  split; [apply wf_set_loc; [exact Hwf | exact (wf_loc _ Hwf)] | pose proof (room_step s _ E); exact (Nat.lt_le_trans _ _ _ H0 Hk)].
Qed.

Lemma eat_seen k t : ospec (sees (Some t) k) anyR next_token (fun _ => below k).
Proof.
  apply ospec_post; [intros s; exact I|]. intros s t' s' [[Hwf Hk] E]. rewrite (next_token_w s Hwf), E.
  intros H; inversion H; subst. split; [exact (wf_adv s Hwf) | pose proof (room_step s _ E); lia].
Qed.

(* The walk.  At a bind the first step is a read of the cursor or an evaluator that consumes ([eatdb], or a
   hypothesis), a step of [ER], which carries the bound on, or anything else, after which nothing is known
   ([ospec_any]: so a hint missing from [erdb] shows as a [ret] that cannot be answered further on).  What is left
   at a [ret] is an inclusion between two of the assertions, an identity or a projection. *)
Create HintDb eatdb discriminated.
#[local] Hint Resolve eat_advance eat_discard eat_seen peek_sees : eatdb.

Ltac eat_leaf :=
  first [ solve [auto 1 with eatdb nocore]
        | eapply ospec_pre; [exact (fun _ H => proj1 H) | solve [auto 1 with eatdb nocore]]
        | apply below_carried; solve [auto 2 with erdb nocore]
        | apply at_most_carried; solve [auto 2 with erdb nocore]
        | apply ospec_any ].

(* once a token is taken and no more is asked, the rest is one step of [ER] if it is an expression's *)
Ltac eat_rest :=
  lazymatch goal with
  | |- ospec (below ?k) _ _ (fun _ => below ?k) =>
      solve [apply below_carried; orel_walk ERw_ocat ltac:(solve [auto 2 with erdb nocore])]
  end.

Ltac eat_step :=
  cbv beta iota zeta;
  first [ eat_rest | lazymatch goal with
  | |- ospec (match ?x with _ => _ end) _ _ _ => destruct x
  | |- ospec (if ?x then _ else _) _ _ _ => destruct x
  | |- ospec _ _ (ret (if ?x then _ else _)) _ => destruct x
  | |- ospec _ _ (ret _) _ => apply (ospec_ret _ _ _ _ anyR_ocat); first [exact (fun _ H => H) | exact (fun _ _ => I) | exact (fun _ H => proj1 H)]
  | |- ospec _ _ (fail _) _ => apply ospec_never; intros ? ? H; discriminate H
  | |- ospec _ _ (fail_at _ _) _ => apply ospec_never; intros ? ? H; discriminate H
  | |- ospec _ _ (bind (get _) _) _ =>
      eapply (ospec_bind _ anyR_ocat); [first [apply below_carried | apply at_most_carried]; apply (orel_get _ ERw_ocat) | intro]
  | |- ospec _ _ (bind (if ?x then _ else _) _) _ => destruct x
  | |- ospec _ _ (bind (ret ?a) ?f) _ => change (bind (ret a) f) with (f a)
  | |- ospec _ _ (bind _ _) _ => eapply (ospec_bind _ anyR_ocat); [eat_leaf | intro]
  | |- ospec _ _ (match ?x with _ => _ end) _ => destruct x
  | |- ospec _ _ (if ?x then _ else _) _ => destruct x
  | |- ospec _ _ _ _ => eat_leaf
  end ].
Ltac eat_walk := repeat eat_step.
Ltac eats_all :=
  intros ?k; lazymatch goal with |- ospec _ _ ?m _ => let h := head_of m in unfold h end; eat_walk.

Lemma consumes_some_next_token : consumes_some next_token. Proof. eats_all. Qed.
Lemma consumes_some_try {O} (f : token -> option O) : consumes_some (try_next_token f). Proof. eats_all. Qed.
Lemma eat_accept t k : ospec (at_most k) anyR (accept_next_token t) (fun b => if b then below k else at_most k).
Proof. revert k. eats_all. Qed.
#[local] Hint Resolve consumes_some_next_token consumes_some_try eat_accept : eatdb.
Lemma consumes_next_unwrapped : consumes next_unwrapped_token.
Proof. eats_all. Qed.
Lemma consumes_some_accept_as {O} t (o0 : O) : consumes_some (accept_as t o0).
Proof. eats_all. Qed.
#[local] Hint Resolve consumes_next_unwrapped consumes_some_accept_as : eatdb.

(* A primitive is a leaf of the walk: it never starves ([nofdb]), keeps [wf]
   ([srdb], [erdb]) and does not lengthen the immediate line ([frdb]). *)
Create HintDb Tdb discriminated.

(* the third goal, [mrel IM m], closes because ImmFrame.v makes [IM_setters_ok] a hint of [frdb] *)
Ltac T_prim_leaf :=
  apply T_prim; [ solve [auto 2 with nofdb nocore] | solve [auto 2 with srdb erdb nocore]
                | solve [auto 2 with frdb nocore] ].

Ltac T_step :=
  idtac; lazymatch goal with
  | |- T _ (ret _) => apply T_ret
  | |- T _ (fail _) => apply T_fail
  | |- T _ (fail_at _ _) => apply T_fail_at
  | |- T _ (panic _) => apply T_panic
  | |- T _ oracle_miss => apply T_oracle_miss
  | |- T _ (get _) => apply T_get
  | |- T _ (lift_res _) => apply T_lift_res; solve [auto 1 with nofdb nocore]
  | |- T _ (modify _) => first [ solve [auto 1 with Tdb nocore] | apply T_er; [apply nofR_modify | frame_tac] ]
  | |- T _ (bind _ _) => apply T_bind; [| intro]
  | |- T _ (repeat_m _ _ _) => apply T_loop; [assumption | intro | intros ?acc ?k; solve [eat_walk]]
  | |- ?P (match ?x with _ => _ end) => case_scrutinee P x
  | |- _ => first [ solve [auto 1 with Tdb nocore] | T_prim_leaf ]
  end.
Ltac T_walk := repeat T_step.
Ltac tw := unfold_head; T_walk.

(* entering and leaving a user function: [lim] is about all lines, so the jump
   to the DEF line and back does not change it; a missing function or an empty
   stack is a panic, which [T] does not exclude *)
Lemma T_push_fn g name b : T g (push_function_call name b).
Proof.
  intros s Hwf Hg. split; [apply nofR_push_fn|]. rewrite Caps.push_eq. cbv zeta.
  destruct (Nat.eqb _ _); [intros u H; discriminate H|].
  destruct (alist_get name (functions s)) as [d|] eqn:Hd; [|intros u H; discriminate H].
  intros _ _. split; [apply (wf_push_frame name); assumption | apply le_n].
Qed.

Lemma T_pop_fn g : T g pop_function_call.
Proof.
  intros s Hwf Hg. split; [apply nofR_pop_fn|].
  destruct (rev (stack s)) as [|fr rest] eqn:E.
  - unfold pop_function_call. rewrite bind_get, E. intros u H; discriminate H.
  - apply Caps.rev_cons_inv in E. rewrite (pop_frame_eq s _ _ E).
    intros _ _. split; [apply wf_pop_frame; assumption | apply le_n].
Qed.

#[local] Hint Resolve er_expr er_optional_index er_parse_lvalue er_assign er_accept_as er_bind_arguments er_array_index er_unary_arg er_user_function_call
  er_function_call er_term er_paren er_unary er_tier : erdb.

Section ExprT.
  Variable fuel g : nat.
  Variable rec : M value.
  Hypothesis Her : orel ERw rec.
  Hypothesis Hc : consumes rec.
  Hypothesis HT : T g rec.
  Hypothesis Hg : g < fuel.

  Lemma T_bind_arguments args : forall i n b, T g (bind_arguments rec args i n b).
  Proof. induction args as [|a args IH]; intros i n b; cbn [bind_arguments]; T_walk. Qed.
  Hint Resolve T_bind_arguments : Tdb.

  (* the body is evaluated on the DEF line, with the callee frame on the stack *)
  Lemma T_call_body : T g (call_body rec).
  Proof.
    clear Hg. intros s Hwf Hl. unfold call_body. destruct (HT s Hwf Hl) as [R1 R2].
    destruct (rec s) as [[v|e l|p| |] s1]; cbn [fst snd] in *;
      try (split; [discriminate | intros a H; discriminate]); [| |congruence].
    - destruct (R2 v eq_refl) as [Hwf1 Hl1]. destruct (T_pop_fn g s1 Hwf1 ltac:(lia)) as [P1 P2].
      destruct (pop_function_call s1) as [[u|e l|p| |] s2]; cbn [fst snd] in *;
        try (split; [discriminate | intros a H; discriminate]); [|congruence].
      split; [discriminate|]. intros a _. destruct (P2 u eq_refl) as [Hwf2 Hl2]. split; [exact Hwf2 | lia].
    - pose proof (nofR_pop_fn s1) as Hp.
      destruct (pop_function_call s1) as [[u|e2 l2|p| |] s2]; cbn [fst] in *;
        try (split; [discriminate | intros a H; discriminate]). congruence.
  Qed.
  Hint Resolve T_push_fn T_call_body : Tdb.

  Lemma T_user_function_call name : T g (user_function_call rec name).
  Proof. clear Hg. tw. Qed.

  Hint Resolve T_user_function_call : Tdb.

  Lemma T_array_index : T g (evaluate_array_index fuel rec). Proof. tw. Qed.
  Hint Resolve T_array_index : Tdb.

  Lemma T_unary_arg : T g (unary_number_function_arg rec). Proof. tw. Qed.
  Hint Resolve T_unary_arg : Tdb.
  Lemma T_function_call name : T g (function_call rec name). Proof. tw. Qed.
  Hint Resolve T_function_call : Tdb.
  Lemma T_term : T g (expression_term fuel rec). Proof. tw. Qed.
  Hint Resolve T_term : Tdb.
  Lemma T_paren : T g (parenthesized_expression fuel rec). Proof. tw. Qed.
  Hint Resolve T_paren : Tdb.
  Lemma T_unary : T g (unary_operator fuel rec). Proof. tw. Qed.

  Lemma consumes_term : consumes (expression_term fuel rec).
  Proof. eats_all. Qed.
  Hint Resolve consumes_term : eatdb.

  Lemma consumes_paren : consumes (parenthesized_expression fuel rec).
  Proof. eats_all. Qed.
  Hint Resolve consumes_paren : eatdb.

  Lemma consumes_unary : consumes (unary_operator fuel rec).
  Proof. eats_all. Qed.

  Lemma T_tier {O} (get_op : M (option O)) (operand : M value) (ap : O -> value -> value -> M value) :
    T g get_op -> consumes_some get_op ->
    T g operand -> orel ERw operand -> (forall o a b, T g (ap o a b)) -> (forall o a b, orel ERw (ap o a b)) ->
    T g (tier fuel get_op operand ap).
  Proof. intros G1 G3 O1 O2 A1 A2. tw. Qed.

  Lemma consumes_tier {O} (get_op : M (option O)) (operand : M value) (ap : O -> value -> value -> M value) :
    orel ERw get_op -> consumes operand -> orel ERw operand -> (forall o a b, orel ERw (ap o a b)) ->
    consumes (tier fuel get_op operand ap).
  Proof.
    intros G O1 O2 A2. eats_all.
  Qed.

  Lemma T_accept_as {O} t (o : O) : T g (accept_as t o). Proof. tw. Qed.
  Hint Resolve T_accept_as : Tdb.

  Let P0 (m : M value) : Prop := orel ERw m /\ consumes m.
  Let P1 (m : M value) : Prop := T g m /\ orel ERw m.

  Lemma tier_P0 {O} (get_op : M (option O)) operand ap :
    orel ERw get_op -> (forall o a b, orel ERw (ap o a b)) -> P0 operand -> P0 (tier fuel get_op operand ap).
  Proof. intros G A [O2 O3]. split; [apply er_tier | apply consumes_tier]; assumption. Qed.

  Lemma tier_P1 {O} (get_op : M (option O)) operand ap :
    T g get_op -> orel ERw get_op -> consumes_some get_op ->
    (forall o a b, T g (ap o a b)) -> (forall o a b, orel ERw (ap o a b)) ->
    P1 operand -> P1 (tier fuel get_op operand ap).
  Proof.
    intros G1 G2 G3 A1 A2 [O1 O2]. split; [apply T_tier | apply er_tier]; assumption.
  Qed.

  Lemma consumes_logical_or : consumes (logical_or_expression fuel rec).
  Proof.
    apply (tiers_ind fuel rec P0);
      [ intros; apply tier_P0; [solve [auto 1 with erdb nocore] | intros; auto 1 with erdb nocore | assumption] ..
      | split; [apply er_unary, Her | apply consumes_unary] ].
  Qed.

  Lemma expr_tiers : T g (logical_or_expression fuel rec).
  Proof.
    apply (tiers_ind fuel rec P1);
      [ intros; apply tier_P1;
          [ T_step | solve [auto 1 with erdb nocore]
          | first [apply consumes_some_accept_as | apply consumes_some_try]
          | intros; T_prim_leaf | intros; auto 1 with erdb nocore | assumption ] ..
      | split; [apply T_unary | apply er_unary, Her] ].
  Qed.
End ExprT.

Lemma consumes_evaluate_expression fuel n : consumes (evaluate_expression fuel n).
Proof.
  destruct fuel as [|f]; cbn [evaluate_expression]; [intros k; apply ospec_never; intros s a E; discriminate E|].
  destruct (Nat.eqb n max_nesting); [intros k; apply ospec_never; intros s a E; discriminate E|].
  apply consumes_logical_or, er_evaluate_expression.
Qed.

(* one unit of fuel per nesting level, and a loop's worth on top *)
Lemma T_evaluate_expression : forall fuel n g, n <= max_nesting -> g + (max_nesting - n) < fuel ->
  T g (evaluate_expression fuel n).
Proof.
  induction fuel as [|f IH]; intros n g Hn Hc; [lia|]. cbn [evaluate_expression].
  destruct (Nat.eqb_spec n max_nesting) as [->|Hne]; [apply T_fail|].
  apply expr_tiers; [apply er_evaluate_expression | apply consumes_evaluate_expression | apply IH; lia | lia].
Qed.

(* INPUT's rewind moves the cursor BACK on its line, so neither [ER] nor the frame walk of Frames.v (whose
   relations every [set_loc] must respect) covers it.  [WK]: all that [wf] and [lim] read stays, of the cursor
   its line *)
Definition WK (s s' : interp) : Prop :=
  st_toks s' = st_toks s /\ st_keys s' = st_keys s /\ loc_line (loc s') = loc_line (loc s)
  /\ breakpoint s' = breakpoint s /\ stack s' = stack s /\ loops s' = loops s
  /\ functions s' = functions s /\ data_it s' = data_it s /\ arrays s' = arrays s /\ immediate s' = immediate s.

Lemma WK_preorder : preorder WK.
Proof.
  split; unfold WK.
  - intros s. repeat split.
  - intros a b c (A1 & A2 & A3 & A4 & A5 & A6 & A7 & A8 & A9 & A10) (B1 & B2 & B3 & B4 & B5 & B6 & B7 & B8 & B9 & B10).
    repeat split; congruence.
Qed.

Lemma WK_wf s s' : WK s s' -> wf s -> wf s' /\ lim s' = lim s.
Proof.
  intros (A1 & A2 & A3 & A4 & A5 & A6 & A7 & A8 & A9 & A10) Hwf. split.
  - revert Hwf. apply wf_ext; assumption.
  - unfold lim. rewrite A1, A10. reflexivity.
Qed.

Lemma wk_tokens_for_line l : mrel WK (tokens_for_line l).
Proof. apply (mrel_same _ _ WK_preorder), same_tokens_for_line. Qed.

Ltac wk_leaf :=
  first [ apply wk_tokens_for_line
        | apply (mrel_modify WK); intros; unfold WK; repeat split; reflexivity ].

Lemma wk_rewind_loop i t : mrel WK (rewind_loop i t).
Proof.
  induction i as [|i IH]; cbn [rewind_loop]; autounfold with prims;
    mrel_walk WK_preorder ltac:(first [apply IH | wk_leaf]).
Qed.

Lemma wk_await : mrel WK rewind_program_and_await_input.
Proof.
  unfold rewind_program_and_await_input. autounfold with prims.
  mrel_walk WK_preorder ltac:(first [apply wk_rewind_loop | wk_leaf]).
Qed.

Lemma T_await g : T g rewind_program_and_await_input.
Proof.
  intros s Hwf Hg. split; [apply nofR_await|]. intros a _.
  destruct (WK_wf _ _ (wk_await s) Hwf) as [H1 H2]. split; [exact H1 | lia].
Qed.

Lemma T_discard g : T g discard_remaining_tokens.
Proof. T_prim_leaf. Qed.
#[local] Hint Resolve T_await T_discard : Tdb.

Lemma T_break g : T g break_at_current_location.
Proof. apply T_prim; [apply nofR_break | apply sr_break | auto 2 with frdb nocore]. Qed.

Lemma T_raw_err {A} g e l : T g (fun s : interp => (@Err A e l, s)).
Proof. intros s Hwf Hl. split; [discriminate|]. intros a H; discriminate. Qed.

Lemma T_take_input g : T g take_input.
Proof. apply T_prim; [apply nofR_take_input | apply sr_of_er, er_take_input | auto 2 with frdb nocore]. Qed.

Section StmtT.
  Variable fuel nest g : nat.
  Variable rec : M unit.
  Hypothesis HT : T g rec.
  Hypothesis Hg : g < fuel.
  Hypothesis Hex : T g (expr fuel nest).

  Lemma consumes_expr : consumes (expr fuel nest).
  Proof. apply consumes_evaluate_expression. Qed.

  Lemma T_st_array_index : T g (evaluate_array_index fuel (expr fuel nest)).
  Proof. apply T_array_index; [apply consumes_expr | exact Hex | exact Hg]. Qed.
  Hint Resolve T_st_array_index : Tdb.

  Lemma T_optional_index : T g (parse_optional_array_index fuel nest). Proof. tw. Qed.
  Hint Resolve T_optional_index : Tdb.
  Lemma T_parse_lvalue : T g (parse_lvalue fuel nest). Proof. tw. Qed.
  Lemma T_assign lv v : T g (assign_value lv v). Proof. tw. Qed.
  Lemma T_goto_stmt : T g evaluate_goto_statement. Proof. tw. Qed.
  Lemma T_gosub_stmt : T g evaluate_gosub_statement. Proof. tw. Qed.
  Hint Resolve T_parse_lvalue T_assign T_goto_stmt T_gosub_stmt : Tdb.
  Lemma T_stmt_or_goto : T g (statement_or_goto_line_number rec). Proof. tw. Qed.
  Lemma T_assignment sym : T g (evaluate_assignment_statement fuel nest sym). Proof. tw. Qed.
  Hint Resolve T_stmt_or_goto T_assignment : Tdb.
  Lemma T_let : T g (evaluate_let_statement fuel nest). Proof. tw. Qed.
  Lemma T_dim : T g (evaluate_dim_statement fuel nest). Proof. tw. Qed.
  Lemma T_for : T g (evaluate_for_statement fuel nest). Proof. tw. Qed.
  Lemma T_next_stmt : T g evaluate_next_statement. Proof. tw. Qed.

  Hint Resolve T_let T_dim T_for T_next_stmt T_break T_raw_err T_take_input : Tdb.

  Lemma T_input : T g (evaluate_input_statement fuel nest). Proof. tw. Qed.

  Lemma T_if : T g (evaluate_if_statement fuel nest rec). Proof. tw. Qed.

  Lemma consumes_parse_lvalue : consumes (parse_lvalue fuel nest).
  Proof. eats_all. Qed.
  Hint Resolve consumes_parse_lvalue consumes_expr : eatdb.

  Lemma T_read : T g (evaluate_read_statement fuel nest). Proof. tw. Qed.

  Lemma T_print : T g (evaluate_print_statement fuel nest). Proof. tw. Qed.

  Lemma T_def : T g (evaluate_def_statement fuel). Proof. tw. Qed.

  Lemma T_is_else : T g is_else_of_then_clause.
  Proof. apply T_er; [apply nofR_is_else | apply er_is_else]. Qed.

  Lemma T_get_line_number : T g get_line_number.
  Proof. apply T_er; [apply nofR_get_line_number | apply er_get_line_number]. Qed.
  Hint Resolve T_if T_read T_print T_def T_input T_is_else T_get_line_number : Tdb.

  Lemma T_statement_body : T g (evaluate_statement_body fuel nest rec). Proof. tw. Qed.
End StmtT.

Lemma T_evaluate_statement : forall fuel n g, n <= max_nesting -> g + (max_nesting - n) < fuel ->
  T g (evaluate_statement fuel n).
Proof.
  induction fuel as [|f IH]; intros n g Hn Hc; [lia|]. cbn [evaluate_statement].
  destruct (Nat.eqb_spec n max_nesting) as [->|Hne]; [apply T_fail|].
  apply T_statement_body; [apply IH; lia | lia|]. apply T_evaluate_expression; lia.
Qed.

(* the fuel a continue call needs: [T_evaluate_statement] at nesting level 0, every level of recursion
   (at most [max_nesting]) costing one unit on top of a loop's worth, [lim s] *)
Definition call_bound (s : interp) : nat := lim s + max_nesting.

Lemma T_run_next_statement fuel g : g + max_nesting < fuel -> T g (run_next_statement fuel).
Proof.
  intros Hf. pose proof (T_evaluate_statement fuel 0 g (Nat.le_0_l _) ltac:(lia)).
  unfold run_next_statement, return_to_idle_state. T_walk.
Qed.

Theorem continue_returns fuel s :
  wf s -> call_bound s < fuel -> fst (continue_evaluating fuel s) <> OutOfFuel.
Proof.
  intros Hwf Hf. unfold continue_evaluating. destruct (state s); try discriminate.
  destruct (T_run_next_statement fuel (lim s) Hf s Hwf (le_n _)) as [H _].
  destruct (run_next_statement fuel s) as [[u|e l|p| |] s1]; cbn [postprocess fst] in *; try discriminate; congruence.
Qed.

Lemma ranges_count lo hi ts : ranges_ok lo hi ts -> lo <= hi -> length ts <= hi - lo.
Proof.
  revert lo; induction ts as [|[t [a b]] ts IH]; intros lo H Hle; [cbn [length]; lia|].
  cbn [ranges_ok] in H. destruct H as (H1 & H2 & H3 & H4). pose proof (IH b H4 H3) as IH'. cbn [length]. lia.
Qed.

Lemma tokens_count line skip ts : skip <= length line -> tokenize line skip = TokOk ts -> length (map fst ts) <= length line.
Proof.
  intros Hs H. rewrite map_length. pose proof (tokenize_ranges_ok line skip ts Hs H) as Hr.
  pose proof (ranges_count _ _ _ Hr Hs) as H0. eapply Nat.le_trans; [exact H0 | apply Nat.le_sub_l].
Qed.

(* ... and a typed line: the immediate line will hold its tokens, no more of them than the line has bytes
   ([tokens_count]) *)
Definition start_bound (s : interp) (line : bytes) : nat :=
  Nat.max (longest (st_toks s)) (length line) + max_nesting.

Lemma modify_wf_T g f :
  (forall s, wf s -> wf (f s)) -> (forall s, lim (f s) <= lim s) -> T g (modify f).
Proof.
  intros H1 H2 s Hwf Hg. split; [discriminate|]. intros a _. split; [apply H1, Hwf | apply H2].
Qed.

Lemma list_lines_nof ks L : list_lines ks L <> OutOfFuel.
Proof.
  induction ks as [|k ks IH]; cbn [list_lines]; [discriminate|].
  destruct (toks_get k L); [|discriminate]. destruct (list_lines ks L); try discriminate. congruence.
Qed.

Lemma T_process_command fuel g c : g + max_nesting < fuel -> T g (process_command fuel c).
Proof.
  intros Hf. pose proof (T_run_next_statement fuel g Hf).
  assert (T g (modify (set_arrays []))).
  { apply modify_wf_T; [intros s H0; apply wf_set_arrays; [exact H0 | constructor] | intros s; apply le_n]. }
  assert (T g (fun s => (list_lines (st_keys s) (st_toks s), s))).
  { apply T_intro; [intros s _ _; cbn [fst]; apply list_lines_nof | apply sr_list | intros s; unfold IM; apply le_n]. }
  destruct c; cbn [process_command]; T_walk.
Qed.

Lemma nofR_set_numbered_line n ts : nofR (set_numbered_line n ts).
Proof. unfold set_numbered_line. nofr_walk. Qed.

Lemma lim_imm_reset ts s : lim (imm_reset ts s) = Nat.max (longest (st_toks s)) (length ts).
Proof. unfold lim, imm_reset. destruct (breakpoint s); reflexivity. Qed.

Theorem start_returns fuel line s :
  wf s -> start_bound s line < fuel -> fst (start_evaluating fuel line s) <> OutOfFuel.
Proof.
  intros Hwf Hf. unfold start_evaluating, start_bound in *.
  assert (H : fst (evaluate_impl fuel line s) <> OutOfFuel).
  { destruct (state s) eqn:Hst; [|rewrite evaluate_impl_busy by congruence; discriminate ..].
    apply (evaluate_impl_idle (fun x => fst x <> OutOfFuel)); [exact Hst| | | |].
    - intros c _. apply (T_process_command fuel (lim (imm_reset [] s)) c); [|apply wf_imm_reset, Hwf|apply le_n].
      rewrite lim_imm_reset. cbn [length]. lia.
    - (* an edit: no loop at all *)
      intros n ts _. apply nofR_set_numbered_line.
    - intros ts _ _ Et. pose proof (tokens_count line 0 ts (Nat.le_0_l _) Et) as Hc.
      apply (T_run_next_statement fuel (Nat.max (longest (st_toks s)) (length line)) Hf);
        [apply wf_imm_reset, Hwf|]. rewrite lim_imm_reset. lia.
    - intros ts e _ _. discriminate. }
  destruct (evaluate_impl fuel line s) as [[u|e l|p| |] s1]; cbn [postprocess fst] in *; try discriminate; congruence.
Qed.

(* What nothing above uses: a normal return of a [bind] taken apart, and the readings of [ER_room] and
   [consumes_some_next_token] at a run. *)
Lemma bind_ok_inv {A B} (m : M A) (f : A -> M B) s b s' :
  bind m f s = (Ok b, s') -> exists a s1, m s = (Ok a, s1) /\ f a s1 = (Ok b, s').
Proof. unfold bind. destruct (m s) as [[a| | | |] s1]; try discriminate. intros H. exists a, s1. split; [reflexivity | exact H]. Qed.

Lemma er_room {A} (m : M A) s a s' : orel ERw m -> wf s -> m s = (Ok a, s') -> room s' <= room s.
Proof. intros Hm Hwf E. pose proof (Hm s) as H. rewrite E in H. exact (proj2 (ER_room s s' Hwf H)). Qed.

Lemma next_token_some s t s' : wf s -> next_token s = (Ok (Some t), s') -> wf s' /\ room s' < room s /\ cur_toks s' = cur_toks s.
Proof.
  intros Hwf E. destruct (consumes_some_next_token (room s) s (conj Hwf (le_n _))) as [_ HQ]. rewrite E in HQ.
  destruct (HQ _ eq_refl) as [H1 H2]. split; [exact H1|]. split; [exact H2|].
  rewrite (next_token_w s Hwf) in E. destruct (nth_error (cur_toks s) (loc_idx (loc s))); inversion E; reflexivity.
Qed.
