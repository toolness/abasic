(* C05: the static analysis terminates.  The Rust analyzer's loops (operator
   tiers, argument lists, PRINT items, READ targets, DEF parameters) and its
   recursion (parentheses, nested IFs) are modelled with fuel, so termination is
   "the fuel suffices": above a bound that depends only on the longest stored
   line and the nesting cap the result is never OutOfFuel.  Why it suffices: no
   function of the analyzer moves the cursor backwards or off its line; an
   expression that succeeds consumes a token; every loop iteration that
   continues consumes one, so a loop with more fuel than tokens left never
   starves; recursion costs one unit of fuel per nesting level.  All of that is
   in AnalyzerSafety.v: these facts are clauses of the functions' contract
   ([aspec]), and the budgets are spent in its walk of a line and of the file
   ([walk_line_step], [walk_budget], [ahead_le]), which ends "Ok, or starved on
   fuel that does not fit the stored lines" ([analysis_facts]).  This file adds
   the bound: fuel above [line_bound] fits every stored line. *)
From Coq Require Import List NArith ZArith Lia.
From Abasic Require Import Model.Bytes Model.Token Model.State Model.Analyzer Proofs.AnalyzerSafety.
From Abasic Require Proofs.Termination.
Import ListNotations.
Local Open Scope nat_scope.

Fixpoint longest (T : list (N * list token)) : nat :=
  match T with [] => 0 | (_, ts) :: r => Nat.max (length ts) (longest r) end.

Lemma longest_bound T : forall n ts, toks_get n T = Some ts -> length ts <= longest T.
Proof. exact (Termination.longest_bound T). Qed.

Lemma longest_fuel_fits T fuel : longest T + max_nesting < fuel -> fuel_fits T fuel.
Proof. intros H n ts E. pose proof (longest_bound T n ts E). lia. Qed.

Definition line_bound (text : bytes) : nat := longest (st_toks (p_prog (pass1_of' text))) + max_nesting.

Theorem analysis_total fuel text : line_bound text < fuel -> an_result (analyze fuel text) = Ok tt.
Proof.
  intros H. destruct (analysis_facts fuel text (fun _ => True)) as [Hr _]; [intros; exact I | apply Forall_forall; intros; exact I |].
  destruct (an_result (analyze fuel text)) as [[]|e l|p| |]; try contradiction; [reflexivity|].
  destruct (Hr (longest_fuel_fits _ _ H)).
Qed.

Theorem analysis_terminates fuel text : line_bound text < fuel -> an_result (analyze fuel text) <> OutOfFuel.
Proof. intros H. rewrite (analysis_total fuel text H). discriminate. Qed.

(* From here on: single clauses of the contract stated for themselves, as at
   the end of AnalyzerSafety.v; [analysis_total] above does not go through them.
   [anof g m] is the no-starving clause as a judgement of its own, over [room],
   the tokens left on the cursor's line whatever that line is: from a state in
   [inC] with at most [g] tokens left, [m] does not starve ([anof_aspec]: the
   contract at budget [S g]). *)
Section Ctx.
  Variable T : list (N * list token).

  Definition line_toks (s : interp) : list token :=
    match loc_line (loc s) with
    | Some n => match toks_get n T with Some ts => ts | None => [] end
    | None => []
    end.

  Definition room (s : interp) : nat := length (line_toks s) - loc_idx (loc s).

  Lemma cursor_on_room n ts s : cursor_on T n ts s -> room s = togo ts s.
  Proof. intros (_ & Hl & Hg & _). unfold room, line_toks, togo. rewrite Hl, Hg. reflexivity. Qed.

  Definition anof {A} (g : nat) (m : MA A) : Prop :=
    forall st, inC T (fst st) -> room (fst st) <= g -> fst (m st) <> OutOfFuel.

  Lemma anof_weaken {A} g g' (m : MA A) : g' <= g -> anof g m -> anof g' m.
  Proof. intros Hg Hm st H Hr. apply Hm; [exact H | lia]. Qed.

  Lemma lift_eq {A} (m : M A) st r s1 : m (fst st) = (r, s1) -> lift m st = (r, (s1, snd st)).
  Proof. intros H. unfold lift. rewrite H. reflexivity. Qed.

  Lemma anof_aspec {A} g (Q : A -> nat -> nat -> Prop) (m : MA A) : aspec T (S g) Q m -> anof g m.
  Proof.
    intros Hm st H Hr. destruct (inC_cursor_on T _ H) as (n & ts & Hon). rewrite (cursor_on_room n ts _ Hon) in Hr.
    apply (Hm n ts st Hon). lia.
  Qed.

  Lemma anof_ret {A} g (a : A) : anof g (aret a).
  Proof. intros st _ _. discriminate. Qed.
  Lemma anof_fail {A} g e : anof g (@afail A e).
  Proof. intros st _ _. discriminate. Qed.
  Lemma anof_log g sym l w : anof g (log_access sym l w).
  Proof. intros st _ _. discriminate. Qed.
  Lemma anof_lift {A} g (m : M A) : Termination.nofR m -> anof g (lift m).
  Proof.
    intros Hm st _ _. unfold lift. specialize (Hm (fst st)). destruct (m (fst st)) as [r p]. exact Hm.
  Qed.

  Lemma nof_enter_nesting g n : anof g (enter_nesting n).
  Proof. exact (anof_aspec g _ _ (sp_enter_nesting T (S g) n)). Qed.

  Lemma nof_analyze_expression : forall fuel n g, n <= max_nesting -> g + (max_nesting - n) < fuel ->
    anof g (analyze_expression fuel n).
  Proof. intros fuel n g Hn Hc. apply (anof_aspec g q_eats), sp_analyze_expression; lia. Qed.

  Lemma nof_analyze_statement : forall fuel n g, n <= max_nesting -> g + (max_nesting - n) < fuel ->
    anof g (analyze_statement fuel n).
  Proof. intros fuel n g Hn Hc. apply (anof_aspec g q_stmt), sp_analyze_statement; lia. Qed.
End Ctx.

Lemma room_bound T s : room T s <= longest T.
Proof.
  unfold room, line_toks. destruct (loc_line (loc s)) as [n|]; [|cbn; lia].
  destruct (toks_get n T) as [ts|] eqn:E; [pose proof (longest_bound T n ts E); lia | cbn; lia].
Qed.

(* [amlt m]: a successful run of [m] from a state in [inC] moves the cursor
   strictly forward, which is the postcondition [q_eats] ([amlt_aspec]).
   [aspec_anof] is the converse of [anof_aspec], since the last clause of the
   contract is the only one that looks at the budget: from
   [anof g (aexpr fuel nest)] it gives the premise
   [aspec T (S g) q_eats (aexpr fuel nest)] that the [sp_] lemma of a
   statement asks, with [sp_analyze_expression_0].  [nof_statement_or_goto] asks of [rec] only that
   it does not starve, [nof_assign] nothing of the lvalue ([sp_assign] wants
   the location it logs to be good). *)
Section Progress.
  Variable T : list (N * list token).

  Definition amlt {A} (m : MA A) : Prop :=
    forall st, inC T (fst st) -> forall a st', m st = (Ok a, st') -> loc_idx (loc (fst st)) < loc_idx (loc (fst st')).

  Lemma amlt_aspec {A} g (m : MA A) : aspec T g q_eats m -> amlt m.
  Proof.
    intros Hm st H a st' E. destruct (inC_cursor_on T _ H) as (n & ts & Hon).
    destruct (Hm n ts st Hon) as (((_ & _ & _ & Hb) & _) & _ & P & _). rewrite E in *.
    cbn [fst snd post] in *. unfold q_eats, togo in P. lia.
  Qed.

  Lemma lt_analyze_expression fuel n : amlt (analyze_expression fuel n).
  Proof. exact (amlt_aspec 0 _ (sp_analyze_expression_0 T fuel n)). Qed.

  Lemma lt_analyze_statement fuel n st u st' : inC T (fst st) ->
    nth_error (line_toks T (fst st)) (loc_idx (loc (fst st))) <> None ->
    analyze_statement fuel n st = (Ok u, st') -> loc_idx (loc (fst st)) < loc_idx (loc (fst st')).
  Proof.
    intros H Hn E. destruct (inC_cursor_on T _ H) as (k & ts & Hon).
    destruct (sp_analyze_statement_0 T fuel n k ts st Hon) as (((_ & _ & _ & Hb) & _) & _ & P & _). rewrite E in *.
    unfold line_toks in Hn. destruct Hon as (_ & Hl & Hg & _). rewrite Hl, Hg in Hn. apply nth_error_Some in Hn.
    cbn [fst snd post] in *. unfold q_stmt, togo in P. lia.
  Qed.

  Lemma aspec_anof {A} g (Q : A -> nat -> nat -> Prop) (m : MA A) : aspec T 0 Q m -> anof T g m -> aspec T (S g) Q m.
  Proof.
    intros Hm Hn n ts st Hon. destruct (Hm n ts st Hon) as (M & A1 & P & _).
    split; [exact M | split; [exact A1 | split; [exact P|]]]. intros Hlt.
    apply Hn; [exact (cursor_on_inC T n ts _ Hon) | rewrite (cursor_on_room T n ts _ Hon); lia].
  Qed.

  Lemma nof_assign g lv t : anof T g (an_assign lv t).
  Proof. intros st _ _. unfold an_assign, abind, log_access, check. cbn. destruct (vtype_eqb _ _); discriminate. Qed.

  Lemma nof_statement_or_goto g (rec : MA unit) : anof T g rec -> anof T g (an_statement_or_goto rec).
  Proof.
    intros Hnof st H Hr. destruct (inC_cursor_on T _ H) as (n & ts & Hon). destruct (cursor_on_cur T n ts _ Hon) as [Hx _].
    unfold an_statement_or_goto, abind, lift. rewrite (Safety.peek_eq _ Hx).
    destruct (nth_error _ _) as [[]|]; first [apply Hnof | apply (anof_aspec T g _ _ (sp_goto_or_gosub T (S g)))]; assumption.
  Qed.
End Progress.

(* without [inC] or any premise on the map the file walk can still panic, and that is all: no error value *)
Lemma walk_lines_shape fuel m : forall n msgs st,
  match fst (fst (walk_lines fuel n m msgs st)) with Ok _ | Panic _ | OutOfFuel => True | _ => False end.
Proof.
  induction n as [|n IH]; intros msgs st; cbn [walk_lines]; [exact I|].
  destruct (walk_line fuel _ m st) as [[om|e l|p| |] st']; cbn [fst]; try exact I.
  destruct (next_line (fst st')) as [[[|]|e l|p| |] p1]; cbn [fst]; try exact I. apply IH.
Qed.
