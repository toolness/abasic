(* Proofs/LineAgree.v — C06, the converse clause for a whole LINE of statements separated by ":".

   A line is STRAIGHT when none of its tokens is IF, THEN, ELSE, GOTO, GOSUB, RETURN, NEXT, END, STOP,
   INPUT or DEF (the property's "no conditional, no control transfer, no INPUT and no function
   definition"; with no function defined — part of R — a name followed by "(" is an array cell for
   both tools).  [LineRun fi s s']: the interpreter executes the rest of the line of [s], every
   statement successfully, and arrives in [s'].  [straight_line_complete]: then the checker's walk over
   the rest of that line ([walk_line], whose [Some msg] answers are the Error messages of the analysis)
   reports no error; read the other way round, an error reported on a straight line means that
   executing it does not complete: some statement of it answers an error - or one of the model's own
   answers, OutOfFuel (at [fi = 0] no statement completes), OracleMiss for "^", Panic, which
   [~ exists s', LineRun fi s s'] does not tell apart from an error.  [HostLine] and [host_line_complete] say the same of the host's turns
   ([run_next_statement]); [turn_fails_with_statement] / [turn_ok_statement_ok] tie a turn to its
   statement. *)
From Coq Require Import List ZArith.
From Abasic Require Import Model.Token Model.State Model.Eval Model.Interp Model.Analyzer Proofs.Monad
     Proofs.CheckSound Proofs.CheckAgree Proofs.PlainToks Proofs.Safety Proofs.InputProofs Proofs.ProgSound.
Import ListNotations.
Local Open Scope nat_scope.

Definition straight_tok (t : token) : bool :=
  match t with
  | TIf | TThen | TElse | TGoto | TGosub | TReturn | TNext | TEnd | TStop | TInput | TDef => false
  | _ => true
  end.
Definition straight_line (ts : list token) : bool := forallb straight_tok ts.

Lemma abind_lift_run {A B} (p : M A) (g : A -> MA B) sa acc :
  abind (lift p) g (sa, acc) =
  match p sa with
  | (Ok x, p1) => g x (p1, acc)
  | (Err e l, p1) => (Err e l, (p1, acc))
  | (Panic pp, p1) => (Panic pp, (p1, acc))
  | (OutOfFuel, p1) => (OutOfFuel, (p1, acc))
  | (OracleMiss, p1) => (OracleMiss, (p1, acc))
  end.
Proof. unfold abind, lift. cbn [fst snd]. destruct (p sa) as [[x|e l|pp| |] p1]; reflexivity. Qed.

Lemma cp_has_next : cursor_prim has_next_token.
Proof. unfold has_next_token. apply cp_bind; [apply cp_peek | intro; apply cp_ret]. Qed.

Lemma cur_line_C s sa : C s sa -> cur_line s = cur_line sa.
Proof. intros H. exact (eq_sym (proj1 (C_cur_line s sa H))). Qed.

(* what the checker's state says of its line holds of the interpreter's *)
Lemma same_line_C s sa s' sa' : C s sa -> C s' sa' ->
  cur_line sa' = cur_line sa -> loc_line (loc sa') = loc_line (loc sa) ->
  cur_line s' = cur_line s /\ loc_line (loc s') = loc_line (loc s).
Proof.
  intros HC HC' Hc Hl. rewrite (cur_line_C s sa HC), (cur_line_C s' sa' HC'), Hc.
  destruct HC as (_ & _ & _ & ->), HC' as (_ & _ & _ & ->). rewrite Hl. split; reflexivity.
Qed.

Lemma straight_stays f n arec t st st' :
  straight_tok t = true -> adispatch f n arec (Some t) st = (Ok tt, st') ->
  cur_line (fst st') = cur_line (fst st) /\ loc_line (loc (fst st')) = loc_line (loc (fst st)).
Proof.
  intros Ht E.
  destruct (plain_head (Some t)) eqn:Hp.
  - pose proof (aplp_dispatch f n arec (Some t) Hp st tt st' E) as Hpl.
    split; [exact (line_of_PL plainT (fst st) (fst st') Hpl) | apply Hpl].
  - destruct t; try discriminate Hp; try discriminate Ht. cbn [adispatch] in E. unfold aret in E. injection E as <-.
    split; reflexivity.
Qed.

Lemma statement_agrees_on_line fi fa n s sa acc :
  R s sa -> straight_line (cur_line s) = true ->
  match evaluate_statement fi n s, analyze_statement fa n (sa, acc) with
  | (Ok _, s'), (Ok _, (sa', _)) => R s' sa' /\ cur_line s' = cur_line s /\ loc_line (loc s') = loc_line (loc s)
  | (Ok _, _), (Err _ _, _) => False
  | (Err e _, _), (Ok _, _) => benign e
  | _, _ => True
  end.
Proof.
  intros HR Hst. destruct fi as [|fi]; [cbn [evaluate_statement]; unfold out_of_fuel;
    destruct (analyze_statement fa n (sa, acc)) as [[[]|? ?|?| |] [? ?]]; exact I|].
  destruct fa as [|fa]; [cbn [analyze_statement]; destruct (evaluate_statement (S fi) n s) as [[[]|? ?|?| |] ?]; exact I|].
  cbn [evaluate_statement analyze_statement].
  destruct (Nat.eqb n max_nesting); [exact I|].
  rewrite an_statement_body_dispatch, abind_lift_run.
  destruct (cursor_R _ s sa cp_next_token HR) as (E & HR1 & _).
  destruct (body_cases fi (S n) (evaluate_statement fi (S n)) s) as [[p Hp] | [Hl Hb]].
  { rewrite Hp. destruct (next_token sa) as [[t|? ?|?| |] sa1]; cbn [fst snd];
      try (destruct (adispatch fa (S n) (analyze_statement fa (S n)) t (sa1, acc)) as [[[]|? ?|?| |] [? ?]]); exact I. }
  rewrite Hb. rewrite (next_token_there s Hl) in E, HR1. destruct (next_token sa) as [r' sa1].
  destruct (nth_error (cur_line s) (loc_idx (loc s))) as [t|] eqn:Etok; cbn [fst snd] in E, HR1; subst r'.
  2:{ split; [exact HR1|]. split; reflexivity. }
  set (s1 := advd (traced s)).
  assert (Htok : straight_tok t = true).
  { unfold straight_line in Hst. rewrite forallb_forall in Hst. apply Hst. eapply nth_error_In; eassumption. }
  destruct (straight_head (Some t)) eqn:Hh.
  - pose proof (straight_statement_agrees fi fa (S n) (evaluate_statement fi (S n)) (analyze_statement fa (S n)) (Some t) Hh
                  s1 sa1 acc HR1) as Hag.
    pose proof (straight_stays fa (S n) (analyze_statement fa (S n)) t (sa1, acc)) as Hstay.
    destruct (edispatch fi (S n) (evaluate_statement fi (S n)) (Some t) s1) as [[[]|e l|p| |] s2];
      destruct (adispatch fa (S n) (analyze_statement fa (S n)) (Some t) (sa1, acc)) as [[[]|e' l'|p'| |] [sa2 acc2]];
      try exact Hag; try exact I.
    destruct Hag as [_ HR2]. split; [exact HR2|].
    destruct (Hstay (sa2, acc2) Htok eq_refl) as [Hstayc Hstayl].
    destruct (same_line_C s1 sa1 s2 sa2 (proj1 HR1) (proj1 HR2) Hstayc Hstayl) as [-> ->].
    split; reflexivity.
  - (* not the start of a statement: both tools answer SYNTAX ERROR *)
    destruct t; try discriminate Hh; try discriminate Htok; cbn [edispatch adispatch]; exact I.
Qed.

Inductive LineRun (fi : nat) : interp -> interp -> Prop :=
| LR_done s s1 : has_next_token s = (Ok false, s1) -> LineRun fi s s1
| LR_step s s1 s2 s' : has_next_token s = (Ok true, s1) -> evaluate_statement fi 0 s1 = (Ok tt, s2) ->
    LineRun fi s2 s' -> LineRun fi s s'.

Lemma walk_line_done fa k m s sa acc s1 :
  R s sa -> has_next_token s = (Ok false, s1) ->
  match walk_line fa k m (sa, acc) with
  | (Ok (Some _), _) => False
  | _ => True
  end.
Proof.
  intros HR Hh. destruct k as [|k]; [exact I|]. cbn [walk_line fst snd].
  destruct (cursor_R _ s sa cp_has_next HR) as [E _]. rewrite Hh in E.
  destruct (has_next_token sa) as [r p1]. cbn [fst] in E. subst r. exact I.
Qed.

(* one statement of the walk, the rest of it as a continuation *)
Lemma line_agrees_step fi fa k m s sa acc s1 s2 :
  R s sa -> straight_line (cur_line s) = true ->
  has_next_token s = (Ok true, s1) -> evaluate_statement fi 0 s1 = (Ok tt, s2) ->
  (forall sa2 acc2, R s2 sa2 -> cur_line s2 = cur_line s -> loc_line (loc s2) = loc_line (loc s) ->
     match walk_line fa k m (sa2, acc2) with
     | (Ok (Some _), _) => False
     | _ => True
     end) ->
  match walk_line fa (S k) m (sa, acc) with
  | (Ok (Some _), _) => False
  | _ => True
  end.
Proof.
  intros HR Hst Hh Hev Hk. cbn [walk_line fst snd].
  destruct (cursor_R _ s sa cp_has_next HR) as (E & HR1 & _). rewrite Hh in E, HR1.
  destruct (has_next_token sa) as [r p1]. cbn [fst snd] in E, HR1. subst r.
  assert (Es1 : s1 = bumped s).
  { destruct (has_next_token_cases s) as [Hp | (_ & p & Hp)]; rewrite Hp in Hh; [injection Hh as _ <-; reflexivity | discriminate Hh]. }
  subst s1.
  pose proof (statement_agrees_on_line fi fa 0 (bumped s) p1 acc HR1 Hst) as Hag. rewrite Hev in Hag.
  destruct (analyze_statement fa 0 (p1, acc)) as [[[]|e l|p| |] [sa2 acc2]]; try exact I; [|contradiction].
  destruct Hag as (HR2 & Hcl & Hll). apply Hk; assumption.
Qed.

Theorem straight_line_complete fi fa : forall k m s s', LineRun fi s s' ->
  forall sa acc, R s sa -> straight_line (cur_line s) = true ->
  match walk_line fa k m (sa, acc) with
  | (Ok (Some _), _) => False
  | _ => True
  end.
Proof.
  intros k m s s' Hrun. revert k. induction Hrun as [s s1 Hh | s s1 s2 s' Hh Hev Hrun IH]; intros k sa acc HR Hst.
  - exact (walk_line_done fa k m s sa acc s1 HR Hh).
  - destruct k as [|k]; [exact I|]. apply (line_agrees_step fi fa k m s sa acc s1 s2 HR Hst Hh Hev).
    intros sa2 acc2 HR2 Hcl _. apply IH; [exact HR2 | rewrite Hcl; exact Hst].
Qed.

Corollary straight_line_error_fails fi fa k m s sa acc msg st' :
  R s sa -> straight_line (cur_line s) = true ->
  walk_line fa k m (sa, acc) = (Ok (Some msg), st') -> ~ exists s', LineRun fi s s'.
Proof.
  intros HR Hst E (s' & Hrun). pose proof (straight_line_complete fi fa k m s s' Hrun sa acc HR Hst) as H.
  rewrite E in H. exact H.
Qed.

Lemma turn_fails_with_statement fi s s1 e l s2 :
  has_next_token (set_state Running s) = (Ok true, s1) -> evaluate_statement fi 0 s1 = (Err e l, s2) ->
  run_next_statement fi s = (Err e l, s2).
Proof.
  intros Hh Hev. unfold run_next_statement. rewrite bind_modify, bind_run, Hh, bind_run, Hev. reflexivity.
Qed.

(* an executable form of [LineRun], for examples *)
Fixpoint line_run (k fi : nat) (s : interp) : option interp :=
  match k with
  | O => None
  | S k' =>
      match has_next_token s with
      | (Ok false, s1) => Some s1
      | (Ok true, s1) => match evaluate_statement fi 0 s1 with (Ok _, s2) => line_run k' fi s2 | _ => None end
      | _ => None
      end
  end.

Lemma line_run_sound fi : forall k s s', line_run k fi s = Some s' -> LineRun fi s s'.
Proof.
  induction k as [|k IH]; intros s s' E; cbn [line_run] in E; [discriminate E|].
  destruct (has_next_token s) as [[[|]|? ?|?| |] s1] eqn:Hh; try discriminate E.
  - destruct (evaluate_statement fi 0 s1) as [[[]|? ?|?| |] s2] eqn:Hev; try discriminate E.
    exact (LR_step fi s s1 s2 s' Hh Hev (IH s2 s' E)).
  - injection E as <-. exact (LR_done fi s s1 Hh).
Qed.

Lemma turn_ok_statement_ok fi s s1 s' :
  has_next_token (set_state Running s) = (Ok true, s1) -> run_next_statement fi s = (Ok tt, s') ->
  exists s2, evaluate_statement fi 0 s1 = (Ok tt, s2).
Proof.
  intros Hh E. unfold run_next_statement in E. rewrite bind_modify, bind_run, Hh, bind_run in E.
  destruct (evaluate_statement fi 0 s1) as [[[]|e l|p| |] s2]; try discriminate E. exists s2. reflexivity.
Qed.

(* [HostLine fi s]: the host calls the interpreter turn after turn while statements remain on the current
   line, and every one of these turns succeeds.  [on_line s s']: [s'] still stands on the line of [s], a
   token under the cursor; a turn that ends anywhere else has finished the line and owes nothing more
   (the guard of [HL_turn]). *)
Definition on_line (s s' : interp) : Prop :=
  loc_line (loc s') = loc_line (loc s) /\ nth_error (cur_line s') (loc_idx (loc s')) <> None.

Inductive HostLine (fi : nat) : interp -> Prop :=
| HL_done s s1 : has_next_token (set_state Running s) = (Ok false, s1) -> HostLine fi s
| HL_turn s s' : run_next_statement fi s = (Ok tt, s') -> (on_line s s' -> HostLine fi s') -> HostLine fi s.

Theorem host_line_complete fi fa : forall s, HostLine fi s ->
  forall k m sa acc, R s sa -> straight_line (cur_line s) = true ->
  match walk_line fa k m (sa, acc) with
  | (Ok (Some _), _) => False
  | _ => True
  end.
Proof.
  intros s H. induction H as [s s1 Hh | s s' Erun Hnext IH]; intros k m sa acc HR Hst;
    assert (HRr : R (set_state Running s) sa) by (apply (R_quiet s); try reflexivity; exact HR).
  - exact (walk_line_done fa k m _ sa acc s1 HRr Hh).
  - unfold run_next_statement in Erun. rewrite bind_modify, bind_run in Erun.
    destruct (has_next_token (set_state Running s)) as [[[|]|e l|p| |] s1] eqn:Hh; try discriminate Erun;
      [|exact (walk_line_done fa k m _ sa acc s1 HRr Hh)].
    rewrite bind_run in Erun.
    destruct (evaluate_statement fi 0 s1) as [[[]|e l|p| |] s2] eqn:Hev; try discriminate Erun.
    destruct k as [|k]; [exact I|]. apply (line_agrees_step fi fa k m _ sa acc s1 s2 HRr Hst Hh Hev).
    intros sa2 acc2 HR2 Hcl Hll.
    rewrite bind_run in Erun.
    destruct (has_next_token_cases s2) as [Hp | (_ & p & Hp)]; rewrite Hp in Erun; [|discriminate Erun].
    change (cur_toks s2) with (cur_line s2) in Erun, Hp.
    destruct (nth_error (cur_line s2) (loc_idx (loc s2))) as [t2|] eqn:Et2;
      [|exact (walk_line_done fa k m s2 sa2 acc2 _ HR2 Hp)].
    (* more on the line: the next turn, which starts behind the same peek *)
    unfold ret in Erun. injection Erun as <-. apply IH.
    + split; [exact Hll | change (nth_error (cur_line s2) (loc_idx (loc s2)) <> None); rewrite Et2; discriminate].
    + apply (R_quiet s2); try reflexivity. exact HR2.
    + change (straight_line (cur_line s2) = true). rewrite Hcl. exact Hst.
Qed.

Corollary host_line_error_fails fi fa k m s sa acc msg st' :
  R s sa -> straight_line (cur_line s) = true ->
  walk_line fa k m (sa, acc) = (Ok (Some msg), st') -> ~ HostLine fi s.
Proof.
  intros HR Hst E Hrun. pose proof (host_line_complete fi fa s Hrun k m sa acc HR Hst) as H.
  rewrite E in H. exact H.
Qed.

(* an executable form of [HostLine], for examples *)
Definition opt_N_eqb (a b : option N) : bool :=
  match a, b with Some x, Some y => N.eqb x y | None, None => true | _, _ => false end.
Definition on_line_b (s s' : interp) : bool :=
  opt_N_eqb (loc_line (loc s')) (loc_line (loc s))
  && match nth_error (cur_line s') (loc_idx (loc s')) with Some _ => true | None => false end.

Lemma on_line_b_complete s s' : on_line s s' -> on_line_b s s' = true.
Proof.
  intros [H1 H2]. unfold on_line_b. rewrite H1.
  replace (opt_N_eqb (loc_line (loc s)) (loc_line (loc s))) with true
    by (destruct (loc_line (loc s)); cbn; [rewrite N.eqb_refl|]; reflexivity).
  destruct (nth_error (cur_line s') (loc_idx (loc s'))); [reflexivity | contradiction].
Qed.

Fixpoint host_run (k fi : nat) (s : interp) : bool :=
  match k with
  | O => false
  | S k' =>
      match has_next_token (set_state Running s) with
      | (Ok false, _) => true
      | (Ok true, _) =>
          match run_next_statement fi s with
          | (Ok _, s') => if on_line_b s s' then host_run k' fi s' else true
          | _ => false
          end
      | _ => false
      end
  end.

Lemma host_run_sound fi : forall k s, host_run k fi s = true -> HostLine fi s.
Proof.
  induction k as [|k IH]; intros s E; cbn [host_run] in E; [discriminate E|].
  destruct (has_next_token (set_state Running s)) as [[[|]|? ?|?| |] s1] eqn:Hh; try discriminate E.
  - destruct (run_next_statement fi s) as [[[]|? ?|?| |] s'] eqn:Er; try discriminate E.
    apply (HL_turn fi s s' Er). intros Hon. rewrite (on_line_b_complete s s' Hon) in E. exact (IH s' E).
  - exact (HL_done fi s s1 Hh).
Qed.
