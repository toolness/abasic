(* Proofs/BreakCont.v — property C07: a host break followed by CONT is
   transparent to the interrupted program, and inspecting state at a
   breakpoint does not change the continuation.

   The idea: the state a break leaves ([broken]) differs from the interrupted
   one in fields that CONT restores or that [run_next_statement] overwrites
   first, so break-then-CONT is the continue call it replaces, as an equation
   between host calls; schedules of such pairs follow by induction, carrying
   RunInv's invariant J.  The rows agree too because no evaluator returns a
   tokenizer error ([nosyn]): only for those does the caret depend on the
   source text, which "CONT" has and a plain continue has not. *)
From Coq Require Import List NArith ZArith Bool.
From Abasic Require Import Model.Bytes Model.Token Model.State Model.Eval Model.Interp Proofs.Monad Proofs.StoreProofs
     Proofs.ResetProofs Proofs.Safety Proofs.FlagsSim Proofs.InputProofs Proofs.RunInv.
Import ListNotations.
Local Open Scope nat_scope.

(* No evaluator returns [ESyntaxTok]: that error is produced by the
      tokenizer only ([evaluate_impl]). *)

Definition ok_res {A} (r : res A) : Prop :=
  match r with Err (ESyntaxTok _) _ => False | _ => True end.

Definition nosyn {A} (m : M A) : Prop := forall s, ok_res (fst (m s)).

Lemma nosyn_ret {A} (a : A) : nosyn (ret a). Proof. intros s; exact I. Qed.
Lemma nosyn_get {A} (f : interp -> A) : nosyn (get f). Proof. intros s; exact I. Qed.
Lemma nosyn_modify f : nosyn (modify f). Proof. intros s; exact I. Qed.
Lemma nosyn_panic {A} p : nosyn (@panic A p). Proof. intros s; exact I. Qed.
Lemma nosyn_out_of_fuel {A} : nosyn (@out_of_fuel A). Proof. intros s; exact I. Qed.
Lemma nosyn_oracle_miss {A} : nosyn (@oracle_miss A). Proof. intros s; exact I. Qed.
Lemma nosyn_fail {A} e : (forall t, e <> ESyntaxTok t) -> nosyn (@fail A e).
Proof. intros H s. cbn. destruct e; try exact I. eapply H; reflexivity. Qed.
Lemma nosyn_fail_at {A} e l : (forall t, e <> ESyntaxTok t) -> nosyn (@fail_at A e l).
Proof. intros H s. cbn. destruct e; try exact I. eapply H; reflexivity. Qed.
Lemma nosyn_lift_res {A} (r : res A) : ok_res r -> nosyn (lift_res r).
Proof. intros H s; exact H. Qed.

Lemma nosyn_bind {A B} (m : M A) (f : A -> M B) :
  nosyn m -> (forall a, nosyn (f a)) -> nosyn (bind m f).
Proof.
  intros Hm Hf s. unfold bind. specialize (Hm s).
  destruct (m s) as [[a|e l|p| |] s1]; cbn [fst] in *; try exact Hm. apply Hf.
Qed.

Lemma nosyn_repeat {S T} n (body : S -> M (S + T)) :
  (forall acc, nosyn (body acc)) -> forall acc, nosyn (repeat_m n body acc).
Proof.
  intros Hb. induction n as [|n IH]; intros acc; cbn [repeat_m].
  - apply nosyn_out_of_fuel.
  - apply nosyn_bind; [apply Hb|]. intros [acc'|r]; [apply IH|apply nosyn_ret].
Qed.

Lemma ok_res_coerce name e : ok_res (coerce_data name e).
Proof. destruct (coerce_data_cases name e) as [[v ->]|(-> & _)]; exact I. Qed.

Lemma ok_res_create name mi : ok_res (array_create_value name mi).
Proof.
  unfold array_create_value. destruct mi as [|m mi]; [exact I|].
  destruct (existsb _ _); [exact I|].
  destruct (checked_product _ _); [|exact I].
  destruct (max_dim_total <? n)%N; exact I.
Qed.

Lemma ok_res_linear a idx : ok_res (array_linear_index a idx).
Proof.
  unfold array_linear_index. destruct (negb _); [exact I|]. destruct (linear_index _ _ _ _); exact I.
Qed.

Create HintDb nsdb discriminated.

Ltac ns_leaf := solve [ auto 2 with nsdb nocore ].

Ltac ns_step :=
  lazymatch goal with
  | |- nosyn (ret _) => apply nosyn_ret
  | |- nosyn (fail _) => apply nosyn_fail; intros ?; discriminate
  | |- nosyn (fail_at _ _) => apply nosyn_fail_at; intros ?; discriminate
  | |- nosyn (panic _) => apply nosyn_panic
  | |- nosyn out_of_fuel => apply nosyn_out_of_fuel
  | |- nosyn oracle_miss => apply nosyn_oracle_miss
  | |- nosyn (get _) => apply nosyn_get
  | |- nosyn (modify _) => apply nosyn_modify
  | |- nosyn (lift_res (coerce_data _ _)) => apply nosyn_lift_res, ok_res_coerce
  | |- nosyn (lift_res (array_create_value _ _)) => apply nosyn_lift_res, ok_res_create
  | |- nosyn (lift_res (array_linear_index _ _)) => apply nosyn_lift_res, ok_res_linear
  | |- nosyn (bind _ _) => apply nosyn_bind; [| intro]
  | |- nosyn (repeat_m _ _ _) => apply nosyn_repeat; intro
  | |- nosyn (if ?b then _ else _) => destruct b
  | |- nosyn (let '(_, _) := ?x in _) => destruct x
  (* INPUT hands the error of [coerce_data] on through a bare function of the state, not through
     [fail]: [coerce_data_cases] says which error it can be *)
  | |- nosyn (match coerce_data ?n ?e with _ => _ end) =>
      let v := fresh "v" in let E := fresh "E" in
      destruct (coerce_data_cases n e) as [[v E]|(E & _)]; rewrite E
  | |- ?P (match ?x with _ => _ end) => case_scrutinee P x
  | |- nosyn _ => ns_leaf
  end.

Ltac ns_walk := repeat ns_step.

Lemma nosyn_tokens_for_line l : nosyn (tokens_for_line l).
Proof.
  intros s. unfold tokens_for_line. destruct l as [n|]; [|exact I].
  destruct (toks_get n (st_toks s)); exact I.
Qed.
#[local] Hint Resolve nosyn_tokens_for_line : nsdb.

Lemma nosyn_cur_tokens : nosyn cur_tokens. Proof. unfold cur_tokens; ns_walk. Qed.
#[local] Hint Resolve nosyn_cur_tokens : nsdb.
Lemma nosyn_peek : nosyn peek_next_token. Proof. unfold peek_next_token; ns_walk. Qed.
#[local] Hint Resolve nosyn_peek : nsdb.
Lemma nosyn_has_next : nosyn has_next_token. Proof. unfold has_next_token; ns_walk. Qed.
Lemma nosyn_advance : nosyn advance. Proof. unfold advance; ns_walk. Qed.
#[local] Hint Resolve nosyn_has_next nosyn_advance : nsdb.
Lemma nosyn_next_token : nosyn next_token. Proof. unfold next_token; ns_walk. Qed.
#[local] Hint Resolve nosyn_next_token : nsdb.
Lemma nosyn_next_unwrapped : nosyn next_unwrapped_token. Proof. unfold next_unwrapped_token; ns_walk. Qed.
#[local] Hint Resolve nosyn_next_unwrapped : nsdb.
Lemma nosyn_expect e : nosyn (expect_next_token e). Proof. unfold expect_next_token; ns_walk. Qed.
Lemma nosyn_accept e : nosyn (accept_next_token e). Proof. unfold accept_next_token; ns_walk. Qed.
Lemma nosyn_peek_is e : nosyn (peek_is e). Proof. unfold peek_is; ns_walk. Qed.
Lemma nosyn_try {A} (f : token -> option A) : nosyn (try_next_token f).
Proof. unfold try_next_token; ns_walk. Qed.
Lemma nosyn_discard : nosyn discard_remaining_tokens. Proof. unfold discard_remaining_tokens; ns_walk. Qed.
#[local] Hint Resolve nosyn_expect nosyn_accept nosyn_peek_is nosyn_try nosyn_discard : nsdb.
Lemma nosyn_rewind_loop i e : nosyn (rewind_loop i e).
Proof. induction i as [|i IH]; cbn [rewind_loop]; ns_walk. Qed.
#[local] Hint Resolve nosyn_rewind_loop : nsdb.
Lemma nosyn_rewind e : nosyn (rewind_before_token e). Proof. unfold rewind_before_token; ns_walk. Qed.
Lemma nosyn_get_line_number : nosyn get_line_number. Proof. unfold get_line_number; ns_walk. Qed.
Lemma nosyn_set_imm ts : nosyn (set_and_goto_immediate_line ts).
Proof. unfold set_and_goto_immediate_line; ns_walk. Qed.
#[local] Hint Resolve nosyn_rewind nosyn_get_line_number nosyn_set_imm : nsdb.
Lemma nosyn_remove_loop sym : nosyn (remove_loop_with_name sym).
Proof. unfold remove_loop_with_name; ns_walk. Qed.
Lemma nosyn_program_break : nosyn program_break_at_current_location.
Proof. unfold program_break_at_current_location; ns_walk. Qed.
Lemma nosyn_variables_set n v : nosyn (variables_set n v). Proof. unfold variables_set; ns_walk. Qed.
Lemma nosyn_variables_get n : nosyn (variables_get n). Proof. unfold variables_get; ns_walk. Qed.
#[local] Hint Resolve nosyn_remove_loop nosyn_program_break nosyn_variables_set nosyn_variables_get : nsdb.
Lemma nosyn_start_loop sym a b c : nosyn (start_loop sym a b c). Proof. unfold start_loop; ns_walk. Qed.
Lemma nosyn_end_loop sym : nosyn (end_loop sym). Proof. unfold end_loop; ns_walk. Qed.
Lemma nosyn_reset_data : nosyn reset_data_cursor. Proof. unfold reset_data_cursor; ns_walk. Qed.
Lemma nosyn_program_end : nosyn program_end. Proof. unfold program_end; ns_walk. Qed.
Lemma nosyn_goto n : nosyn (goto_line_number n). Proof. unfold goto_line_number; ns_walk. Qed.
#[local] Hint Resolve nosyn_start_loop nosyn_end_loop nosyn_reset_data nosyn_program_end nosyn_goto : nsdb.
Lemma nosyn_gosub n : nosyn (gosub_line_number n). Proof. unfold gosub_line_number; ns_walk. Qed.
Lemma nosyn_return : nosyn return_to_last_gosub. Proof. unfold return_to_last_gosub; ns_walk. Qed.
Lemma nosyn_define_function n a : nosyn (define_function n a). Proof. unfold define_function; ns_walk. Qed.
Lemma nosyn_push_fn n b : nosyn (push_function_call n b). Proof. unfold push_function_call; ns_walk. Qed.
Lemma nosyn_pop_fn : nosyn pop_function_call. Proof. unfold pop_function_call; ns_walk. Qed.
Lemma nosyn_find_var n : nosyn (find_variable_value_in_stack n).
Proof. unfold find_variable_value_in_stack; ns_walk. Qed.
#[local] Hint Resolve nosyn_gosub nosyn_return nosyn_define_function nosyn_push_fn nosyn_pop_fn
  nosyn_find_var : nsdb.
Lemma nosyn_next_data : nosyn next_data_element.
Proof.
  intros s. unfold next_data_element. destruct (data_it s) as [d|].
  - destruct (data_next _ d); exact I.
  - destruct (data_chunks (st_keys s) (st_toks s)); try exact I. destruct (data_next _ _); exact I.
Qed.
Lemma nosyn_is_else : nosyn is_else_of_then_clause. Proof. unfold is_else_of_then_clause; ns_walk. Qed.
Lemma nosyn_next_line : nosyn next_line. Proof. unfold next_line; ns_walk. Qed.
#[local] Hint Resolve nosyn_next_data nosyn_is_else nosyn_next_line : nsdb.
Lemma nosyn_arrays_create n i : nosyn (arrays_create n i). Proof. unfold arrays_create; ns_walk. Qed.
Lemma nosyn_maybe_default n d : nosyn (maybe_create_default_array n d).
Proof. unfold maybe_create_default_array; ns_walk. Qed.
#[local] Hint Resolve nosyn_arrays_create nosyn_maybe_default : nsdb.
Lemma nosyn_arrays_get n i : nosyn (arrays_get n i). Proof. unfold arrays_get; ns_walk. Qed.
Lemma nosyn_arrays_set n i v : nosyn (arrays_set n i v). Proof. unfold arrays_set; ns_walk. Qed.
Lemma nosyn_rng_rnd x : nosyn (rng_rnd x). Proof. unfold rng_rnd; ns_walk. Qed.
Lemma nosyn_push_output o : nosyn (push_output o). Proof. unfold push_output; ns_walk. Qed.
#[local] Hint Resolve nosyn_arrays_get nosyn_arrays_set nosyn_rng_rnd nosyn_push_output : nsdb.
Lemma nosyn_warn m : nosyn (warn m). Proof. unfold warn; ns_walk. Qed.
#[local] Hint Resolve nosyn_warn : nsdb.
Lemma nosyn_maybe_warn n : nosyn (maybe_warn_undeclared_array n).
Proof. unfold maybe_warn_undeclared_array; ns_walk. Qed.
#[local] Hint Resolve nosyn_maybe_warn : nsdb.

Lemma nosyn_eval_unary o v : nosyn (eval_unary o v). Proof. unfold eval_unary; ns_walk. Qed.
Lemma nosyn_eval_addsub o a b : nosyn (eval_addsub o a b). Proof. unfold eval_addsub; ns_walk. Qed.
Lemma nosyn_eval_muldiv o a b : nosyn (eval_muldiv o a b). Proof. unfold eval_muldiv; ns_walk. Qed.
Lemma nosyn_eval_eq o a b : nosyn (eval_eq o a b). Proof. unfold eval_eq; ns_walk. Qed.
Lemma nosyn_eval_and a b : nosyn (eval_and a b). Proof. unfold eval_and; ns_walk. Qed.
Lemma nosyn_eval_or a b : nosyn (eval_or a b). Proof. unfold eval_or; ns_walk. Qed.
Lemma nosyn_eval_pow a b : nosyn (eval_pow a b). Proof. unfold eval_pow; ns_walk. Qed.
Lemma nosyn_expect_number v : nosyn (expect_number v). Proof. unfold expect_number; ns_walk. Qed.
#[local] Hint Resolve nosyn_eval_unary nosyn_eval_addsub nosyn_eval_muldiv nosyn_eval_eq nosyn_eval_and
  nosyn_eval_or nosyn_eval_pow nosyn_expect_number : nsdb.

Section NosynExpr.
  Variable fuel : nat.
  Variable rec : M value.
  Hypothesis Hrec : nosyn rec.
  Hint Resolve Hrec : nsdb.

  Lemma nosyn_bind_arguments args : forall i n b, nosyn (bind_arguments rec args i n b).
  Proof. induction args as [|a args IH]; intros i n b; cbn [bind_arguments]; ns_walk. Qed.

  Lemma nosyn_call_body : nosyn (call_body rec).
  Proof.
    intros s. unfold call_body. pose proof (Hrec s) as H1.
    destruct (rec s) as [[v|e l|p| |] s1]; cbn [fst] in *; try exact I.
    - pose proof (nosyn_pop_fn s1) as H2.
      destruct (pop_function_call s1) as [[u|e2 l2|p2| |] s2]; cbn [fst] in *; try exact I; exact H2.
    - pose proof (nosyn_pop_fn s1) as H2.
      destruct (pop_function_call s1) as [[u|e2 l2|p2| |] s2]; cbn [fst] in *; try exact I;
        [destruct e; try exact I; exact H1 | exact H2].
  Qed.
  Hint Resolve nosyn_bind_arguments nosyn_call_body : nsdb.

  Lemma nosyn_array_index : nosyn (evaluate_array_index fuel rec).
  Proof. unfold evaluate_array_index; ns_walk. Qed.
  Lemma nosyn_unary_arg : nosyn (unary_number_function_arg rec).
  Proof. unfold unary_number_function_arg; ns_walk. Qed.
  Hint Resolve nosyn_array_index nosyn_unary_arg : nsdb.
  Lemma nosyn_user_function_call name : nosyn (user_function_call rec name).
  Proof. unfold user_function_call; ns_walk. Qed.
  Hint Resolve nosyn_user_function_call : nsdb.
  Lemma nosyn_function_call name : nosyn (function_call rec name).
  Proof. unfold function_call; ns_walk. Qed.
  Hint Resolve nosyn_function_call : nsdb.
  Lemma nosyn_expression_term : nosyn (expression_term fuel rec).
  Proof. unfold expression_term; ns_walk. Qed.
  Hint Resolve nosyn_expression_term : nsdb.
  Lemma nosyn_parenthesized : nosyn (parenthesized_expression fuel rec).
  Proof. unfold parenthesized_expression; ns_walk. Qed.
  Hint Resolve nosyn_parenthesized : nsdb.
  Lemma nosyn_unary_operator : nosyn (unary_operator fuel rec).
  Proof. unfold unary_operator; ns_walk. Qed.

  Lemma nosyn_tier {O} (g : M (option O)) (operand : M value) (ap : O -> value -> value -> M value) :
    nosyn g -> nosyn operand -> (forall o a b, nosyn (ap o a b)) -> nosyn (tier fuel g operand ap).
  Proof. intros Hg Ho Ha. unfold tier; ns_walk; auto. Qed.

  Lemma nosyn_accept_as {O} t (o : O) : nosyn (accept_as t o).
  Proof. unfold accept_as; ns_walk. Qed.

  Lemma nosyn_logical_or : nosyn (logical_or_expression fuel rec).
  Proof.
    apply (tiers_ind fuel rec (@nosyn value));
      [intros; apply nosyn_tier; first [apply nosyn_accept_as | apply nosyn_try | assumption | intros; ns_leaf].. | exact nosyn_unary_operator].
  Qed.
End NosynExpr.

Lemma nosyn_evaluate_expression fuel : forall n, nosyn (evaluate_expression fuel n).
Proof.
  induction fuel as [|k IH]; intros n; cbn [evaluate_expression].
  - apply nosyn_out_of_fuel.
  - destruct (Nat.eqb n max_nesting); [apply nosyn_fail; intros ?; discriminate|].
    apply nosyn_logical_or; apply IH.
Qed.
#[local] Hint Resolve nosyn_evaluate_expression : nsdb.

Section NosynStmt.
  Variable fuel : nat.
  Variable nest : nat.
  Variable rec : M unit.
  Hypothesis Hrec : nosyn rec.
  Hint Resolve Hrec : nsdb.

  Lemma nosyn_expr : nosyn (expr fuel nest). Proof. unfold expr; ns_leaf. Qed.
  Hint Resolve nosyn_expr : nsdb.
  Lemma nosyn_array_index_expr : nosyn (evaluate_array_index fuel (expr fuel nest)).
  Proof. apply nosyn_array_index, nosyn_expr. Qed.
  Hint Resolve nosyn_array_index_expr : nsdb.
  Lemma nosyn_optional_index : nosyn (parse_optional_array_index fuel nest).
  Proof. unfold parse_optional_array_index; ns_walk. Qed.
  Hint Resolve nosyn_optional_index : nsdb.
  Lemma nosyn_await : nosyn rewind_program_and_await_input.
  Proof. unfold rewind_program_and_await_input; ns_walk. Qed.
  Lemma nosyn_break : nosyn break_at_current_location.
  Proof. unfold break_at_current_location; ns_walk. Qed.
  Lemma nosyn_goto_stmt : nosyn evaluate_goto_statement.
  Proof. unfold evaluate_goto_statement; ns_walk. Qed.
  Lemma nosyn_gosub_stmt : nosyn evaluate_gosub_statement.
  Proof. unfold evaluate_gosub_statement; ns_walk. Qed.
  Hint Resolve nosyn_await nosyn_break nosyn_goto_stmt nosyn_gosub_stmt : nsdb.
  Lemma nosyn_stmt_or_goto : nosyn (statement_or_goto_line_number rec).
  Proof. unfold statement_or_goto_line_number; ns_walk. Qed.
  Hint Resolve nosyn_stmt_or_goto : nsdb.
  Lemma nosyn_if : nosyn (evaluate_if_statement fuel nest rec).
  Proof. unfold evaluate_if_statement; ns_walk. Qed.
  Lemma nosyn_assign lv v : nosyn (assign_value lv v).
  Proof. unfold assign_value; ns_walk. Qed.
  Hint Resolve nosyn_if nosyn_assign : nsdb.
  Lemma nosyn_assignment sym : nosyn (evaluate_assignment_statement fuel nest sym).
  Proof. unfold evaluate_assignment_statement; ns_walk. Qed.
  Hint Resolve nosyn_assignment : nsdb.
  Lemma nosyn_let : nosyn (evaluate_let_statement fuel nest).
  Proof. unfold evaluate_let_statement; ns_walk. Qed.
  Lemma nosyn_parse_lvalue : nosyn (parse_lvalue fuel nest).
  Proof. unfold parse_lvalue; ns_walk. Qed.
  Hint Resolve nosyn_let nosyn_parse_lvalue : nsdb.
  Lemma nosyn_read : nosyn (evaluate_read_statement fuel nest).
  Proof. unfold evaluate_read_statement; ns_walk. Qed.
  Lemma nosyn_take_input : nosyn take_input.
  Proof. unfold take_input; ns_walk. Qed.
  Hint Resolve nosyn_read nosyn_take_input : nsdb.
  Lemma nosyn_input : nosyn (evaluate_input_statement fuel nest).
  Proof. unfold evaluate_input_statement; ns_walk. Qed.
  Lemma nosyn_dim : nosyn (evaluate_dim_statement fuel nest).
  Proof. unfold evaluate_dim_statement; ns_walk. Qed.
  Lemma nosyn_print : nosyn (evaluate_print_statement fuel nest).
  Proof. unfold evaluate_print_statement; ns_walk. Qed.
  Lemma nosyn_for : nosyn (evaluate_for_statement fuel nest).
  Proof. unfold evaluate_for_statement; ns_walk. Qed.
  Lemma nosyn_next_stmt : nosyn evaluate_next_statement.
  Proof. unfold evaluate_next_statement; ns_walk. Qed.
  Lemma nosyn_def : nosyn (evaluate_def_statement fuel).
  Proof. unfold evaluate_def_statement; ns_walk. Qed.
  Hint Resolve nosyn_input nosyn_dim nosyn_print nosyn_for nosyn_next_stmt nosyn_def : nsdb.

  Lemma nosyn_statement_body : nosyn (evaluate_statement_body fuel nest rec).
  Proof. unfold evaluate_statement_body; ns_walk. Qed.
End NosynStmt.

Lemma nosyn_evaluate_statement fuel : forall n, nosyn (evaluate_statement fuel n).
Proof.
  induction fuel as [|k IH]; intros n; cbn [evaluate_statement].
  - apply nosyn_out_of_fuel.
  - destruct (Nat.eqb n max_nesting); [apply nosyn_fail; intros ?; discriminate|].
    apply nosyn_statement_body; apply IH.
Qed.
#[local] Hint Resolve nosyn_evaluate_statement : nsdb.

Theorem nosyn_run_next_statement fuel : nosyn (run_next_statement fuel).
Proof. unfold run_next_statement, return_to_idle_state; ns_walk. Qed.

Definition drain (s : interp) : interp := set_outputs [] s.

(* the spelling the theorems below type; [ResetProofs.command_of_CONT] is about it, and
   [call_obs_turn] at [tf_cont] covers every other one *)
Definition CONT : bytes := bs "CONT".

(* the state after a break at token [i] of line [n], output taken *)
Definition broken (n : N) (i : nat) (s : interp) : interp :=
  mkinterp (st_toks s) (st_keys s) [] imm0 (Some (n, i)) (stack s) (loops s) (data_it s) (functions s)
           (input s) [] Idle (rng s) (variables s) (arrays s)
           (enable_warnings s) (enable_tracing s) (pow_oracle s) 0.

(* [broken] is [ResetProofs.interrupted] once the call has reset the hook counter and the
   output is taken *)
Lemma interrupted_broken s n : loc_line (loc s) = Some n ->
  outputs (interrupted (set_reads 0 s)) = outputs s ++ [OBreak (Some n)]
  /\ set_outputs [] (interrupted (set_reads 0 s)) = broken n (loc_idx (loc s)) s.
Proof.
  intros Hl. unfold interrupted, imm_reset, numbered_of, broken.
  cbn [loc outputs set_reads set_state set_outputs set_breakpoint breakpoint]. rewrite Hl. split; reflexivity.
Qed.

Lemma call_obs_turn fuel s op s1 : turn_from (set_reads 0 s) op s1 ->
  call_obs fuel s op = pack (postprocess (run_next_statement fuel s1)).
Proof.
  intros H. unfold call_obs, legal.
  inversion H as [Hst | l Hi Hc | l p Hi Hc Hb | l ts Hi Hc Hp Ht]; subst;
    change (state (set_reads 0 s)) with (state s) in *.
  - rewrite Hst. cbn [negb]. unfold continue_evaluating. change (state (set_reads 0 s)) with (state s).
    rewrite Hst. reflexivity.
  - rewrite Hi. cbn [negb]. rewrite (start_turn fuel _ _ _ H). reflexivity.
  - rewrite Hi. cbn [negb]. rewrite (start_turn fuel _ _ _ H). reflexivity.
  - rewrite Hi. cbn [negb]. rewrite (start_turn fuel _ _ _ H). reflexivity.
Qed.

Lemma call_obs_break fuel s n :
  state s = Running \/ state s = AwaitingInput -> loc_line (loc s) = Some n ->
  call_obs fuel s HBreak = Some (Ok tt, outputs s ++ [OBreak (Some n)], broken n (loc_idx (loc s)) s).
Proof.
  intros Hst Hl. unfold call_obs.
  assert (Hleg : legal s HBreak = true) by (unfold legal; destruct Hst as [-> | ->]; reflexivity).
  rewrite Hleg. cbn [negb]. rewrite host_break_eq. unfold pack.
  destruct (interrupted_broken s n Hl) as [-> ->]. reflexivity.
Qed.

Lemma step_break fuel s n :
  state s = Running \/ state s = AwaitingInput -> loc_line (loc s) = Some n ->
  step fuel s HBreak =
  (Some (render_row (Ok tt) None (outputs s ++ [OBreak (Some n)]) (broken n (loc_idx (loc s)) s)),
   broken n (loc_idx (loc s)) s).
Proof. intros Hst Hl. rewrite step_is_call_obs, (call_obs_break fuel s n Hst Hl). reflexivity. Qed.

(* [run_next_statement] overwrites the host-visible state first *)
Lemma rns_state fuel s1 s2 :
  set_state Running s1 = set_state Running s2 -> run_next_statement fuel s1 = run_next_statement fuel s2.
Proof. intros H. unfold run_next_statement. rewrite !bind_modify, H. reflexivity. Qed.

(* the source text of the call only matters for tokenizer errors *)
Lemma render_caret_none e l line s :
  ok_res (Err e l : res unit) -> render_caret e l line s = render_caret e l None s.
Proof. intros H. destruct line as [text|]; [|reflexivity]. destruct e; try reflexivity. contradiction. Qed.

Lemma caret_text_line (r : res unit) line1 line2 s :
  ok_res r -> caret_text r line1 s = caret_text r line2 s.
Proof.
  intros H. destruct r as [u|e l|p| |]; try reflexivity. unfold caret_text.
  rewrite (render_caret_none e l line1 s H), (render_caret_none e l line2 s H). reflexivity.
Qed.

Lemma ok_res_postprocess {A} (x : res A * interp) : ok_res (fst x) -> ok_res (fst (postprocess x)).
Proof. destruct x as [[a|e l|p| |] s]; cbn; auto. Qed.

Lemma render_row_line r line1 line2 outs s :
  ok_res r -> render_row r line1 outs s = render_row r line2 outs s.
Proof. intros H. unfold render_row. rewrite (caret_text_line r line1 line2 s H). reflexivity. Qed.

(* the state from which break-then-CONT resumes is the interrupted state *)
Lemma resume_state s n :
  loc_line (loc s) = Some n -> breakpoint s = None -> immediate s = [] -> outputs s = [] ->
  set_state Running (resumed (n, loc_idx (loc s)) (set_reads 0 (broken n (loc_idx (loc s)) s)))
  = set_state Running (set_reads 0 s).
Proof.
  intros Hl Hbp Himm Hout. unfold broken, resumed, loc_of_numbered.
  destruct s as [tk ks im [ln li] bp st lp di fs inp outs stt rg vs ars w tr orc rd].
  cbn in *. subst. reflexivity.
Qed.

(* CONT at the breakpoint a break has just left: the turn of the interrupted state *)
Lemma call_obs_cont_broken fuel s n :
  loc_line (loc s) = Some n -> breakpoint s = None -> immediate s = [] -> outputs s = [] ->
  call_obs fuel (broken n (loc_idx (loc s)) s) (HLine CONT)
  = pack (postprocess (run_next_statement fuel (set_reads 0 s))).
Proof.
  intros Hl Hbp Himm Hout.
  rewrite (call_obs_turn fuel _ _ _ (tf_cont (set_reads 0 (broken n (loc_idx (loc s)) s)) CONT (n, loc_idx (loc s)) eq_refl command_of_CONT eq_refl)).
  rewrite (rns_state fuel _ (set_reads 0 s)) by (apply resume_state; assumption). reflexivity.
Qed.

Theorem break_cont_obs fuel s n :
  state s = Running -> loc_line (loc s) = Some n ->
  breakpoint s = None -> immediate s = [] -> outputs s = [] ->
  call_obs fuel (broken n (loc_idx (loc s)) s) (HLine CONT) = call_obs fuel s HCont.
Proof.
  intros Hst Hl Hbp Himm Hout.
  rewrite (call_obs_cont_broken fuel s n Hl Hbp Himm Hout), (call_obs_turn fuel s HCont _ (tf_continue (set_reads 0 s) Hst)).
  reflexivity.
Qed.

(* The complete states after break+CONT and after a plain
   continue are equal, the two rows are equal in every field, and the break
   call itself shows exactly the BREAK notice and an idle interpreter. *)
Theorem break_cont_running fuel s n :
  state s = Running -> loc_line (loc s) = Some n ->
  breakpoint s = None -> immediate s = [] -> outputs s = [] ->
  let '(rb, s1) := step fuel s HBreak in
  let '(rc, s2) := step fuel s1 (HLine CONT) in
  let '(r, s') := step fuel s HCont in
  s2 = s' /\ rc = r
  /\ exists row, rb = Some row
       /\ r_outputs row = outputs_text [OBreak (Some n)]
       /\ r_state row = show_state Idle
       /\ r_outcome row = bs "ok".
Proof.
  intros Hst Hl Hbp Himm Hout.
  rewrite (step_break fuel s n (or_introl Hst) Hl), !step_is_call_obs, (break_cont_obs fuel s n Hst Hl Hbp Himm Hout),
    (call_obs_turn fuel s HCont _ (tf_continue (set_reads 0 s) Hst)).
  pose proof (ok_res_postprocess _ (nosyn_run_next_statement fuel (set_reads 0 s))) as Hok.
  destruct (postprocess (run_next_statement fuel (set_reads 0 s))) as [r s1]. cbn [fst pack line_of] in *.
  split; [reflexivity|]. split; [f_equal; apply render_row_line; exact Hok|].
  eexists. split; [reflexivity|]. rewrite Hout. repeat split.
Qed.

(* the same as one equation between host calls *)
Corollary break_cont_is_continue fuel s n :
  state s = Running -> loc_line (loc s) = Some n ->
  breakpoint s = None -> immediate s = [] -> outputs s = [] ->
  step fuel (snd (step fuel s HBreak)) (HLine CONT) = step fuel s HCont.
Proof.
  intros Hst Hl Hbp Himm Hout.
  pose proof (break_cont_running fuel s n Hst Hl Hbp Himm Hout) as H.
  destruct (step fuel s HBreak) as [rb s1]. cbn [snd].
  destruct (step fuel s1 (HLine CONT)) as [rc s2].
  destruct (step fuel s HCont) as [r s'].
  destruct H as (-> & -> & _). reflexivity.
Qed.

Lemma step_snd_call_obs fuel s op :
  snd (step fuel s op) = match call_obs fuel s op with Some (_, _, s') => s' | None => silent_step s op end.
Proof. rewrite step_is_call_obs. destruct (call_obs fuel s op) as [[[r o] s']|]; reflexivity. Qed.

(* Break, then CONT, while the program is awaiting input.

   [awaiting_ok s]: the state every INPUT suspension produces ([input_awaits]): the
   cursor is ON the INPUT token and no reply is pending. *)

Definition awaiting_ok (s : interp) : Prop :=
  state s = AwaitingInput /\ line_exists s (loc s)
  /\ nth_error (cur_toks s) (loc_idx (loc s)) = Some TInput /\ input s = None.

Lemma max_nesting_pos : 0 < max_nesting.
Proof. vm_compute. repeat constructor. Qed.

(* re-executing the suspended INPUT: the same request again; 4 reads = the 2
   of [input_awaits] and the turn's two [has_next_token] *)
Lemma rns_awaiting fuel s :
  line_exists s (loc s) -> nth_error (cur_toks s) (loc_idx (loc s)) = Some TInput -> input s = None ->
  1 <= fuel ->
  run_next_statement fuel s
  = (Ok tt, set_reads (4 + reads s) (set_state AwaitingInput (set_outputs (outputs s ++ trace_of s) s))).
Proof.
  intros Hl Hi Hin Hf. rewrite (rns_eq fuel s Hl). unfold turn_statement. rewrite Hi.
  set (s1 := bump (set_state Running s)).
  assert (Hct : fst (cur_tokens s1) = Ok (cur_toks s)) by (rewrite (cur_tokens_eq s1 Hl); reflexivity).
  rewrite bind_run, (input_awaits fuel 0 s1 (cur_toks s) Hct Hi Hin Hf max_nesting_pos).
  set (s2 := set_reads _ _). rewrite (after_statement_eq s2 Hl). unfold turn_end.
  change (nth_error (cur_toks s2) (loc_idx (loc s2))) with (nth_error (cur_toks s) (loc_idx (loc s))). rewrite Hi.
  reflexivity.
Qed.

Theorem break_cont_awaiting fuel s n :
  awaiting_ok s -> loc_line (loc s) = Some n ->
  breakpoint s = None -> immediate s = [] -> outputs s = [] -> 1 <= fuel ->
  call_obs fuel (broken n (loc_idx (loc s)) s) (HLine CONT)
  = Some (Ok tt, trace_of s, set_reads 4 s).
Proof.
  intros (Hst & Hle & Hi & Hin) Hl Hbp Himm Hout Hf.
  rewrite (call_obs_cont_broken fuel s n Hl Hbp Himm Hout), (rns_awaiting fuel (set_reads 0 s)) by assumption.
  cbn [postprocess pack]. change (outputs (set_reads 0 s)) with (outputs s). rewrite Hout.
  change (trace_of (set_reads 0 s)) with (trace_of s). cbn [app outputs set_reads set_state set_outputs].
  f_equal. f_equal.
  destruct s as [? ? ? [? ?] ? ? ? ? ? ? ? ? ? ? ? ? ? ? ?]; cbn in *; subst; reflexivity.
Qed.

(* Schedules: any choice of turn boundaries at which the host breaks in and
      then issues CONT.

   The program is driven by [HCont] / [HReply] calls ("the plain run").  A
   schedule replaces some [HCont] by [HBreak; CONT] (a break while Running:
   CONT executes the statement the replaced call would have executed) and
   inserts [HBreak; CONT] at some boundaries where the program awaits input
   (CONT re-issues the request).  What the program shows — its Print / Reenter
   / ExtraIgnored / Warning records and its errors, i.e. everything but BREAK
   notices and trace records — and its final state are those of the plain run. *)

(* what the program itself puts out: everything but the host's BREAK notice and the trace
   records (not TurnProofs' [shows], the records that show a statement was executed: that one
   counts BREAK and leaves warnings out) *)
Definition prog_out (o : output) : bool :=
  match o with OBreak _ | OTrace _ => false | _ => true end.

Definition shown (x : option (res unit * list output * interp))
  : list output * list (ierror * option location) :=
  match x with
  | Some (r, outs, _) => (filter prog_out outs, match r with Err e l => [(e, l)] | _ => [] end)
  | None => ([], [])
  end.

Definition cat2 {A B} (x y : list A * list B) : list A * list B := (fst x ++ fst y, snd x ++ snd y).

Fixpoint transcript (fuel : nat) (s : interp) (ops : list hostop)
  : list output * list (ierror * option location) :=
  match ops with
  | [] => ([], [])
  | op :: r => cat2 (shown (call_obs fuel s op)) (transcript fuel (snd (step fuel s op)) r)
  end.

Definition drive (op : hostop) : Prop := op = HCont \/ exists t, op = HReply t.

Inductive sched (fuel : nat) : interp -> list hostop -> list hostop -> Prop :=
| sched_nil s : sched fuel s [] []
| sched_op s op ops ops' :
    drive op -> sched fuel (snd (step fuel s op)) ops ops' -> sched fuel s (op :: ops) (op :: ops')
| sched_break_running s ops ops' :
    state s = Running -> sched fuel (snd (step fuel s HCont)) ops ops' ->
    sched fuel s (HCont :: ops) (HBreak :: HLine CONT :: ops')
| sched_break_awaiting s ops ops' :
    awaiting_ok s -> sched fuel s ops ops' ->
    sched fuel s ops (HBreak :: HLine CONT :: ops').

(* every call of the plain run returns a value or an error (no Panic — see
   C01 — and none of the model's own OutOfFuel / OracleMiss) *)
Fixpoint values (fuel : nat) (s : interp) (ops : list hostop) : Prop :=
  match ops with
  | [] => True
  | op :: r => match call_obs fuel s op with Some (x, _, _) => is_val x | None => True end
               /\ values fuel (snd (step fuel s op)) r
  end.

(* [transcript] makes every call twice, as [call_obs] and as [step], and a statement that mentions the
   transcript and the final state of one history runs it three times.  [calls] runs it once; the examples
   of Properties/C07.v are evaluated through it. *)
Fixpoint calls (fuel : nat) (s : interp) (ops : list hostop)
  : list output * list (ierror * option location) * interp :=
  match ops with
  | [] => ([], [], s)
  | op :: r =>
      let x := call_obs fuel s op in
      let (tr, t) := calls fuel (match x with Some (_, _, s') => s' | None => silent_step s op end) r in
      (cat2 (shown x) tr, t)
  end.

Lemma calls_eq fuel : forall ops s, calls fuel s ops = (transcript fuel s ops, run_state fuel s ops).
Proof.
  induction ops as [|op ops IH]; intros s; cbn [transcript run_state calls]; [reflexivity|].
  rewrite step_snd_call_obs, IH. reflexivity.
Qed.

(* as a goal takes it: [pattern] the two terms, then [apply]; under the [let] the one run is shared whichever
   way the goal is then reduced *)
Lemma calls_run fuel ops s (P : list output * list (ierror * option location) -> interp -> Prop) :
  (let c := calls fuel s ops in P (fst c) (snd c)) -> P (transcript fuel s ops) (run_state fuel s ops).
Proof. rewrite calls_eq. exact (fun H => H). Qed.

(* States up to what a later call cannot see, from fine to coarse: [eqr] forgets the hook counter
   (every call resets it: [call_obs_eqr]); [norm] below also the cursor and the immediate line (all
   that CONT reads at a breakpoint); Inspect's [core] also the output queue and the state flag
   ([Inspect.norm_of_core]).  None of them is [imm_reset [] s], which also empties the stack when
   no breakpoint is pending. *)
Definition eqr (s t : interp) : Prop := set_reads 0 s = set_reads 0 t.

Lemma eqr_refl s : eqr s s. Proof. reflexivity. Qed.

Lemma eqr_state s t : eqr s t -> state s = state t.
Proof. intros H. exact (f_equal state H). Qed.

Lemma call_obs_eqr fuel s t op : eqr s t -> call_obs fuel s op = call_obs fuel t op.
Proof.
  intros H. unfold call_obs, legal. rewrite (eqr_state _ _ H).
  assert (Ho : pow_oracle s = pow_oracle t) by exact (f_equal pow_oracle H).
  unfold eqr in H. rewrite H, Ho. reflexivity.
Qed.

Lemma step_eqr fuel s t op : eqr s t -> eqr (snd (step fuel s op)) (snd (step fuel t op)).
Proof. intros H. exact (proj2 (step_reads fuel s t op H)). Qed.

Lemma transcript_eqr fuel ops : forall s t, eqr s t -> transcript fuel s ops = transcript fuel t ops.
Proof.
  induction ops as [|op ops IH]; intros s t H; cbn [transcript]; [reflexivity|].
  rewrite (call_obs_eqr fuel s t op H), (IH _ _ (step_eqr fuel s t op H)). reflexivity.
Qed.

Lemma run_state_eqr fuel ops : forall s t, eqr s t -> eqr (run_state fuel s ops) (run_state fuel t ops).
Proof.
  induction ops as [|op ops IH]; intros s t H; cbn [run_state]; [exact H|].
  apply IH, step_eqr, H.
Qed.

(* what holds between the calls of a program started by RUN: the host has taken the output, and
   while the program is going RunInv's J holds *)
Definition Inv (s : interp) : Prop :=
  outputs s = [] /\ (state s = Running \/ state s = AwaitingInput -> J s).

(* a call that runs a turn from a J state, or from the empty immediate line *)
Lemma Inv_turn fuel s op s1 :
  turn_from (set_reads 0 s) op s1 -> J s1 \/ E s1 ->
  match call_obs fuel s op with Some (x, _, s') => is_val x -> Inv s' | None => True end.
Proof.
  intros Ht H. rewrite (call_obs_turn fuel s op s1 Ht). pose proof (turn_keeps_J fuel s1 H) as K.
  destruct (run_next_statement fuel s1) as [[u|e l|p| |] s2]; cbn [postprocess pack is_val]; try contradiction;
    intros _; (split; [reflexivity|]); cbn [state set_outputs set_state]; intros Hs.
  - apply J_set_outputs. destruct K as [K|K]; [exact K|]. rewrite K in Hs. destruct Hs; discriminate.
  - destruct Hs; discriminate.
Qed.

Lemma Inv_step fuel s op :
  Inv s -> drive op ->
  match call_obs fuel s op with Some (x, _, _) => is_val x | None => True end ->
  Inv (snd (step fuel s op)).
Proof.
  intros [Hout HJ] Hd Hv. rewrite step_snd_call_obs.
  destruct (legal s op) eqn:Hleg.
  2:{ unfold call_obs, silent_step. rewrite Hleg. split; assumption. }
  unfold legal in Hleg. destruct Hd as [->|[text ->]]; destruct (state s) eqn:Hst; try discriminate.
  - pose proof (Inv_turn fuel s HCont _ (tf_continue (set_reads 0 s) Hst)
                  (or_introl (J_set_reads 0 s (HJ (or_introl eq_refl))))) as H.
    destruct (call_obs fuel s HCont) as [[[r o] s']|]; [exact (H Hv) | unfold silent_step; destruct (legal s HCont); (split; [exact Hout | intros _; apply HJ; left; reflexivity])].
  - unfold call_obs, legal, provide_input. change (state (set_reads 0 s)) with (state s). rewrite Hst. cbn [negb pack].
    split; [reflexivity|]. intros _. apply J_set_outputs. generalize (HJ (or_intror eq_refl)). apply J_ext; reflexivity.
Qed.

Lemma filter_break n : filter prog_out [OBreak n] = [].
Proof. reflexivity. Qed.

Lemma filter_trace s : filter prog_out (trace_of s) = [].
Proof. unfold trace_of. destruct (enable_tracing s); [destruct (loc_line (loc s))|]; reflexivity. Qed.

Lemma call_obs_eqr_some fuel s t op x : eqr t s -> call_obs fuel s op = Some x ->
  call_obs fuel t op = Some x /\ eqr (snd (step fuel t op)) (snd x).
Proof.
  intros Ht Hc. rewrite step_snd_call_obs, (call_obs_eqr fuel t s op Ht), Hc.
  destruct x as [[r o] s']. split; [reflexivity|apply eqr_refl].
Qed.

Lemma call_obs_cont_some fuel s : state s = Running ->
  exists x, call_obs fuel s HCont = Some x /\ snd (step fuel s HCont) = snd x.
Proof.
  intros Hst. rewrite step_snd_call_obs. unfold call_obs, legal. rewrite Hst. cbn [negb].
  destruct (continue_evaluating fuel (set_reads 0 s)) as [r s1]. eexists; split; reflexivity.
Qed.

Theorem break_schedule fuel : forall s ops ops',
  sched fuel s ops ops' -> 1 <= fuel ->
  forall t, eqr t s -> Inv s -> values fuel s ops ->
  transcript fuel t ops' = transcript fuel s ops
  /\ eqr (run_state fuel t ops') (run_state fuel s ops).
Proof.
  intros s ops ops' Hs Hf. induction Hs as [s|s op ops ops' Hd Hs IH|s ops ops' Hst Hs IH|s ops ops' Haw Hs IH];
    intros t Ht Hinv Hval.
  - split; [reflexivity|exact Ht].
  - destruct Hval as [Hv Hval]. cbn [transcript run_state].
    rewrite (call_obs_eqr fuel t s op Ht).
    destruct (IH (snd (step fuel t op)) (step_eqr fuel t s op Ht) (Inv_step fuel s op Hinv Hd Hv) Hval) as [I1 I2].
    rewrite I1. split; [reflexivity|exact I2].
  - (* the break call, then CONT, which is the replaced HCont call *)
    destruct Hval as [Hv Hval]. destruct Hinv as [Hout HJ].
    pose proof (HJ (or_introl Hst)) as HJs. destruct (J_numbered s HJs) as [n Hl].
    destruct (call_obs_eqr_some fuel s t HBreak _ Ht (call_obs_break fuel s n (or_introl Hst) Hl)) as [Eb1 Eb].
    destruct (call_obs_cont_some fuel s Hst) as (x & Hx & Es).
    pose proof (break_cont_obs fuel s n Hst Hl (j_bp _ HJs) (j_imm _ HJs) Hout) as Hc. rewrite Hx in Hc.
    destruct (call_obs_eqr_some fuel _ _ (HLine CONT) x Eb Hc) as [Ec1 Ec]. rewrite <- Es in Ec.
    destruct (IH _ Ec (Inv_step fuel s HCont (conj Hout HJ) (or_introl eq_refl) Hv) Hval) as [I1 I2].
    cbn [transcript run_state]. rewrite Eb1, Ec1, I1, Hx, Hout. split; [reflexivity|exact I2].
  - (* the break call, then CONT, which re-issues the request *)
    destruct Hinv as [Hout HJ]. pose proof Haw as (Hst & _).
    pose proof (HJ (or_intror Hst)) as HJs. destruct (J_numbered s HJs) as [n Hl].
    destruct (call_obs_eqr_some fuel s t HBreak _ Ht (call_obs_break fuel s n (or_intror Hst) Hl)) as [Eb1 Eb].
    destruct (call_obs_eqr_some fuel _ _ (HLine CONT) _ Eb
                (break_cont_awaiting fuel s n Haw Hl (j_bp _ HJs) (j_imm _ HJs) Hout Hf)) as [Ec1 Ec].
    destruct (IH _ Ec (conj Hout HJ) Hval) as [I1 I2].
    cbn [transcript run_state]. rewrite Eb1, Ec1, I1, Hout. cbn [app shown]. rewrite filter_break, filter_trace.
    split; [|exact I2]. destruct (transcript fuel s ops); reflexivity.
Qed.

(* from RUN: the state after a RUN line that left the program going satisfies
   the invariant, so the theorem applies to every program started by RUN *)
Theorem Inv_after_run fuel s :
  state s = Idle ->
  match call_obs fuel s (HLine (bs "RUN")) with
  | Some (Ok _, _, s') => Inv s'
  | _ => True
  end.
Proof.
  intros Hidle.
  pose proof (Inv_turn fuel s _ _ (tf_run (set_reads 0 s) _ Hidle command_of_RUN) (clean_J_or_E _)) as H.
  destruct (call_obs fuel s (HLine (bs "RUN"))) as [[[[u|e l|p| |] o] s']|]; try exact I. exact (H I).
Qed.

(* Inspection at a breakpoint.

   CONT reads the breakpoint and the runtime part of the state only: not the
   immediate line, not the cursor, not the hook counter.  So whatever was
   typed at the breakpoint — succeeding or failing — cannot change the
   continuation unless it changed the runtime part itself. *)

Definition norm (s : interp) : interp := set_reads 0 (set_loc imm0 (set_immediate [] s)).

Lemma resumed_norm p s : resumed p (set_reads 0 s) = resumed p (norm s).
Proof. destruct s; reflexivity. Qed.

Theorem cont_reads_runtime_only fuel s1 s2 :
  state s1 = Idle -> breakpoint s1 <> None -> norm s1 = norm s2 ->
  call_obs fuel s1 (HLine CONT) = call_obs fuel s2 (HLine CONT).
Proof.
  intros Hidle Hbp Hn.
  assert (Hidle2 : state s2 = Idle) by (rewrite <- Hidle; symmetry; exact (f_equal state Hn)).
  assert (Hbp2 : breakpoint s2 = breakpoint s1) by (symmetry; exact (f_equal breakpoint Hn)).
  destruct (breakpoint s1) as [p|] eqn:Ebp; [|congruence].
  rewrite (call_obs_turn fuel s1 _ _ (tf_cont (set_reads 0 s1) CONT p Hidle command_of_CONT Ebp)),
    (call_obs_turn fuel s2 _ _ (tf_cont (set_reads 0 s2) CONT p Hidle2 command_of_CONT Hbp2)), !resumed_norm, Hn.
  reflexivity.
Qed.

(* ... and the whole continuation after it *)
Corollary continuation_reads_runtime_only fuel s1 s2 ops :
  state s1 = Idle -> breakpoint s1 <> None -> norm s1 = norm s2 ->
  transcript fuel s1 (HLine CONT :: ops) = transcript fuel s2 (HLine CONT :: ops)
  /\ run_state fuel s1 (HLine CONT :: ops) = run_state fuel s2 (HLine CONT :: ops).
Proof.
  intros Hidle Hbp Hn. cbn [transcript run_state].
  pose proof (cont_reads_runtime_only fuel s1 s2 Hidle Hbp Hn) as H.
  rewrite !step_snd_call_obs, H.
  destruct (call_obs fuel s2 (HLine CONT)) as [[[r o] s']|] eqn:E; [split; reflexivity|].
  exfalso. assert (Hidle2 : state s2 = Idle) by (rewrite <- Hidle; symmetry; exact (f_equal state Hn)).
  unfold call_obs, legal in E. rewrite Hidle2 in E. cbn [negb] in E. cbv iota in E.
  destruct (start_evaluating fuel CONT (set_reads 0 s2)); discriminate.
Qed.
