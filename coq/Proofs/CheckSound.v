(* Proofs/CheckSound.v — C06: what the static checker accepts the interpreter does not reject.

   The expression analyzer (monad MA, result a type) and the expression evaluator (monad M, result a
   value) walk the same tokens in lock step, over ANY token stream and cursor position.  If the analyzer succeeds with type t, the evaluator, from any state with the
   name-suffix typing invariant of C16 and no user-defined functions, returns a value of type t with
   the cursor where the analyzer left it, or fails with an error that is neither a syntax error nor a
   type mismatch.  The same for the statements that neither branch nor jump, over the two dispatchers
   ([lock_straight_statement]).  The walk is made once, for [lock strict F]: [lock false] gives [sound],
   [lock true] gives [agree] of Proofs/CheckAgree.v, and the frame [F] says what the run leaves of the GOSUB
   stack and the FOR stack, which is what whole-program soundness (Proofs/ProgSoundElse.v) takes from it. *)
From Coq Require Import List ZArith Bool.
From Abasic Require Import Model.Bytes Model.Num Model.Token Model.State Model.Eval Model.Analyzer Proofs.Monad
     Proofs.Caps.
Import ListNotations.
Local Open Scope nat_scope.

Definition kind (v : value) : vtype := match v with VStr _ => TyString | VNum _ => TyNumber end.

(* The errors the lock step lets an accepted program fail with: all but type mismatches and syntax errors
   (division by zero, bad subscript, overflow, out of data ...).  EUndefinedStatement is among them although
   the checker does answer for jump targets ([an_goto_or_gosub]): no expression or straight statement raises
   it, and the program-level theorems, which show that a checked jump succeeds, conclude with [benign] all
   the same. *)
Definition benign (e : ierror) : Prop :=
  match e with
  | ETypeMismatch | EUnexpectedToken | EExpectedToken _ | EUnexpectedEnd | ESyntaxTok _ => False
  | _ => True
  end.

Lemma vtype_eqb_eq t u : vtype_eqb t u = true <-> t = u.
Proof. destruct t, u; split; intros H; try reflexivity; discriminate H. Qed.

Lemma kind_type_matches name v : type_matches name v = true -> kind v = type_of_name name.
Proof. unfold type_matches, type_of_name. destruct v, (ends_with_dollar name); cbn; congruence. Qed.

Lemma type_matches_kind name v : kind v = type_of_name name -> type_matches name v = true.
Proof. unfold type_matches, type_of_name. destruct v, (ends_with_dollar name); cbn; congruence. Qed.

Lemma default_kind name : kind (default_value name) = type_of_name name.
Proof. unfold default_value, type_of_name. destruct (ends_with_dollar name); reflexivity. Qed.

(* the interpreter's state and the checker's copy hold the same program and stand at the same token *)
Definition C (s sa : interp) : Prop :=
  st_toks s = st_toks sa /\ st_keys s = st_keys sa /\ immediate s = immediate sa /\ loc s = loc sa.

(* ... the interpreter's is typed (C16), and no function is defined: a call evaluates a body that the
   checker has only seen at its DEF, which is outside this lock step *)
Definition R (s sa : interp) : Prop :=
  C s sa /\ caps_inv s /\ functions s = [] /\ functions sa = [].

Definition sound {A B} (P : A -> B -> Prop) (m : M A) (a : MA B) : Prop :=
  forall s sa acc, R s sa ->
    match a (sa, acc) with
    | (Ok y, (sa', acc')) =>
        match m s with
        | (Ok x, s') => P x y /\ R s' sa'
        | (Err e _, _) => benign e
        | _ => True
        end
    | _ => True
    end.

(* What a run leaves of the GOSUB stack and the FOR stack: both as they were ([SL]); or, after FOR, the GOSUB stack as it
   was and every loop an old one or one that starts where the run ends ([SLF]).  The frame is a predicate of the end
   state indexed by the two stacks the run STARTED with, not a relation between states: after a head that keeps them
   ([SL]) the tail's frame reads the same, so [lock_bind] needs no side condition. *)
Definition SL (st : list frame) (lp : list loop_info) (s' : interp) : Prop := stack s' = st /\ loops s' = lp.
Definition SLF (st : list frame) (lp : list loop_info) (s' : interp) : Prop :=
  stack s' = st /\ forall l, In l (loops s') -> In l lp \/ lp_loc l = loc s'.

Lemma SL_SLF st lp s' : SL st lp s' -> SLF st lp s'.
Proof. intros [<- <-]. split; [reflexivity | intros l H; left; exact H]. Qed.

(* [sound] with the frame [F]; with [strict] also the converse: the interpreter does not succeed where the checker
   reports an error.  [strict] is [false] for soundness (where the checker fails, nothing is asked: it may reject what
   runs, e.g. at a different nesting depth) and [true] for [CheckAgree.agree].  Where the interpreter's answer is
   Panic, OutOfFuel or OracleMiss - the model's own answers - or both fail, nothing is asked either: the clause is
   about the two tools agreeing on what is an error, not on which one. *)
Definition lock (strict : bool) (F : list frame -> list loop_info -> interp -> Prop) {A B} (P : A -> B -> Prop)
    (m : M A) (a : MA B) : Prop :=
  forall s sa acc, R s sa ->
    match m s, a (sa, acc) with
    | (Ok x, s'), (Ok y, (sa', _)) => P x y /\ R s' sa' /\ F (stack s) (loops s) s'
    | (Ok _, _), (Err _ _, _) => if strict then False else True
    | (Err e _, _), (Ok _, _) => benign e
    | _, _ => True
    end.

(* [lock] read from a run of the checker that succeeded *)
Lemma lock_run {b F A B} (P : A -> B -> Prop) m a s sa acc y sa' acc' :
  lock b F P m a -> R s sa -> a (sa, acc) = (Ok y, (sa', acc')) ->
  match m s with
  | (Ok x, s') => P x y /\ R s' sa' /\ F (stack s) (loops s) s'
  | (Err e _, _) => benign e
  | _ => True
  end.
Proof.
  intros H HR Ea. specialize (H s sa acc HR). rewrite Ea in H.
  destruct (m s) as [[x|e l|pp| |] s1]; try exact I; exact H.
Qed.

Lemma lock_sound {b F A B} (P : A -> B -> Prop) m a : lock b F P m a -> sound P m a.
Proof.
  intros H s sa acc HR. destruct (a (sa, acc)) as [[y|? ?|?| |] [sa1 acc1]] eqn:Ea; try exact I.
  pose proof (lock_run P m a s sa acc y sa1 acc1 H HR Ea) as H1.
  destruct (m s) as [[x|e l|pp| |] s1]; try exact I; [|exact H1]. split; apply H1.
Qed.

Lemma sound_ext_l {A B} (P : A -> B -> Prop) (m m' : M A) a : (forall s, m s = m' s) -> sound P m' a -> sound P m a.
Proof. intros E H s sa acc HR. rewrite E. apply H. exact HR. Qed.

Definition fails {S A} (m : S -> res A * S) : Prop := forall s, match m s with (Ok _, _) => False | _ => True end.

Lemma fails_fail {A} e : fails (@fail A e).
Proof. intros s. exact I. Qed.
Lemma fails_afail {B} e : fails (@afail B e).
Proof. intros x. exact I. Qed.
Lemma fails_bind {A B} (m : M A) (f : A -> M B) : fails m -> fails (bind m f).
Proof. intros H s. specialize (H s). unfold bind. destruct (m s) as [[x|e l|pp| |] s1]; try exact I. contradiction. Qed.
Lemma fails_bind_r {A B} (m : M A) (f : A -> M B) : (forall x, fails (f x)) -> fails (bind m f).
Proof. intros H s. unfold bind. destruct (m s) as [[x|e l|pp| |] s1]; try exact I. apply H. Qed.
Lemma fails_abind {A B} (a : MA A) (g : A -> MA B) : fails a -> fails (abind a g).
Proof. intros H x. specialize (H x). unfold abind. destruct (a x) as [[y|e l|pp| |] s1]; try exact I. contradiction. Qed.
Lemma fails_abind_r {A B} (a : MA A) (g : A -> MA B) : (forall y, fails (g y)) -> fails (abind a g).
Proof. intros H x. unfold abind. destruct (a x) as [[y|e l|pp| |] s1]; try exact I. apply H. Qed.

Lemma fails_check t e : vtype_eqb t e = false -> fails (check t e).
Proof. intros H x. unfold check. rewrite H. exact I. Qed.

Section Rules.
  Context {b : bool} {F : list frame -> list loop_info -> interp -> Prop}.

  Lemma lock_bind {A B A' B'} (P : A -> A' -> Prop) (Q : B -> B' -> Prop) (m : M A) (a : MA A') f g :
    lock b SL P m a -> (forall x y, P x y -> lock b F Q (f x) (g y)) -> lock b F Q (bind m f) (abind a g).
  Proof.
    intros H1 H2 s sa acc HR. specialize (H1 s sa acc HR). unfold abind, bind.
    destruct (m s) as [[x|e l|pp| |] s1], (a (sa, acc)) as [[y|e' l'|pp'| |] [sa1 acc1]]; try exact I.
    - destruct H1 as (HP & HR1 & <- & <-). apply (H2 x y HP s1 sa1 acc1 HR1).
    - destruct (f x s1) as [[z|? ?|?| |] ?]; try exact I. exact H1.
    - destruct (f x s1) as [[z|? ?|?| |] ?]; exact I.
    - destruct (f x s1) as [[z|? ?|?| |] ?]; exact I.
    - destruct (f x s1) as [[z|? ?|?| |] ?]; exact I.
    - destruct (g y (sa1, acc1)) as [[z|? ?|?| |] [? ?]]; try exact I. exact H1.
  Qed.

  Lemma lock_ret {A B} (P : A -> B -> Prop) x y : P x y -> lock b SL P (ret x) (aret y).
  Proof. intros H s sa acc HR. split; [exact H | split; [exact HR | split; reflexivity]]. Qed.

  Lemma lock_weaken {A B} (F' : list frame -> list loop_info -> interp -> Prop) (P Q : A -> B -> Prop) m a :
    (forall st lp s', F' st lp s' -> F st lp s') -> (forall x y, P x y -> Q x y) -> lock b F' P m a -> lock b F Q m a.
  Proof.
    intros HF HPQ H s sa acc HR. specialize (H s sa acc HR).
    destruct (m s) as [[x|e l|pp| |] s1], (a (sa, acc)) as [[y|e' l'|pp'| |] [sa1 acc1]]; try exact H.
    destruct H as (HP & HR1 & HF1). split; [apply HPQ; exact HP | split; [exact HR1 | apply HF; exact HF1]].
  Qed.

  (* Both fail.  Where only the checker is known to, the interpreter may do anything unless [strict]. *)
  Lemma lock_fails {A B} (P : A -> B -> Prop) m a : (b = true -> fails m) -> fails a -> lock b F P m a.
  Proof.
    intros Hm Ha s sa acc HR. specialize (Ha (sa, acc)).
    destruct (a (sa, acc)) as [[y|e' l'|pp'| |] [sa1 acc1]]; try contradiction;
      destruct (m s) as [[x|e l|pp| |] s1] eqn:Em; try exact I.
    destruct b; [|exact I]. specialize (Hm eq_refl s). rewrite Em in Hm. exact Hm.
  Qed.

  Lemma lock_ff {A B} (P : A -> B -> Prop) m a : fails m -> fails a -> lock b F P m a.
  Proof. intros Hm. apply lock_fails. intros _. exact Hm. Qed.

  Lemma lock_fail_afail {A B} (P : A -> B -> Prop) e e' : lock b F P (fail e) (afail e').
  Proof. apply lock_ff; [apply fails_fail | apply fails_afail]. Qed.

  Lemma lock_fail_benign {A B} (P : A -> B -> Prop) e (a : MA B) : benign e -> lock b F P (@fail A e) a.
  Proof. intros He s sa acc HR. cbn. destruct (a (sa, acc)) as [[y|? ?|?| |] [? ?]]; try exact I. exact He. Qed.
End Rules.

(* [cursor_prim p]: [p] only reads the program and moves the cursor: same answer on both sides, the
   runtime state ([same_rt]) untouched.  The analyzer runs these very functions, lifted. *)
Definition same_rt (s s' : interp) : Prop :=
  stack s' = stack s /\ loops s' = loops s /\ variables s' = variables s /\ arrays s' = arrays s
  /\ functions s' = functions s.

Definition cursor_prim {A} (p : M A) : Prop :=
  forall s sa, C s sa ->
    fst (p s) = fst (p sa) /\ C (snd (p s)) (snd (p sa)) /\ same_rt s (snd (p s)) /\ same_rt sa (snd (p sa)).

Lemma same_rt_refl s : same_rt s s.
Proof. repeat split. Qed.

Lemma same_rt_trans a b c : same_rt a b -> same_rt b c -> same_rt a c.
Proof. unfold same_rt. intros (A1 & A2 & A3 & A4 & A5) (B1 & B2 & B3 & B4 & B5). repeat split; congruence. Qed.

Lemma cp_ret {A} (x : A) : cursor_prim (ret x).
Proof. intros s sa HC. cbn. split; [reflexivity|]. split; [exact HC|]. split; apply same_rt_refl. Qed.

Lemma cp_fail {A} e : cursor_prim (@fail A e).
Proof. intros s sa HC. cbn. split; [reflexivity|]. split; [exact HC|]. split; apply same_rt_refl. Qed.

Lemma cp_fail_at {A} e l : cursor_prim (@fail_at A e l).
Proof. intros s sa HC. cbn. split; [reflexivity|]. split; [exact HC|]. split; apply same_rt_refl. Qed.

Lemma cp_bind {A B} (m : M A) (f : A -> M B) : cursor_prim m -> (forall x, cursor_prim (f x)) -> cursor_prim (bind m f).
Proof.
  intros Hm Hf s sa HC. destruct (Hm s sa HC) as (E & HC1 & K1 & K2). unfold bind.
  destruct (m s) as [r1 s1], (m sa) as [r2 sa1]. cbn [fst snd] in *. subst r2.
  destruct r1 as [x|e l|pp| |]; try (split; [reflexivity|]; split; [exact HC1|]; split; assumption).
  destruct (Hf x s1 sa1 HC1) as (E' & HC2 & K3 & K4).
  split; [exact E'|]. split; [exact HC2|]. split; eapply same_rt_trans; eassumption.
Qed.

Lemma cp_get_loc : cursor_prim (get loc).
Proof.
  intros s sa (C1 & C2 & C3 & C4). cbn. split; [rewrite C4; reflexivity|]. split; [repeat split; assumption|].
  split; apply same_rt_refl.
Qed.

Lemma cp_bump : cursor_prim (modify (fun s => set_reads (S (reads s)) s)).
Proof.
  intros s sa (C1 & C2 & C3 & C4). cbn. split; [reflexivity|]. split; [repeat split; assumption|].
  split; repeat split.
Qed.

Lemma cp_advance : cursor_prim advance.
Proof.
  intros s sa (C1 & C2 & C3 & C4). unfold advance, modify. cbn. rewrite C4. split; [reflexivity|].
  split; [repeat split; assumption|]. split; repeat split.
Qed.

Lemma cp_reset_data : cursor_prim reset_data_cursor.
Proof.
  intros s sa (C1 & C2 & C3 & C4). cbn. split; [reflexivity|]. split; [repeat split; assumption|]. split; repeat split.
Qed.

Lemma cp_cur_tokens : cursor_prim cur_tokens.
Proof.
  intros s sa (C1 & C2 & C3 & C4). unfold cur_tokens, bind, get, tokens_for_line. cbn [fst snd].
  rewrite C4, C1, C3. destruct (loc_line (loc sa)) as [n|]; [destruct (toks_get n (st_toks sa))|];
    cbn [fst snd]; (split; [reflexivity|]; split; [repeat split; assumption|]; split; apply same_rt_refl).
Qed.

(* the one [modify] a cursor primitive unfolds to is the count of a read ([cp_bump]); [advance] is met folded *)
Ltac cp_step :=
  lazymatch goal with
  | |- cursor_prim (bind _ _) => apply cp_bind; [|intro]
  | |- cursor_prim (ret _) => apply cp_ret
  | |- cursor_prim (fail _) => apply cp_fail
  | |- cursor_prim (fail_at _ _) => apply cp_fail_at
  | |- cursor_prim (get loc) => apply cp_get_loc
  | |- cursor_prim advance => apply cp_advance
  | |- cursor_prim cur_tokens => apply cp_cur_tokens
  | |- cursor_prim (modify _) => apply cp_bump
  | |- cursor_prim (if ?b then _ else _) => destruct b
  | |- cursor_prim (match ?x with _ => _ end) => destruct x
  end.
Ltac cp_walk := repeat cp_step.

Lemma cp_peek : cursor_prim peek_next_token.
Proof. unfold peek_next_token. cp_walk. Qed.
Lemma cp_next_token : cursor_prim next_token.
Proof. unfold next_token. apply cp_bind; [apply cp_peek|intro]. cp_walk. Qed.
Lemma cp_next_unwrapped : cursor_prim next_unwrapped_token.
Proof. unfold next_unwrapped_token. apply cp_bind; [apply cp_next_token|intro]. cp_walk. Qed.
Lemma cp_expect t : cursor_prim (expect_next_token t).
Proof. unfold expect_next_token. apply cp_bind; [apply cp_next_unwrapped|intro]. cp_walk. Qed.
Lemma cp_accept t : cursor_prim (accept_next_token t).
Proof. unfold accept_next_token. apply cp_bind; [apply cp_peek|intro]. cp_walk. Qed.
Lemma cp_peek_is t : cursor_prim (peek_is t).
Proof. unfold peek_is. apply cp_bind; [apply cp_peek|intro]. cp_walk. Qed.
Lemma cp_try {A} (g : token -> option A) : cursor_prim (try_next_token g).
Proof. unfold try_next_token. apply cp_bind; [apply cp_peek|intro]. cp_walk. Qed.

Lemma R_same_rt s sa s' sa' : R s sa -> C s' sa' -> same_rt s s' -> same_rt sa sa' -> R s' sa'.
Proof.
  intros (HC & Hcaps & Hf1 & Hf2) HC' (K1 & K2 & K3 & K4 & K5) (_ & _ & _ & _ & K5').
  split; [exact HC'|]. split; [apply (caps_inv_ext s); assumption|]. split; congruence.
Qed.
Lemma cursor_R {A} (p : M A) s sa : cursor_prim p -> R s sa ->
  fst (p sa) = fst (p s) /\ R (snd (p s)) (snd (p sa)) /\ SL (stack s) (loops s) (snd (p s)).
Proof.
  intros Hp HR. destruct (Hp s sa (proj1 HR)) as (E & HC1 & K1 & K2).
  split; [symmetry; exact E|]. split; [eapply R_same_rt; eassumption | split; apply K1].
Qed.

(* an evaluator step the analyzer has no counterpart for *)
Definition equiet {A} (Q : A -> Prop) (e : M A) : Prop :=
  forall s sa, R s sa ->
    match e s with
    | (Ok x, s') => R s' sa /\ Q x
    | (Err er _, _) => benign er
    | _ => True
    end.

Definition aquiet {B} (Q : B -> Prop) (b : MA B) : Prop :=
  forall sa acc,
    match b (sa, acc) with
    | (Ok y, (sa', acc')) => sa' = sa /\ Q y
    | _ => True
    end.

Lemma aquiet_check t e : aquiet (fun y => y = e /\ t = e) (check t e).
Proof.
  intros sa acc. unfold check. destruct t, e; cbn; try exact I; (split; [reflexivity | split; reflexivity]).
Qed.

Lemma aquiet_ret {B} (Q : B -> Prop) y : Q y -> aquiet Q (aret y).
Proof. intros H sa acc. split; [reflexivity | exact H]. Qed.

Lemma aquiet_log sym l w : aquiet (fun _ => True) (log_access sym l w).
Proof. intros sa acc. split; [reflexivity | exact I]. Qed.

Lemma aquiet_prev_loc : aquiet (fun _ => True) prev_loc.
Proof. intros sa acc. split; [reflexivity | exact I]. Qed.

Lemma aquiet_bind {B B'} (Q : B -> Prop) (Q' : B' -> Prop) (b : MA B) (g : B -> MA B') :
  aquiet Q b -> (forall y, Q y -> aquiet Q' (g y)) -> aquiet Q' (abind b g).
Proof.
  intros Hb Hg sa acc. specialize (Hb sa acc). unfold abind.
  destruct (b (sa, acc)) as [[y|? ?|?| |] [sa1 acc1]]; try exact I. destruct Hb as [-> HQ]. apply (Hg y HQ sa acc1).
Qed.

Lemma aquiet_an_assign alv : aquiet (fun _ : unit => True) (an_assign alv (type_of_name (alv_sym alv))).
Proof.
  apply (aquiet_bind (fun _ => True)); [apply aquiet_log|]. intros _ _.
  apply (aquiet_bind (fun _ => True)); [|intros; apply aquiet_ret; exact I].
  intros sa acc. pose proof (aquiet_check (type_of_name (alv_sym alv)) (type_of_name (alv_sym alv)) sa acc) as H.
  destruct (check _ _ (sa, acc)) as [[y|? ?|?| |] [sa1 acc1]]; try exact I. split; [apply H | exact I].
Qed.

Lemma equiet_ret {A} (Q : A -> Prop) x : Q x -> equiet Q (ret x).
Proof. intros H s sa HR. cbn. split; assumption. Qed.

Lemma equiet_bind {A B} (Q : A -> Prop) (Q' : B -> Prop) (e : M A) (f : A -> M B) :
  equiet Q e -> (forall x, Q x -> equiet Q' (f x)) -> equiet Q' (bind e f).
Proof.
  intros He Hf s sa HR. specialize (He s sa HR). unfold bind.
  destruct (e s) as [[x|er l|pp| |] s1]; try exact I; [|exact He].
  destruct He as [HR1 HQ]. apply (Hf x HQ s1 sa HR1).
Qed.

(* [equiet] with the frame, as [lock] has it *)
Definition equietF (F : list frame -> list loop_info -> interp -> Prop) {A} (Q : A -> Prop) (e : M A) : Prop :=
  forall s sa, R s sa ->
    match e s with
    | (Ok x, s') => R s' sa /\ Q x /\ F (stack s) (loops s) s'
    | (Err er _, _) => benign er
    | _ => True
    end.

Lemma equietF_ret {A} (Q : A -> Prop) x : Q x -> equietF SL Q (ret x).
Proof. intros H s sa HR. cbn. split; [exact HR | split; [exact H | split; reflexivity]]. Qed.

Lemma equietF_bind {F A B} (Q : A -> Prop) (Q' : B -> Prop) (e : M A) (f : A -> M B) :
  equietF SL Q e -> (forall x, Q x -> equietF F Q' (f x)) -> equietF F Q' (bind e f).
Proof.
  intros He Hf s sa HR. specialize (He s sa HR). unfold bind.
  destruct (e s) as [[x|er l|pp| |] s1]; try exact I; [|exact He].
  destruct He as (HR1 & HQ & <- & <-). apply (Hf x HQ s1 sa HR1).
Qed.

(* one turn of a loop on either side: both go on (J) or both leave (P) *)
Definition sumrel {S S' T T'} (J : S -> S' -> Prop) (P : T -> T' -> Prop) (x : S + T) (y : S' + T') : Prop :=
  match x, y with
  | inl a, inl b => J a b
  | inr a, inr b => P a b
  | _, _ => False
  end.

Section Steps.
  Context {b : bool} {F : list frame -> list loop_info -> interp -> Prop}.

  Lemma lock_cursor {A} (p : M A) : cursor_prim p -> lock b SL eq p (lift p).
  Proof.
    intros Hp s sa acc HR. destruct (cursor_R p s sa Hp HR) as (E & HR1 & HS).
    unfold lift. cbn [fst snd]. destruct (p sa) as [r2 sa1], (p s) as [r1 s1]. cbn [fst snd] in *. subst r2.
    destruct r1 as [x|e l|pp| |]; try exact I. split; [reflexivity | split; [exact HR1 | exact HS]].
  Qed.

  Lemma lock_step {A B B'} (P : B -> B' -> Prop) (p : M A) f g :
    cursor_prim p -> (forall x, lock b F P (f x) (g x)) -> lock b F P (bind p f) (abind (lift p) g).
  Proof. intros Hp H. apply (lock_bind eq); [apply lock_cursor, Hp|]. intros x _ <-. apply H. Qed.

  Lemma lock_left {A B B'} (Q : A -> Prop) (P : B -> B' -> Prop) (e : M A) (m : A -> M B) (a : MA B') :
    equietF SL Q e -> (forall x, Q x -> lock b F P (m x) a) -> lock b F P (bind e m) a.
  Proof.
    intros He Hm s sa acc HR. specialize (He s sa HR). unfold bind.
    destruct (e s) as [[x|er l|pp| |] s1].
    - destruct He as (HR1 & HQ & <- & <-). apply (Hm x HQ s1 sa acc HR1).
    - destruct (a (sa, acc)) as [[y|? ?|?| |] [? ?]]; try exact I. exact He.
    - destruct (a (sa, acc)) as [[y|? ?|?| |] [? ?]]; exact I.
    - destruct (a (sa, acc)) as [[y|? ?|?| |] [? ?]]; exact I.
    - destruct (a (sa, acc)) as [[y|? ?|?| |] [? ?]]; exact I.
  Qed.

  (* A step of the analyzer alone is one in lock step with the interpreter doing nothing:
     [m] is, run for run, [ret tt ;;; m]. *)
  Lemma lock_right {A B B'} (Q : B -> Prop) (P : A -> B' -> Prop) (m : M A) (a0 : MA B) (a : B -> MA B') :
    lock b SL (fun _ => Q) (ret tt) a0 -> (forall y, Q y -> lock b F P m (a y)) -> lock b F P m (abind a0 a).
  Proof. intros H0 Ha. exact (lock_bind (fun _ => Q) P (ret tt) a0 (fun _ => m) a H0 (fun _ => Ha)). Qed.

  Lemma lock_quiet {A B} (Q : A -> Prop) (Q' : B -> Prop) (P : A -> B -> Prop) (e : M A) (a : MA B) :
    equietF F Q e -> lock b SL (fun _ => Q') (ret tt) a -> (forall x y, Q x -> Q' y -> P x y) -> lock b F P e a.
  Proof.
    intros He Ha HP s sa acc HR. specialize (He s sa HR). specialize (Ha s sa acc HR). cbn in Ha.
    destruct (e s) as [[x|er l|pp| |] s1], (a (sa, acc)) as [[y|? ?|?| |] [sa1 acc1]]; try exact I; try assumption.
    destruct He as (HR1 & HQ & HF), Ha as (HQ' & HR' & _). split; [apply HP; assumption|]. split; [|exact HF].
    destruct HR1 as (HC1 & Hc1 & Hf1 & _), HR as (HC & _), HR' as (HC' & _ & _ & Hf').
    split; [|split; [exact Hc1 | split; assumption]].
    unfold C in *. intuition congruence.
  Qed.

  Lemma lock_then {A B B'} (P : A -> B' -> Prop) (Q : B -> B' -> Prop) (m : M A) (f : A -> M B) (a : MA B') :
    lock b SL P m a -> (forall x y, P x y -> lock b F Q (f x) (aret y)) -> lock b F Q (bind m f) a.
  Proof.
    intros H1 H2 s sa acc HR. pose proof (lock_bind P Q m a f aret H1 H2 s sa acc HR) as H. unfold abind in H.
    destruct (a (sa, acc)) as [[y|? ?|?| |] [? ?]]; exact H.
  Qed.

  Lemma lock_equiet {A B} (Q : A -> Prop) (e : M A) (y : B) : equietF F Q e -> lock b F (fun x _ => Q x) e (aret y).
  Proof.
    intros He s sa acc HR. specialize (He s sa HR). cbn.
    destruct (e s) as [[x|er l|pp| |] s1]; try exact I; [|exact He]. destruct He as (HR1 & HQ & HF). split; [exact HQ | split; [exact HR1 | exact HF]].
  Qed.

  Lemma lock_lift_res {A B B'} (P : B -> B' -> Prop) (r : res A) (f : A -> M B) (a : MA B') :
    (forall v, r = Ok v -> lock b F P (f v) a) -> (forall er l, r = Err er l -> benign er) ->
    lock b F P (bind (lift_res r) f) a.
  Proof.
    intros Hok Herr s sa acc HR. unfold bind, lift_res.
    destruct r as [v|er l|pp| |]; [exact (Hok v eq_refl s sa acc HR)| | | |];
      destruct (a (sa, acc)) as [[y|? ?|?| |] [? ?]]; try exact I. exact (Herr er l eq_refl).
  Qed.
  Lemma lock_prev_loc : lock b SL (fun _ _ => True) (ret tt) prev_loc.
  Proof. intros s sa acc HR. split; [exact I | split; [exact HR | split; reflexivity]]. Qed.

  Lemma lock_log sym l w : lock b SL (fun _ _ => True) (ret tt) (log_access sym l w).
  Proof. intros s sa acc HR. split; [exact I | split; [exact HR | split; reflexivity]]. Qed.

  Lemma lock_repeat {St St' T T'} (J : St -> St' -> Prop) (P : T -> T' -> Prop)
        (body : St -> M (St + T)) (abody : St' -> MA (St' + T')) :
    (forall x y, J x y -> lock b SL (sumrel J P) (body x) (abody y)) ->
    forall f1 f2 x y, J x y -> lock b SL P (repeat_m f1 body x) (arepeat f2 abody y).
  Proof.
    intros Hb. induction f1 as [|f1 IH]; intros f2 x y HJ.
    - intros s sa acc HR. exact I.
    - destruct f2 as [|f2].
      + intros s sa acc HR. cbn [arepeat]. destruct (repeat_m (S f1) body x s) as [[z|? ?|?| |] ?]; exact I.
      + cbn [repeat_m arepeat]. apply (lock_bind (sumrel J P)); [apply Hb; exact HJ|].
        intros [x1|t1] [y1|t1']; cbn [sumrel]; intros H; try contradiction.
        * apply IH. exact H.
        * apply lock_ret. exact H.
  Qed.
End Steps.

Lemma R_ext s s' sa :
  R s sa -> st_toks s' = st_toks s -> st_keys s' = st_keys s -> immediate s' = immediate s -> loc s' = loc s ->
  functions s' = functions s -> caps_inv s' -> R s' sa.
Proof.
  intros ((C1 & C2 & C3 & C4) & _ & Hf1 & Hf2) E1 E2 E3 E4 E5 Hc.
  split; [repeat split; congruence|]. split; [exact Hc|]. split; congruence.
Qed.

Lemma R_quiet s s' sa : R s sa ->
  st_toks s' = st_toks s -> st_keys s' = st_keys s -> immediate s' = immediate s -> loc s' = loc s ->
  functions s' = functions s -> stack s' = stack s -> loops s' = loops s ->
  variables s' = variables s -> arrays s' = arrays s -> R s' sa.
Proof.
  intros HR E1 E2 E3 E4 E5 E6 E7 E8 E9. apply (R_ext s); try assumption. apply (caps_inv_ext s); try assumption. apply HR.
Qed.

Lemma equiet_caps {F A} (Q : A -> Prop) (e : M A) :
  mrel (inv_rel caps_inv) e ->
  (forall s, caps_inv s ->
     match e s with
     | (Ok x, s') => (st_toks s' = st_toks s /\ st_keys s' = st_keys s /\ immediate s' = immediate s /\ loc s' = loc s
                      /\ functions s' = functions s) /\ Q x /\ F (stack s) (loops s) s'
     | (Err er _, _) => benign er
     | _ => True
     end) -> equietF F Q e.
Proof.
  intros Hc He s sa HR. specialize (Hc s (proj1 (proj2 HR))). specialize (He s (proj1 (proj2 HR))).
  destruct (e s) as [[x|er l|pp| |] s1]; try exact I; [|exact He].
  destruct He as [(E1 & E2 & E3 & E4 & E5) HQ]. split; [|exact HQ]. apply (R_ext s); assumption.
Qed.

Lemma find_in_frames_typed name frames v :
  Forall (fun fr => typed_alist (fr_vars fr)) frames -> find_in_frames name frames = Some v -> type_matches name v = true.
Proof.
  induction 1 as [|fr frames Hfr _ IH]; cbn [find_in_frames]; [discriminate|].
  destruct (alist_get name (fr_vars fr)) as [x|] eqn:E.
  - intros H. inversion H; subst. apply (Hfr name v). apply alist_get_In. exact E.
  - exact IH.
Qed.

Lemma equiet_push_output o : equietF SL (fun _ => True) (push_output o).
Proof. apply equiet_caps; [apply caps_push_output|]. intros s _. cbn. repeat split. Qed.

Lemma equiet_warn msg : equietF SL (fun _ => True) (warn msg).
Proof.
  apply equiet_caps; [apply caps_warn|]. intros s _. unfold warn. rewrite bind_get.
  destruct (enable_warnings s); cbn; repeat split.
Qed.

Lemma equiet_warn_if (c : bool) msg : equietF SL (fun _ => True) (if c then warn msg else ret tt).
Proof. destruct c; [apply equiet_warn | apply equietF_ret; exact I]. Qed.

Lemma equiet_maybe_warn sym : equietF SL (fun _ => True) (maybe_warn_undeclared_array sym).
Proof. intros s sa HR. unfold maybe_warn_undeclared_array. rewrite !bind_get. exact (equiet_warn_if _ _ s sa HR). Qed.

Lemma equiet_variables_get sym : equietF SL (fun v => kind v = type_of_name sym) (variables_get sym).
Proof.
  intros s sa HR. unfold variables_get. rewrite bind_get. split; [exact HR|]. split; [|split; reflexivity].
  destruct HR as (_ & (_ & _ & _ & K4 & _) & _).
  destruct (alist_get sym (variables s)) as [v|] eqn:E; [|apply default_kind].
  apply kind_type_matches, (K4 sym v), alist_get_In, E.
Qed.

Lemma equiet_variable sym :
  equietF SL (fun v => kind v = type_of_name sym)
    (sv <- find_variable_value_in_stack sym ;;
     match sv with
     | Some v => ret v
     | None =>
         w <- get enable_warnings ;;
         vs <- get variables ;;
         (if w && negb (alist_has sym vs)
          then warn (bs "Use of undeclared variable '" ++ sym ++ bs "'.")
          else ret tt) ;;;
         variables_get sym
     end).
Proof.
  apply (equietF_bind (fun sv => forall v, sv = Some v -> kind v = type_of_name sym)).
  - intros s sa HR. unfold find_variable_value_in_stack. rewrite bind_get. split; [exact HR|]. split; [|split; reflexivity]. intros v Ef.
    destruct HR as (_ & (_ & _ & _ & _ & K5 & _) & _).
    apply kind_type_matches, (find_in_frames_typed sym (rev (stack s))); [apply Forall_rev, K5 | exact Ef].
  - intros [v|] Hsv; [apply equietF_ret, Hsv; reflexivity|].
    intros s sa HR. rewrite !bind_get.
    exact (equietF_bind _ _ _ _ (equiet_warn_if _ _) (fun _ _ => equiet_variables_get sym) s sa HR).
Qed.

Lemma equiet_rng x : equietF SL (fun _ : f64 => True) (rng_rnd x).
Proof.
  apply equiet_caps; [apply caps_rng_rnd|]. intros s _. unfold rng_rnd.
  destruct (f64_ltb x f64_zero); [exact I|]. destruct (f64_eqb x f64_zero); cbn; repeat split.
Qed.

Lemma cell_kind name a v : arr_ok name a -> In v (ar_cells a) -> kind v = type_of_name name.
Proof.
  intros (_ & _ & _ & Hs & Hc) Hin. rewrite Forall_forall in Hc. specialize (Hc v Hin).
  unfold type_of_name. rewrite <- Hs. destruct v; cbn in *; rewrite Hc; reflexivity.
Qed.

Lemma array_create_benign name idx er l : array_create_value name idx = Err er l -> benign er.
Proof.
  unfold array_create_value. destruct idx as [|i0 idx']; [intros H; inversion H; exact I|].
  destruct (existsb _ _); [intros H; inversion H; exact I|].
  destruct (checked_product _ _) as [total|]; [|intros H; inversion H; exact I].
  destruct (max_dim_total <? total)%N; intros H; inversion H; exact I.
Qed.

Lemma array_linear_index_benign a idx er l : array_linear_index a idx = Err er l -> benign er.
Proof.
  unfold array_linear_index. destruct (negb _); [intros H; inversion H; exact I|].
  destruct (linear_index _ _ _ _); intros H; inversion H. exact I.
Qed.

Lemma equiet_arrays_create name idx : equietF SL (fun _ : unit => True) (arrays_create name idx).
Proof.
  apply equiet_caps; [apply caps_arrays_create|]. intros s _. unfold arrays_create. rewrite bind_get.
  destruct (alist_has name (arrays s)); [exact I|]. unfold bind, lift_res.
  destruct (array_create_value name idx) as [a|e l|p| |] eqn:E; try exact I; [cbn; repeat split|].
  exact (array_create_benign _ _ _ _ E).
Qed.

Lemma equiet_default_array name d : equietF SL (fun _ : unit => True) (maybe_create_default_array name d).
Proof.
  apply equiet_caps; [apply caps_maybe_default|]. intros s _. unfold maybe_create_default_array. rewrite bind_get.
  destruct (alist_has name (arrays s)); [cbn; repeat split|]. unfold bind, lift_res.
  destruct (array_create_value name _) as [a|e l|p| |] eqn:E; try exact I; [cbn; repeat split|].
  exact (array_create_benign _ _ _ _ E).
Qed.

Lemma equiet_array_cell sym idx :
  equietF SL (fun v => kind v = type_of_name sym) (maybe_warn_undeclared_array sym ;;; arrays_get sym idx).
Proof.
  apply (equietF_bind (fun _ => True)); [apply equiet_maybe_warn|]. intros _ _.
  apply (equietF_bind (fun _ => True)); [apply equiet_default_array|]. intros _ _ s sa HR. rewrite bind_get.
  destruct (alist_get sym (arrays s)) as [a|] eqn:Ea; [|exact I]. unfold bind, lift_res.
  destruct (array_linear_index a idx) as [i|er l|pp| |] eqn:Ei; try exact I; [|exact (array_linear_index_benign _ _ _ _ Ei)].
  destruct (nth_error (ar_cells a) (N.to_nat i)) as [v|] eqn:En; [|exact I].
  split; [exact HR|]. split; [|split; reflexivity]. destruct HR as (_ & (_ & _ & _ & _ & _ & Ka) & _).
  apply (cell_kind sym a); [apply (Ka sym a), alist_get_In, Ea | eapply nth_error_In, En].
Qed.

Lemma equiet_arrays_set sym idx v : kind v = type_of_name sym -> equietF SL (fun _ : unit => True) (arrays_set sym idx v).
Proof.
  intros Hk s sa HR.
  (* the invariant of the final state is Caps.v's; what is left is the frame and the errors *)
  pose proof (caps_arrays_set sym idx v s (proj1 (proj2 HR))) as Hc2.
  pose proof (equiet_default_array sym (length idx) s sa HR) as H1.
  unfold arrays_set in *. rewrite (type_matches_kind _ _ Hk) in *. cbn [negb] in *. unfold bind at 1 in Hc2. unfold bind at 1.
  destruct (maybe_create_default_array sym (length idx) s) as [[[]|er l|pp| |] s1]; try exact I; [|exact H1].
  destruct H1 as (HR1 & _ & <- & <-). rewrite bind_get in *.
  destruct (alist_get sym (arrays s1)) as [a|] eqn:Ea; [|exact I].
  assert (Hb : Bool.eqb (ar_str a) (match v with VStr _ => true | VNum _ => false end) = true).
  { destruct HR1 as (_ & (_ & _ & _ & _ & _ & Ka) & _). destruct (Ka sym a (alist_get_In _ _ _ Ea)) as (_ & _ & _ & -> & _).
    unfold type_of_name in Hk. destruct v, (ends_with_dollar sym); cbn in *; congruence. }
  rewrite Hb in *. cbn [negb] in *. unfold bind, lift_res in *.
  destruct (array_linear_index a idx) as [i|er l|pp| |] eqn:Ei; try exact I; [|exact (array_linear_index_benign _ _ _ _ Ei)].
  destruct (Nat.ltb (N.to_nat i) (length (ar_cells a))); [|exact I].
  split; [|split; [exact I | split; reflexivity]]. apply (R_ext s1); try reflexivity; [exact HR1 | exact Hc2].
Qed.

Lemma equiet_assign sym (idx : option (list N)) v :
  kind v = type_of_name sym -> equietF SL (fun _ : unit => True) (assign_value (mklv sym idx) v).
Proof.
  intros Hk. unfold assign_value. cbn [lv_index lv_sym]. destruct idx as [idx|].
  - apply (equietF_bind (fun _ => True)); [apply equiet_maybe_warn|]. intros _ _. apply equiet_arrays_set, Hk.
  - apply equiet_caps; [apply caps_variables_set|]. intros s _. rewrite variables_set_eq, (type_matches_kind _ _ Hk).
    repeat split.
Qed.

Lemma fails_assign_mismatch sym idx v : kind v <> type_of_name sym -> fails (assign_value (mklv sym idx) v).
Proof.
  intros Hk. assert (Htm : type_matches sym v = false).
  { destruct (type_matches sym v) eqn:E; [destruct (Hk (kind_type_matches _ _ E)) | reflexivity]. }
  unfold assign_value. cbn [lv_index lv_sym]. destruct idx as [idx|].
  - apply fails_bind_r. intros _ s. unfold arrays_set. rewrite Htm. exact I.
  - intros s. rewrite variables_set_eq, Htm. exact I.
Qed.

Lemma drop_loop_fields sym s :
  st_toks (drop_loop sym s) = st_toks s /\ st_keys (drop_loop sym s) = st_keys s
  /\ immediate (drop_loop sym s) = immediate s /\ loc (drop_loop sym s) = loc s
  /\ functions (drop_loop sym s) = functions s.
Proof. unfold drop_loop. destruct (find_loop_rev sym (loops s)); repeat split; reflexivity. Qed.

(* FOR stores the start value in the loop variable: a number, so the name must be numeric *)
Lemma equiet_start_loop sym a b c : type_of_name sym = TyNumber -> equietF SLF (fun _ : unit => True) (start_loop sym a b c).
Proof.
  intros Hty. apply equiet_caps; [apply caps_start_loop|]. intros s _.
  pose proof (start_loop_shape sym a b c s) as Hsh. revert Hsh. rewrite start_loop_eq. cbv zeta.
  destruct (Nat.eqb (length (loops (drop_loop sym s))) stack_limit); [intros _; exact I|].
  rewrite variables_set_eq, (type_matches_kind sym (VNum a)) by (symmetry; exact Hty).
  intros Hsh. split; [exact (drop_loop_fields sym s)|]. split; [exact I | exact (Hsh _ eq_refl)].
Qed.

Lemma fails_start_loop sym a b c : type_of_name sym = TyString -> fails (start_loop sym a b c).
Proof.
  intros Hty s. rewrite start_loop_eq. cbv zeta.
  destruct (Nat.eqb (length (loops (drop_loop sym s))) stack_limit); [exact I|].
  rewrite variables_set_eq.
  destruct (type_matches sym (VNum a)) eqn:E; [|exact I].
  apply kind_type_matches in E. rewrite Hty in E. discriminate E.
Qed.

Lemma equiet_next_data : equietF SL (fun _ : option data_elem => True) next_data_element.
Proof.
  apply equiet_caps; [apply caps_next_data|]. intros s _. unfold next_data_element.
  destruct (data_it s) as [d|].
  - destruct (data_next _ d) as [e d']. repeat split.
  - destruct (data_chunks (st_keys s) (st_toks s)) as [cs|e l|pp| |]; try exact I.
    destruct (data_next _ _) as [e d']. repeat split.
Qed.

Lemma coerce_kind' name e v : coerce_data name e = Ok v -> kind v = type_of_name name.
Proof.
  unfold coerce_data, type_of_name. destruct (ends_with_dollar name), e; intros H; inversion H; reflexivity.
Qed.

Lemma coerce_benign name e er l : coerce_data name e = Err er l -> benign er.
Proof.
  unfold coerce_data. destruct (ends_with_dollar name), e; intros H; inversion H; exact I.
Qed.

(* the value has the type the checker computed *)
Definition K (v : value) (t : vtype) : Prop := kind v = t.

Definition Ko (v : option value) (t : option vtype) : Prop :=
  match v, t with Some v, Some t => kind v = t | None, None => True | _, _ => False end.

Definition optrel {O O'} (o : option O) (o' : option O') : Prop :=
  match o, o' with Some _, Some _ => True | None, None => True | _, _ => False end.

Definition numop (ap : value -> value -> M value) : Prop :=
  forall a b s, match ap (VNum a) (VNum b) s with
                | (Ok v, s') => s' = s /\ kind v = TyNumber
                | (Err e _, _) => benign e
                | _ => True
                end.

Lemma numop_addsub o : numop (eval_addsub o).
Proof. intros a b s. cbn. split; reflexivity. Qed.

Lemma numop_muldiv o : numop (eval_muldiv o).
Proof. intros a b s. destruct o; cbn; [split; reflexivity|]. destruct (f64_eqb b f64_zero); cbn; [exact I | split; reflexivity]. Qed.

Lemma numop_pow : numop eval_pow.
Proof.
  intros a b s. unfold eval_pow, bind, get. cbn [fst snd].
  destruct (pow_lookup (f64_bits a) (f64_bits b) (pow_oracle s)); cbn; [split; reflexivity | exact I].
Qed.

Definition a_string (v w : value) : Prop := kind v = TyString \/ kind w = TyString.

Lemma fails_addsub_str o v w : a_string v w -> fails (eval_addsub o v w).
Proof. intros [H|H] s; destruct v, w; try exact I; discriminate H. Qed.

Lemma fails_muldiv_str o v w : a_string v w -> fails (eval_muldiv o v w).
Proof. intros [H|H] s; destruct v, w; try exact I; discriminate H. Qed.

Lemma fails_pow_str v w : a_string v w -> fails (eval_pow v w).
Proof. intros [H|H] s; destruct v, w; try exact I; discriminate H. Qed.

Section Lockstep.
  Context {b : bool}.
  Variables f1 f2 : nat.
  Variable rec : M value.
  Variable arec : MA vtype.
  Hypothesis Hrec : lock b SL K rec arec.

  Lemma lock_number {F A B} (P : A -> B -> Prop) (f : f64 -> M A) (g : vtype -> MA B) :
    (forall x, lock b F P (f x) (g TyNumber)) ->
    lock b F P (v <- rec ;; x <- expect_number v ;; f x) (t <-- arec ;; r <-- check_number t ;; g r).
  Proof.
    intros H. apply (lock_bind K); [exact Hrec|]. intros v t <-. destruct v as [z|x]; cbn [kind expect_number].
    - apply lock_ff; [apply fails_bind, fails_fail | apply fails_abind, fails_check; reflexivity].
    - apply (lock_bind (fun _ r => r = TyNumber)); [apply lock_ret; reflexivity|]. intros x' r ->. apply H.
  Qed.

  Lemma lock_array_index : lock b SL (fun _ _ => True) (evaluate_array_index f1 rec) (an_array_index f2 arec).
  Proof.
    unfold evaluate_array_index, an_array_index.
    apply lock_step; [apply cp_expect|]. intros _.
    apply (lock_bind (fun _ _ => True)).
    - apply (lock_repeat (fun _ _ => True)); [|exact I]. intros acc arity _.
      apply (lock_bind K); [exact Hrec|]. intros v t <-.
      destruct v as [z|x]; cbn [kind].
      + apply lock_ff; [apply fails_fail | apply fails_abind, fails_check; reflexivity].
      + apply (lock_right (fun _ => True)); [apply lock_ret; exact I|]. intros _ _.
        destruct (f64_to_i64_sat x <? 0)%Z; [apply lock_fail_benign; exact I|].
        apply lock_step; [apply cp_accept|]. intros c.
        apply lock_ret. destruct c; exact I.
    - intros idx n _. apply lock_step; [apply cp_expect|]. intros _.
      apply lock_ret. exact I.
  Qed.

  Lemma lock_unary_arg : lock b SL (fun _ t => t = TyNumber) (unary_number_function_arg rec) (an_unary_number_function_arg arec).
  Proof.
    unfold unary_number_function_arg, an_unary_number_function_arg.
    apply lock_step; [apply cp_expect|]. intros _.
    apply lock_number. intros x.
    apply lock_step; [apply cp_expect|]. intros _.
    apply lock_ret. reflexivity.
  Qed.

  Lemma lock_function_call name l : lock b SL Ko (function_call rec name) (an_function_call arec name l).
  Proof.
    unfold function_call, an_function_call.
    destruct (bytes_eqb name (bs "ABS")); cbn [orb].
    { apply (lock_bind (fun _ t => t = TyNumber)); [apply lock_unary_arg|]. intros x t ->. apply lock_ret. reflexivity. }
    destruct (bytes_eqb name (bs "INT")); cbn [orb].
    { apply (lock_bind (fun _ t => t = TyNumber)); [apply lock_unary_arg|]. intros x t ->. apply lock_ret. reflexivity. }
    destruct (bytes_eqb name (bs "RND")).
    { apply (lock_bind (fun _ t => t = TyNumber)); [apply lock_unary_arg|]. intros x t ->.
      apply (lock_left (fun _ => True)); [apply equiet_rng|]. intros r _. apply lock_ret. reflexivity. }
    (* no user-defined functions on either side *)
    intros s sa acc HR. unfold user_function_call, an_user_function_call, abind, lift, bind, get. cbn [fst snd].
    rewrite (proj1 (proj2 (proj2 HR))), (proj2 (proj2 (proj2 HR))). cbn.
    split; [exact I | split; [exact HR | split; reflexivity]].
  Qed.

  Lemma lock_term : lock b SL K (expression_term f1 rec) (an_term f2 arec).
  Proof.
    unfold expression_term, an_term.
    apply lock_step; [apply cp_next_unwrapped|]. intros t.
    destruct t; try (apply lock_fail_afail); try (apply lock_ret; reflexivity).
    lazymatch goal with |- context [type_of_name ?n] => set (name := n) end.
    assert (Hlog : forall l, lock b SL (fun _ t => t = type_of_name name) (ret tt) (log_access name l false ;;;; aret (type_of_name name))).
    { intros l. apply (lock_right (fun _ => True)); [apply lock_log|]. intros _ _. apply lock_ret. reflexivity. }
    apply (lock_right (fun _ => True)); [apply lock_prev_loc|]. intros l _.
    apply lock_step; [apply cp_peek_is|]. intros p.
    destruct p.
    - apply (lock_bind Ko); [apply lock_function_call|]. intros fv ft Hko.
      destruct fv as [v|], ft as [t|]; cbn [Ko] in Hko; try contradiction.
      + apply lock_ret. exact Hko.
      + apply (lock_bind (fun _ _ => True)); [apply lock_array_index|]. intros idx n _.
        apply (lock_quiet (fun v => kind v = type_of_name name) (fun t => t = type_of_name name));
          [apply equiet_array_cell | apply Hlog | intros v t Hv ->; exact Hv].
    - apply (lock_quiet (fun v => kind v = type_of_name name) (fun t => t = type_of_name name));
        [apply equiet_variable | apply Hlog | intros v t Hv ->; exact Hv].
  Qed.

  Lemma lock_paren : lock b SL K (parenthesized_expression f1 rec) (an_paren f2 arec).
  Proof.
    unfold parenthesized_expression, an_paren.
    apply lock_step; [apply cp_accept|]. intros p.
    destruct p; [|apply lock_term].
    apply (lock_bind K); [exact Hrec|]. intros v t Hk.
    apply lock_step; [apply cp_expect|]. intros _.
    apply lock_ret. exact Hk.
  Qed.

  Lemma lock_unary : lock b SL K (unary_operator f1 rec) (an_unary f2 arec).
  Proof.
    unfold unary_operator, an_unary.
    apply lock_step; [apply cp_try|]. intros op.
    apply (lock_bind K); [apply lock_paren|]. intros v t Hk. unfold K in Hk.
    destruct op as [[| |]|]; cbn [eval_unary].
    - apply lock_ret. exact Hk.
    - destruct v as [z|x]; cbn [kind] in Hk; subst t; unfold check_number, check; cbn [vtype_eqb].
      + apply lock_fail_afail.
      + apply lock_ret. reflexivity.
    - apply lock_ret. reflexivity.
    - apply lock_ret. exact Hk.
  Qed.

  Lemma lock_tier {O O'} (g : M (option O)) (ag : MA (option O')) (operand : M value) (aoperand : MA vtype)
        (ap : O -> value -> value -> M value) (astep : vtype -> vtype -> MA vtype) :
    lock b SL optrel g ag -> lock b SL K operand aoperand ->
    (forall o v w tv tw, K v tv -> K w tw -> lock b SL K (ap o v w) (astep tv tw)) ->
    lock b SL K (tier f1 g operand ap) (an_tier f2 ag aoperand astep).
  Proof.
    intros Hg Ho Hap. unfold tier, an_tier.
    apply (lock_bind K); [exact Ho|]. intros v0 t0 H0.
    apply (lock_repeat K); [|exact H0]. intros v t Hvt.
    apply (lock_bind optrel); [exact Hg|]. intros o o' Hoo.
    destruct o as [o|], o' as [o'|]; try contradiction.
    - apply (lock_bind K); [exact Ho|]. intros w tw Hw.
      apply (lock_bind K); [apply Hap; assumption|]. intros v' t' Hv'.
      apply lock_ret. exact Hv'.
    - apply lock_ret. exact Hvt.
  Qed.

  Lemma lock_both_numbers ap v w tv tw : numop ap -> (b = true -> a_string v w -> fails (ap v w)) ->
    K v tv -> K w tw -> lock b SL K (ap v w) (both_numbers tv tw).
  Proof.
    intros Hn Hs <- <-. unfold both_numbers, check_number.
    destruct v as [z|x]; cbn [kind].
    { apply lock_fails; [intros Hb; apply (Hs Hb); left; reflexivity | apply fails_abind, fails_check; reflexivity]. }
    destruct w as [z|y]; cbn [kind].
    { apply lock_fails; [intros Hb; apply (Hs Hb); right; reflexivity|].
      apply fails_abind_r; intros _; apply fails_abind, fails_check; reflexivity. }
    intros s sa acc HR. specialize (Hn x y s). cbn.
    destruct (ap (VNum x) (VNum y) s) as [[r|e l|pp| |] s1]; try exact I; [|exact Hn].
    destruct Hn as [-> Hk]. split; [exact Hk | split; [exact HR | split; reflexivity]].
  Qed.

  Lemma lock_eq o v w tv tw : K v tv -> K w tw -> lock b SL K (eval_eq o v w) (check tv tw ;;;; aret TyNumber).
  Proof.
    intros <- <-. unfold check. destruct v as [x|x], w as [y|y]; cbn [kind eval_eq vtype_eqb].
    1, 4: apply (lock_right (fun _ => True)); [apply lock_ret; exact I|]; intros _ _; apply lock_ret; reflexivity.
    all: apply lock_ff; [apply fails_fail | apply fails_abind, fails_afail].
  Qed.

  Lemma lock_accept_as t : lock b SL optrel (accept_as t tt) (an_accept_as t).
  Proof.
    unfold accept_as, an_accept_as.
    apply lock_step; [apply cp_accept|]. intros c.
    apply lock_ret. destruct c; exact I.
  Qed.

  Lemma lock_try {O} (g : token -> option O) : lock b SL optrel (try_next_token g) (lift (try_next_token g)).
  Proof. apply (lock_weaken SL eq); [auto | | apply lock_cursor, cp_try]. intros x y <-. destruct x; exact I. Qed.

  Lemma lock_logical_or : lock b SL K (logical_or_expression f1 rec) (an_or f2 arec).
  Proof.
    unfold logical_or_expression, an_or, logical_and_expression, an_and, equality_expression, an_equality,
      plus_or_minus_expression, an_addsub, multiply_or_divide_expression, an_muldiv, exponent_expression, an_exponent.
    apply lock_tier; [apply lock_accept_as| |intros; unfold eval_or; apply lock_ret; reflexivity].
    apply lock_tier; [apply lock_accept_as| |intros; unfold eval_and; apply lock_ret; reflexivity].
    apply lock_tier; [apply lock_try| |intros; apply lock_eq; assumption].
    apply lock_tier; [apply lock_try| |intros; apply lock_both_numbers; [apply numop_addsub | intros _; apply fails_addsub_str | assumption | assumption]].
    apply lock_tier; [apply lock_try| |intros; apply lock_both_numbers; [apply numop_muldiv | intros _; apply fails_muldiv_str | assumption | assumption]].
    apply lock_tier; [apply lock_accept_as| |intros; apply lock_both_numbers; [apply numop_pow | intros _; apply fails_pow_str | assumption | assumption]].
    apply lock_unary.
  Qed.
End Lockstep.

Lemma sound_both_numbers ap v w tv tw : numop ap -> K v tv -> K w tw -> sound K (ap v w) (both_numbers tv tw).
Proof. intros Hn Hv Hw. apply (@lock_sound false SL), lock_both_numbers; [exact Hn | discriminate | exact Hv | exact Hw]. Qed.

(* The checker refuses an expression nested too deep; the interpreter does the same at the same depth,
   so the converse needs the two depths equal. *)
Theorem lock_expression {b} : forall f1 f2 n1 n2, (b = true -> n1 = n2) ->
  lock b SL K (evaluate_expression f1 n1) (analyze_expression f2 n2).
Proof.
  induction f1 as [|f1 IH]; intros f2 n1 n2 Hn.
  - intros s sa acc HR. exact I.
  - destruct f2 as [|f2].
    + intros s sa acc HR. cbn [analyze_expression]. destruct (evaluate_expression (S f1) n1 s) as [[z|? ?|?| |] ?]; exact I.
    + cbn [evaluate_expression analyze_expression].
      destruct (Nat.eqb n2 max_nesting) eqn:E2.
      { apply lock_fails; [|apply fails_afail]. intros Hb. rewrite (Hn Hb), E2. apply fails_fail. }
      destruct (Nat.eqb n1 max_nesting); [apply lock_fail_benign; exact I|].
      apply lock_logical_or, IH. intros Hb. rewrite (Hn Hb). reflexivity.
Qed.

Theorem expression_check_sound2 : forall f1 f2 n1 n2, sound K (evaluate_expression f1 n1) (analyze_expression f2 n2).
Proof. intros f1 f2 n1 n2. apply (@lock_sound false SL), lock_expression. discriminate. Qed.

Theorem expression_check_sound : forall f1 f2 n, sound K (evaluate_expression f1 n) (analyze_expression f2 n).
Proof. intros f1 f2 n. apply expression_check_sound2. Qed.

Corollary checked_expression_does_not_fail_on_types : forall f1 f2 n s sa acc t sa' acc',
  R s sa -> analyze_expression f2 n (sa, acc) = (Ok t, (sa', acc')) ->
  match evaluate_expression f1 n s with
  | (Ok v, s') => kind v = t /\ loc s' = loc sa' /\ caps_inv s'
  | (Err e _, _) => benign e
  | _ => True                       (* the model's own out-of-fuel / oracle-miss / panic answers *)
  end.
Proof.
  intros f1 f2 n s sa acc t sa' acc' HR Ha.
  pose proof (expression_check_sound f1 f2 n s sa acc HR) as H. rewrite Ha in H.
  destruct (evaluate_expression f1 n s) as [[v|e l|pp| |] s']; try exact I; [|exact H].
  destruct H as [Hk ((_ & _ & _ & Hl) & Hc & _)]. split; [exact Hk|]. split; [exact Hl | exact Hc].
Qed.

Lemma sound_bool (f : value -> value -> bool) v w : sound K (ret (from_bool (f v w))) (aret TyNumber).
Proof. apply (@lock_sound false SL), lock_ret. reflexivity. Qed.

Section StmtLock.
  Context {b : bool}.
  Variables f1 f2 n1 n2 : nat.
  Hypothesis Hn : b = true -> n1 = n2.

  Lemma lock_optional_index : lock b SL optrel (parse_optional_array_index f1 n1) (an_optional_array_index f2 n2).
  Proof.
    unfold parse_optional_array_index, an_optional_array_index.
    apply lock_step; [apply cp_peek_is|]. intros p.
    destruct p; cbn [negb]; [|apply lock_ret; exact I].
    apply (lock_bind (fun _ _ => True)); [apply lock_array_index, lock_expression, Hn|]. intros i n _.
    apply lock_ret. exact I.
  Qed.

  Lemma lock_assignment sym :
    lock b SL (fun _ _ => True) (evaluate_assignment_statement f1 n1 sym) (an_assignment f2 n2 sym).
  Proof.
    unfold evaluate_assignment_statement, an_assignment.
    apply (lock_right (fun _ => True)); [apply lock_prev_loc|]. intros l _.
    apply (lock_bind optrel); [apply lock_optional_index|]. intros idx ar _.
    apply lock_step; [apply cp_expect|]. intros _.
    apply (lock_bind K); [apply lock_expression, Hn|]. intros v t <-.
    unfold an_assign. cbn [alv_sym alv_loc].
    apply (lock_right (fun _ => True)); [apply lock_log|]. intros _ _.
    (* the check decides: only when the kinds agree does the interpreter store *)
    unfold check. destruct (vtype_eqb (type_of_name sym) (kind v)) eqn:Ev.
    - apply vtype_eqb_eq in Ev.
      apply (lock_right (fun _ => True)); [apply lock_ret; exact I|]. intros _ _.
      apply (lock_equiet (fun _ => True)), equiet_assign. symmetry. exact Ev.
    - apply lock_ff; [|apply fails_abind, fails_afail].
      apply fails_assign_mismatch. intros E. rewrite E in Ev. rewrite (proj2 (vtype_eqb_eq _ _) eq_refl) in Ev. discriminate Ev.
  Qed.

  Lemma lock_let : lock b SL (fun _ _ => True) (evaluate_let_statement f1 n1) (an_let f2 n2).
  Proof.
    unfold evaluate_let_statement, an_let.
    apply lock_step; [apply cp_next_token|]. intros t.
    destruct t as [[]|]; try apply lock_fail_afail. apply lock_assignment.
  Qed.

  Lemma lock_print : lock b SL (fun _ _ => True) (evaluate_print_statement f1 n1) (an_print f2 n2).
  Proof.
    unfold evaluate_print_statement, an_print.
    apply (lock_then (fun _ _ => True)).
    - apply (lock_repeat (fun _ _ => True)); [|exact I]. intros [semi text] [] _.
      apply lock_step; [apply cp_peek|]. intros t.
      destruct t as [t|]; [|apply lock_ret; exact I].
      destruct t;
        try (apply (lock_bind K); [apply lock_expression, Hn|]; intros v ty _; apply lock_ret; exact I);
        try (apply lock_ret; exact I);
        try (apply lock_step; [apply cp_next_token|]; intros _; apply lock_ret; exact I).
    - intros [semi text] [] _. apply (lock_equiet (fun _ => True)), equiet_push_output.
  Qed.

  Lemma lock_parse_lvalue :
    lock b SL (fun lv alv => lv_sym lv = alv_sym alv) (parse_lvalue f1 n1) (an_parse_lvalue f2 n2).
  Proof.
    unfold parse_lvalue, an_parse_lvalue.
    apply lock_step; [apply cp_next_token|]. intros t.
    destruct t as [[]|]; try apply lock_fail_afail.
    apply (lock_right (fun _ => True)); [apply lock_prev_loc|]. intros l _.
    apply (lock_bind optrel); [apply lock_optional_index|]. intros idx ar _.
    apply lock_ret. reflexivity.
  Qed.

  Lemma lock_dim : lock b SL (fun _ _ => True) (evaluate_dim_statement f1 n1) (an_dim f2 n2).
  Proof.
    unfold evaluate_dim_statement, an_dim.
    apply (lock_bind (fun lv alv => lv_sym lv = alv_sym alv)); [apply lock_parse_lvalue|]. intros lv alv _.
    apply (lock_quiet (fun _ => True) (fun _ => True)); [|apply lock_log | intros; exact I].
    destruct (lv_index lv) as [idx|]; [apply equiet_arrays_create | apply equietF_ret; exact I].
  Qed.

  Lemma lock_read : lock b SL (fun _ _ => True) (evaluate_read_statement f1 n1) (an_read f2 n2).
  Proof.
    unfold evaluate_read_statement, an_read.
    apply (lock_repeat (fun _ _ => True)); [|exact I]. intros [] [] _.
    apply (lock_bind (fun lv alv => lv_sym lv = alv_sym alv)); [apply lock_parse_lvalue|]. intros [sym idx] alv Hsym.
    cbn [lv_sym] in *.
    (* the interpreter fetches, converts and stores; the checker records the write *)
    apply (lock_left (fun _ => True)); [apply equiet_next_data|]. intros e _.
    destruct e as [e|]; [|apply lock_fail_benign; exact I].
    apply lock_lift_res; [intros v Ec | intros er l Ec; exact (coerce_benign _ _ _ _ Ec)].
    apply (lock_left (fun _ => True)); [apply equiet_assign, (coerce_kind' _ _ _ Ec)|]. intros _ _.
    apply (lock_right (fun _ => True)).
    { unfold an_assign, check. rewrite (proj2 (vtype_eqb_eq _ _) eq_refl).
      apply (lock_right (fun _ => True)); [apply lock_log|]. intros _ _.
      apply (lock_right (fun _ => True)); [|intros _ _]; apply lock_ret; exact I. }
    intros _ _. apply lock_step; [apply cp_accept|]. intros c.
    apply lock_ret. destruct c; exact I.
  Qed.

  Lemma lock_for : lock b SLF (fun _ _ => True) (evaluate_for_statement f1 n1) (an_for f2 n2).
  Proof.
    unfold evaluate_for_statement, an_for.
    apply lock_step; [apply cp_next_token|]. intros t.
    destruct t as [[]|]; try apply lock_fail_afail.
    lazymatch goal with |- context [type_of_name ?n] => set (sym := n) end.
    apply (lock_right (fun _ => True)); [apply lock_prev_loc|]. intros l _.
    apply (lock_right (fun _ => True)); [apply lock_log|]. intros _ _.
    unfold check_number at 1, check at 1.
    destruct (vtype_eqb (type_of_name sym) TyNumber) eqn:Ev.
    2:{ (* a string-named loop variable: the checker says so at once, the interpreter when it stores *)
        assert (Hty : type_of_name sym = TyString) by (destruct (type_of_name sym); [reflexivity | discriminate Ev]).
        apply lock_ff; [|apply fails_abind, fails_afail].
        repeat first [apply fails_start_loop; exact Hty | apply fails_bind_r; intros]. }
    apply vtype_eqb_eq in Ev.
    apply (lock_right (fun _ => True)); [apply lock_ret; exact I|]. intros _ _.
    apply lock_step; [apply cp_expect|]. intros _.
    apply lock_number; [apply lock_expression, Hn|]. intros from.
    apply lock_step; [apply cp_expect|]. intros _.
    apply lock_number; [apply lock_expression, Hn|]. intros to.
    apply lock_step; [apply cp_accept|]. intros st.
    assert (Hstart : forall step, lock b SLF (fun _ _ => True) (start_loop sym from to step) (aret tt)).
    { intros step. apply (lock_equiet (fun _ => True)), equiet_start_loop, Ev. }
    destruct st; [|exact (Hstart f64_one)].
    intros s0 sa0 acc0 HR0. rewrite bind_assoc. revert s0 sa0 acc0 HR0.
    apply lock_number; [apply lock_expression, Hn|]. intros step. apply Hstart.
  Qed.
End StmtLock.

(* the two dispatchers, on the token the cursor has just passed *)
Definition edispatch (f nest : nat) (rec : M unit) (t : option token) : M unit :=
  match t with
  | Some TStop => break_at_current_location
  | Some TDim => evaluate_dim_statement f nest
  | Some TPrint | Some TQuestionMark => evaluate_print_statement f nest
  | Some TInput => evaluate_input_statement f nest
  | Some TIf => evaluate_if_statement f nest rec
  | Some TGoto => evaluate_goto_statement
  | Some TGosub => evaluate_gosub_statement
  | Some TReturn => return_to_last_gosub
  | Some TEnd => program_end
  | Some TFor => evaluate_for_statement f nest
  | Some TNext => evaluate_next_statement
  | Some TRestore => reset_data_cursor
  | Some TDef => evaluate_def_statement f
  | Some TRead => evaluate_read_statement f nest
  | Some (TRemark _) => ret tt
  | Some TColon => ret tt
  | Some (TData _) => ret tt
  | Some TLet => evaluate_let_statement f nest
  | Some (TSymbol sym) => evaluate_assignment_statement f nest sym
  | Some TElse => b <- is_else_of_then_clause ;; if b then discard_remaining_tokens else fail EUnexpectedToken
  | Some _ => fail EUnexpectedToken
  | None => ret tt
  end.

Lemma evaluate_statement_body_dispatch f nest rec :
  evaluate_statement_body f nest rec =
  (tr <- get enable_tracing ;;
   (if tr then l <- get_line_number ;; match l with Some n => push_output (OTrace n) | None => ret tt end else ret tt) ;;;
   t <- next_token ;; edispatch f nest rec t).
Proof. reflexivity. Qed.

Definition adispatch (f nest : nat) (rec : MA unit) (t : option token) : MA unit :=
  match t with
  | Some TStop => aret tt
  | Some TDim => an_dim f nest
  | Some TPrint | Some TQuestionMark => an_print f nest
  | Some TInput => an_input f nest
  | Some TIf => an_if f nest rec
  | Some TGoto | Some TGosub => an_goto_or_gosub
  | Some TReturn => aret tt
  | Some TEnd => aret tt
  | Some TFor => an_for f nest
  | Some TNext => an_next
  | Some TRestore => lift reset_data_cursor
  | Some TDef => an_def f nest
  | Some TRead => an_read f nest
  | Some (TRemark _) => aret tt
  | Some TColon => aret tt
  | Some (TData _) => aret tt
  | Some TLet => an_let f nest
  | Some (TSymbol sym) => an_assignment f nest sym
  | Some _ => afail EUnexpectedToken
  | None => aret tt
  end.

Lemma an_statement_body_dispatch f nest rec :
  an_statement_body f nest rec = (t <-- lift next_token ;; adispatch f nest rec t).
Proof. reflexivity. Qed.

Definition straight_head (t : option token) : bool :=
  match t with
  | None => true
  | Some (TDim | TPrint | TQuestionMark | TFor | TRestore | TRead | TRemark _ | TColon | TData _ | TLet | TSymbol _) => true
  | Some _ => false
  end.
(* accepted by the checker => executed without a syntax error or a type mismatch, the two cursors
   together again behind it *)
Theorem lock_straight_statement {b} : forall f1 f2 n1 n2 rec arec t, (b = true -> n1 = n2) -> straight_head t = true ->
  lock b SLF (fun _ _ => True) (edispatch f1 n1 rec t) (adispatch f2 n2 arec t).
Proof.
  intros f1 f2 n1 n2 rec arec t Hn Hst.
  pose proof (fun m a => @lock_weaken b SLF unit unit SL (fun _ _ => True) (fun _ _ => True) m a SL_SLF (fun _ _ H => H)) as W.
  destruct t as [t|]; [|apply W, lock_ret; exact I].
  destruct t; try discriminate Hst; cbn [edispatch adispatch]; try (apply W, lock_ret; exact I).
  - apply W, lock_dim, Hn.
  - apply W, lock_let, Hn.
  - apply W, lock_print, Hn.
  - apply W, lock_print, Hn.
  - apply lock_for, Hn.
  - apply W, lock_read, Hn.
  - apply (lock_weaken SL eq); [exact SL_SLF | intros; exact I | apply lock_cursor, cp_reset_data].
  - apply W, lock_assignment, Hn.
Qed.

Theorem straight_statement_sound2 : forall f1 f2 nest nest2 rec arec t, straight_head t = true ->
  sound (fun _ _ => True) (edispatch f1 nest rec t) (adispatch f2 nest2 arec t).
Proof. intros f1 f2 nest nest2 rec arec t Hst. apply (@lock_sound false SLF), lock_straight_statement; [discriminate | exact Hst]. Qed.

Theorem straight_statement_sound : forall f1 f2 nest rec arec t, straight_head t = true ->
  sound (fun _ _ => True) (edispatch f1 nest rec t) (adispatch f2 nest arec t).
Proof. intros f1 f2 nest. apply straight_statement_sound2. Qed.

Section StmtLock2.
  Variables f1 f2 nest nest2 : nat.

  Lemma sound_number_expr :
    sound (fun _ _ => True) (fv <- evaluate_expression f1 nest ;; expect_number fv)
                            (a <-- analyze_expression f2 nest2 ;; check_number a).
  Proof.
    apply (@lock_sound false SL), (lock_bind K); [apply lock_expression; discriminate|]. intros v t <-.
    destruct v as [z|x]; [apply lock_ff; [apply fails_fail | apply fails_check; reflexivity] | apply lock_ret; exact I].
  Qed.

  Lemma sound_parse_lvalue :
    sound (fun lv alv => lv_sym lv = alv_sym alv) (parse_lvalue f1 nest) (an_parse_lvalue f2 nest2).
  Proof. apply (@lock_sound false SL), lock_parse_lvalue. discriminate. Qed.

  Lemma sound_for : sound (fun _ _ => True) (evaluate_for_statement f1 nest) (an_for f2 nest2).
  Proof. apply (@lock_sound false SLF), lock_for. discriminate. Qed.
End StmtLock2.

Definition stmt_ok (r : res unit * interp) : Prop :=
  match r with
  | (Ok _, s') => caps_inv s'
  | (Err e _, _) => benign e
  | _ => True
  end.

Lemma sound_stmt_ok {B} (m : M unit) (a : MA B) s sa acc y st' :
  sound (fun _ _ => True) m a -> R s sa -> a (sa, acc) = (Ok y, st') -> stmt_ok (m s).
Proof.
  intros H HR Ha. specialize (H s sa acc HR). rewrite Ha in H. destruct st' as [sa' acc']. unfold stmt_ok.
  destruct (m s) as [[u|e l|pp| |] s']; try exact I; [|exact H]. apply H.
Qed.

Corollary checked_assignment_does_not_fail_on_types : forall f1 f2 nest sym s sa acc sa' acc',
  R s sa -> an_assignment f2 nest sym (sa, acc) = (Ok tt, (sa', acc')) ->
  stmt_ok (evaluate_assignment_statement f1 nest sym s).
Proof.
  intros f1 f2 nest sym s sa acc sa' acc'. apply sound_stmt_ok, (@lock_sound false SL), lock_assignment. discriminate.
Qed.

Corollary checked_print_does_not_fail_on_types : forall f1 f2 nest s sa acc sa' acc',
  R s sa -> an_print f2 nest (sa, acc) = (Ok tt, (sa', acc')) ->
  stmt_ok (evaluate_print_statement f1 nest s).
Proof.
  intros f1 f2 nest s sa acc sa' acc'. apply sound_stmt_ok, (@lock_sound false SL), lock_print. discriminate.
Qed.
