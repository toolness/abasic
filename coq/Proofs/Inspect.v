(* C07, inspection: an immediate line of PRINT / ? statements (over
   expressions that call no user function, read no array and do not call RND),
   typed at a breakpoint, leaves the runtime part of the state alone, whether
   it succeeds or fails and however the host spreads it over calls.  With
   [continuation_reads_runtime_only] (BreakCont.v): CONT after the inspection
   continues exactly as CONT without it. *)
From Coq Require Import List NArith ZArith Bool Lia.
From Abasic Require Import Model.Bytes Model.Num Model.Token Model.State Model.Eval Model.Interp Proofs.Monad
     Proofs.StoreProofs Proofs.InputProofs Proofs.Safety Proofs.FlagsSim Proofs.ResetProofs Proofs.BreakCont
     Proofs.StmtSim Proofs.EditProbes.
Import ListNotations.
Local Open Scope nat_scope.

(* everything but the cursor, the immediate line, the output queue, the
   interpreter state flag and the hook counter *)
Definition core (s : interp) : interp :=
  set_reads 0 (set_outputs [] (set_state Idle (set_loc imm0 (set_immediate [] s)))).

Definition builtin_quiet (sym : bytes) : bool := bytes_eqb sym (bs "ABS") || bytes_eqb sym (bs "INT").

(* no name is followed by "(" unless it is ABS or INT: no array reference, no
   RND, no user function call *)
Fixpoint quiet_toks (ts : list token) : bool :=
  match ts with
  | [] => true
  | TSymbol sym :: r => (match r with TLeftParen :: _ => builtin_quiet sym | _ => true end) && quiet_toks r
  | _ :: r => quiet_toks r
  end.

Lemma quiet_nth ts : quiet_toks ts = true -> forall i sym,
  nth_error ts i = Some (TSymbol sym) -> nth_error ts (S i) = Some TLeftParen -> builtin_quiet sym = true.
Proof.
  induction ts as [|t r IH]; intros Hq i sym H1 H2; [destruct i; discriminate|].
  destruct i as [|i].
  - cbn in H1, H2. injection H1 as ->. cbn [quiet_toks] in Hq. apply andb_prop in Hq as [Hq _].
    destruct r as [|t' r']; [discriminate|]. cbn in H2. injection H2 as ->. exact Hq.
  - apply (IH ltac:(destruct t; cbn [quiet_toks] in Hq; try exact Hq; apply andb_prop in Hq; apply Hq) i sym H1 H2).
Qed.

Definition NoCall (s : interp) : Prop := loc_line (loc s) = None /\ quiet_toks (immediate s) = true.

(* what every step of an inspection line keeps, from a state where no name is followed by "(" *)
Definition Q (s s' : interp) : Prop :=
  NoCall s -> NoCall s' /\ immediate s' = immediate s /\ core s' = core s /\ state s' = state s.

Lemma Q_preorder : preorder Q.
Proof.
  split.
  - intros s H. repeat split; try apply H; auto.
  - intros a b c H1 H2 Ha. destruct (H1 Ha) as (Hb & E1 & E2 & E2'). destruct (H2 Hb) as (Hc & E3 & E4 & E4').
    repeat split; try apply Hc; congruence.
Qed.

Local Definition PO := Q_preorder.

Lemma Q_same_but s s' :
  loc_line (loc s') = loc_line (loc s) ->
  immediate s' = immediate s -> core s' = core s -> state s' = state s -> Q s s'.
Proof. intros H1 H3 H4 H5 [Ha Hb]. unfold NoCall. rewrite H1, H3. repeat split; assumption. Qed.

Ltac qleaf :=
  lazymatch goal with |- mrel _ (modify _) => idtac end;
  apply (mrel_modify Q); intros s; apply Q_same_but; destruct s as [? ? ? [? ?] ? ? ? ? ? ? ? ? ? ? ? ? ? ? ?];
  cbn; reflexivity.

Lemma Q_tokens_for_line l : mrel Q (tokens_for_line l).
Proof. apply (mrel_same _ _ PO), same_tokens_for_line. Qed.

(* Q cannot tell [modify (set_reads ..)] from [ret tt]: the walker that tries nothing up to conversion *)
Ltac qstep leaf := mstep PO leaf.
Ltac qwalk leaf := repeat (qstep leaf).

Ltac leaf1 := idtac; lazymatch goal with |- mrel _ (tokens_for_line _) => apply Q_tokens_for_line | |- mrel _ (modify _) => qleaf end.
Ltac walk1 := autounfold with prims; qwalk leaf1.

Lemma Q_peek : mrel Q peek_next_token. Proof. walk1. Qed.
Lemma Q_has_next : mrel Q has_next_token. Proof. walk1. Qed.
Lemma Q_next_token : mrel Q next_token. Proof. walk1. Qed.
Lemma Q_next_unwrapped : mrel Q next_unwrapped_token. Proof. walk1. Qed.
Lemma Q_expect t : mrel Q (expect_next_token t). Proof. walk1. Qed.
Lemma Q_accept t : mrel Q (accept_next_token t). Proof. walk1. Qed.
Lemma Q_peek_is t : mrel Q (peek_is t). Proof. walk1. Qed.
Lemma Q_try {B} (g : token -> option B) : mrel Q (try_next_token g). Proof. walk1. Qed.
Lemma Q_push_output o : mrel Q (push_output o). Proof. walk1. Qed.
Lemma Q_warn m : mrel Q (warn m). Proof. walk1. Qed.

Ltac leaf2 :=
  idtac; lazymatch goal with
  | |- mrel _ peek_next_token => apply Q_peek
  | |- mrel _ has_next_token => apply Q_has_next
  | |- mrel _ next_token => apply Q_next_token
  | |- mrel _ next_unwrapped_token => apply Q_next_unwrapped
  | |- mrel _ (expect_next_token _) => apply Q_expect
  | |- mrel _ (accept_next_token _) => apply Q_accept
  | |- mrel _ (peek_is _) => apply Q_peek_is
  | |- mrel _ (try_next_token _) => apply Q_try
  | |- mrel _ (push_output _) => apply Q_push_output
  | |- mrel _ (warn _) => apply Q_warn
  | |- mrel _ (tokens_for_line _) => apply Q_tokens_for_line
  | |- mrel _ (modify _) => qleaf
  | |- mrel _ (find_variable_value_in_stack _) => apply (mrel_same _ _ PO), same_find_var
  | |- mrel _ (variables_get _) => apply (mrel_same _ _ PO), same_variables_get
  | |- mrel _ (expect_number _) => apply (mrel_same _ _ PO), same_expect_number
  | |- mrel _ (eval_unary _ _) => apply (mrel_same _ _ PO), same_eval_unary
  | |- mrel _ (eval_addsub _ _ _) => apply (mrel_same _ _ PO), same_eval_addsub
  | |- mrel _ (eval_muldiv _ _ _) => apply (mrel_same _ _ PO), same_eval_muldiv
  | |- mrel _ (eval_eq _ _ _) => apply (mrel_same _ _ PO), same_eval_eq
  | |- mrel _ (eval_and _ _) => apply (mrel_same _ _ PO), same_eval_and
  | |- mrel _ (eval_or _ _) => apply (mrel_same _ _ PO), same_eval_or
  | |- mrel _ (eval_pow _ _) => apply (mrel_same _ _ PO), same_eval_pow
  end.
Ltac walk2 := qwalk leaf2.

Lemma has_next_imm s : loc_line (loc s) = None ->
  has_next_token s = (Ok (match nth_error (immediate s) (loc_idx (loc s)) with Some _ => true | None => false end), bump s).
Proof. intros Hl. unfold has_next_token, bind. rewrite (peek_imm s Hl). reflexivity. Qed.

Lemma peek_is_imm s e b s1 : loc_line (loc s) = None ->
  peek_is e s = (Ok b, s1) ->
  b = match nth_error (immediate s) (loc_idx (loc s)) with Some t => token_eqb t e | None => false end.
Proof. intros Hl. unfold peek_is, bind. rewrite (peek_imm s Hl). intros E. injection E as <- _. reflexivity. Qed.

Lemma next_unwrapped_imm s t s1 : loc_line (loc s) = None ->
  next_unwrapped_token s = (Ok t, s1) ->
  nth_error (immediate s) (loc_idx (loc s)) = Some t
  /\ loc s1 = mkloc None (S (loc_idx (loc s))) /\ immediate s1 = immediate s.
Proof.
  intros Hl. unfold next_unwrapped_token, bind. rewrite (next_token_imm s Hl).
  destruct (nth_error (immediate s) (loc_idx (loc s))) as [t0|]; [|discriminate].
  intros E. injection E as <- <-. repeat split.
Qed.

Lemma bind_bind_ret {A B C} (m : M A) (g : A -> B) (k : B -> M C) s :
  bind (bind m (fun x => ret (g x))) k s = bind m (fun x => k (g x)) s.
Proof. unfold bind, ret. destruct (m s) as [[a|e l|p| |] s1]; reflexivity. Qed.

Section Expr.
  Variable fuel : nat.
  Variable rec : M value.
  Hypothesis Hrec : mrel Q rec.

  Lemma Q_unary_arg : mrel Q (unary_number_function_arg rec).
  Proof. unfold unary_number_function_arg. qwalk ltac:(idtac; first [exact Hrec | leaf2]). Qed.

  (* ABS and INT evaluate their argument and answer a value: what the term
     would do had the name been no function is never reached *)
  Lemma Q_call_quiet name (K : M value) : builtin_quiet name = true ->
    mrel Q (fv <- function_call rec name ;; match fv with Some v => ret v | None => K end).
  Proof.
    assert (Hu : forall g : f64 -> f64, mrel Q (x <- unary_number_function_arg rec ;; ret (VNum (g x)))).
    { intros g. qwalk ltac:(idtac; lazymatch goal with |- mrel _ (unary_number_function_arg _) => apply Q_unary_arg | _ => leaf2 end). }
    unfold builtin_quiet, function_call. intros Hb s.
    destruct (bytes_eqb name (bs "ABS")); [|destruct (bytes_eqb name (bs "INT")); [|discriminate Hb]];
      rewrite bind_bind_ret; [exact (Hu f64_abs s) | exact (Hu f64_floor s)].
  Qed.

  (* a term: the two reads that find a name followed by "(" say where they
     stand on the line, and [quiet_toks] then names the function *)
  Lemma Q_term : mrel Q (expression_term fuel rec).
  Proof.
    intros s HN. destruct (expression_term fuel rec s) as [r s'] eqn:E. cbn [snd].
    unfold expression_term in E. unfold bind at 1 in E.
    pose proof (Q_next_unwrapped s) as H1.
    destruct (next_unwrapped_token s) as [[t|e l|p| |] s1] eqn:E1; cbn [snd] in *;
      try (injection E as <- <-; exact (H1 HN)).
    destruct (next_unwrapped_imm s t s1 (proj1 HN) E1) as (Ht & Hl1 & Hi1).
    assert (Hgo : forall s2 (m : M value), Q s s2 -> mrel Q m -> m s2 = (r, s') ->
              NoCall s' /\ immediate s' = immediate s /\ core s' = core s /\ state s' = state s).
    { intros s2 m H2 Hm Em. pose proof (po_trans _ PO _ _ _ H2 (Hm s2)) as G. rewrite Em in G. exact (G HN). }
    destruct t; try solve [refine (Hgo s1 _ H1 _ E); walk2].
    match type of E with context [function_call rec ?n] => rename n into name end.
    unfold bind at 1 in E.
    pose proof (po_trans _ PO _ _ _ H1 (Q_peek_is TLeftParen s1)) as H2.
    destruct (peek_is TLeftParen s1) as [[p|e l|p| |] s2] eqn:E2; cbn [snd] in *;
      try (injection E as <- <-; exact (H2 HN)).
    pose proof (peek_is_imm s1 _ _ _ (proj1 (proj1 (H1 HN))) E2) as Hp.
    refine (Hgo s2 _ H2 _ E). destruct p; [|walk2].
    rewrite Hl1, Hi1 in Hp. cbn [loc_idx] in Hp.
    destruct (nth_error (immediate s) (S (loc_idx (loc s)))) as [t'|] eqn:Et'; [|discriminate].
    symmetry in Hp. apply token_eqb_lparen in Hp. subst t'.
    apply Q_call_quiet, (quiet_nth _ (proj2 HN) _ _ Ht Et').
  Qed.

  Lemma Q_unary : mrel Q (unary_operator fuel rec).
  Proof.
    unfold unary_operator, parenthesized_expression.
    qwalk ltac:(idtac; lazymatch goal with |- mrel _ (expression_term _ _) => apply Q_term | |- mrel _ rec => exact Hrec | _ => leaf2 end).
  Qed.

  Lemma Q_tier {O} (g : M (option O)) (operand : M value) (ap : O -> value -> value -> M value) :
    mrel Q g -> mrel Q operand -> (forall o a b, mrel Q (ap o a b)) -> mrel Q (tier fuel g operand ap).
  Proof. intros Hg Ho Ha. unfold tier; walk2; auto. Qed.

  Lemma Q_accept_as {O} t (o : O) : mrel Q (accept_as t o).
  Proof. unfold accept_as; walk2. Qed.

  Lemma Q_logical_or : mrel Q (logical_or_expression fuel rec).
  Proof.
    apply (tiers_ind fuel rec (mrel Q));
      [intros; apply Q_tier; first [apply Q_accept_as | apply Q_try | assumption | intros; leaf2].. | exact Q_unary].
  Qed.
End Expr.

Lemma Q_evaluate_expression fuel : forall n, mrel Q (evaluate_expression fuel n).
Proof.
  induction fuel as [|k IH]; intros n; cbn [evaluate_expression].
  - apply (mrel_out_of_fuel _ PO).
  - destruct (Nat.eqb n max_nesting); [apply (mrel_fail _ PO)|].
    apply Q_logical_or; apply IH.
Qed.

Lemma Q_pbody fuel nest st : mrel Q (pbody fuel nest st).
Proof.
  destruct st as [semi text]. unfold pbody, expr.
  qwalk ltac:(idtac; lazymatch goal with |- mrel _ (evaluate_expression _ _) => apply Q_evaluate_expression | _ => leaf2 end).
Qed.

Lemma Q_print fuel nest : mrel Q (evaluate_print_statement fuel nest).
Proof.
  rewrite print_is_pbody.
  qwalk ltac:(idtac; lazymatch goal with |- mrel _ (pbody _ _ _) => apply Q_pbody | _ => leaf2 end).
Qed.

(* the tokens at which a statement of an inspection line may start *)
Definition is_head (t : token) : bool :=
  match t with TPrint | TQuestionMark | TColon | TElse => true | _ => false end.

(* token [i] starts a statement the theorem covers, or the line ends there *)
Definition safe_from (ts : list token) (i : nat) : Prop :=
  match nth_error ts i with Some t => is_head t = true | None => True end.

(* behind every ":" comes such a token, or the end of the line *)
Fixpoint heads_after (ts : list token) : bool :=
  match ts with
  | [] => true
  | TColon :: r => (match r with [] => true | t :: _ => is_head t end) && heads_after r
  | _ :: r => heads_after r
  end.

(* the inspection lines covered: PRINT / ? statements separated by ":" (an
   ELSE where a statement would start is harmless: the line is abandoned or
   fails there), over expressions without array references, RND and
   user-function calls *)
Definition insp_line (ts : list token) : bool :=
  (match ts with [] => true | t :: _ => is_head t end) && heads_after ts && quiet_toks ts.

Lemma heads_after_nth ts : heads_after ts = true -> forall i,
  nth_error ts i = Some TColon -> safe_from ts (S i).
Proof.
  induction ts as [|t r IH]; intros Hq i H1; [destruct i; discriminate|].
  destruct i as [|i].
  - cbn in H1. injection H1 as ->. cbn [heads_after] in Hq. apply andb_prop in Hq as [Hq _].
    unfold safe_from. cbn. destruct r as [|t' r']; [exact I | exact Hq].
  - assert (Hr : heads_after r = true).
    { destruct t; cbn [heads_after] in Hq; try exact Hq. apply andb_prop in Hq. apply Hq. }
    exact (IH Hr i H1).
Qed.

Lemma core_bump s : core (bump s) = core s. Proof. destruct s; reflexivity. Qed.
Lemma core_set_loc l s : core (set_loc l s) = core s. Proof. destruct s; reflexivity. Qed.
Lemma core_set_state x s : core (set_state x s) = core s. Proof. destruct s; reflexivity. Qed.
Lemma core_set_outputs x s : core (set_outputs x s) = core s. Proof. destruct s; reflexivity. Qed.
Lemma core_set_reads x s : core (set_reads x s) = core s. Proof. destruct s; reflexivity. Qed.
Lemma core_set_immediate x s : core (set_immediate x s) = core s. Proof. destruct s; reflexivity. Qed.

(* the cursor stands where PRINT's item loop stops: at the end of the line, a ":" or an ELSE *)
Definition EndPos (s : interp) : Prop :=
  match nth_error (immediate s) (loc_idx (loc s)) with
  | None | Some TColon | Some TElse => True
  | Some _ => False
  end.

Lemma EndPos_safe s : EndPos s -> safe_from (immediate s) (loc_idx (loc s)).
Proof.
  unfold EndPos, safe_from. destruct (nth_error (immediate s) (loc_idx (loc s))) as [t|]; [|trivial].
  destruct t; intros H; try contradiction; reflexivity.
Qed.

(* a loop body of this form, as [pbody] is at every token that is an item or a separator, does not end the loop *)
Lemma bind_inl {A B C} (m : M A) (k : A -> B) s (r : C) s2 : bind m (fun a => ret (inl (k a))) s <> (Ok (inr r), s2).
Proof. unfold bind, ret. destruct (m s) as [[a|e l|p| |] s1]; discriminate. Qed.

(* a PRINT statement that succeeds stops in front of ":" or ELSE, or at the end of the line *)
Lemma print_ends fuel nest s s' : NoCall s ->
  evaluate_print_statement fuel nest s = (Ok tt, s') -> EndPos s'.
Proof.
  intros HN. rewrite print_is_pbody. unfold bind.
  destruct (repeat_m fuel (pbody fuel nest) (false, []) s) as [[[semi text]|e l|p| |] s1] eqn:El; try discriminate.
  intros E. unfold push_output, modify in E. injection E as <-.
  enough (He : EndPos s1) by (unfold EndPos in *; destruct s1; exact He).
  refine (repeat_exit NoCall EndPos _ _ _ _ _ _ _ _ HN El).
  - intros acc s0 a s2 HN0 Eb. pose proof (Q_pbody fuel nest acc s0 HN0) as Hq. rewrite Eb in Hq. apply Hq.
  - (* the loop stops on what the peek saw, and the peek does not move *)
    intros [semi' text'] s0 r s2 HN0 Eb. unfold pbody, bind at 1 in Eb. rewrite (peek_imm s0 (proj1 HN0)) in Eb.
    assert (Hb : nth_error (immediate (bump s0)) (loc_idx (loc (bump s0))) = nth_error (immediate s0) (loc_idx (loc s0)))
      by (destruct s0; reflexivity).
    destruct (nth_error (immediate s0) (loc_idx (loc s0))) as [t|] eqn:Et.
    + destruct t; try (destruct (bind_inl _ _ _ _ _ Eb));
        injection Eb as _ <-; unfold EndPos; rewrite Hb; exact I.
    + injection Eb as _ <-. unfold EndPos. rewrite Hb. exact I.
Qed.

Lemma is_else_imm s : loc_line (loc s) = None ->
  is_else_of_then_clause s = (Ok (then_before (rev (firstn (Nat.pred (loc_idx (loc s))) (immediate s)))), s).
Proof.
  intros Hl. unfold is_else_of_then_clause, cur_tokens, tokens_for_line, bind, get, ret. cbn. rewrite Hl. reflexivity.
Qed.

Lemma discard_imm s : loc_line (loc s) = None ->
  discard_remaining_tokens s = (Ok tt, set_loc (mkloc None (length (immediate s))) s).
Proof.
  intros Hl. unfold discard_remaining_tokens, cur_tokens, tokens_for_line, bind, get, modify. cbn. rewrite Hl. cbn. rewrite Hl. reflexivity.
Qed.

Lemma insp_statement fuel s r s' : NoCall s -> heads_after (immediate s) = true ->
  safe_from (immediate s) (loc_idx (loc s)) ->
  evaluate_statement fuel 0 s = (r, s') ->
  NoCall s' /\ immediate s' = immediate s /\ core s' = core s /\ state s' = state s
  /\ (r = Ok tt -> safe_from (immediate s) (loc_idx (loc s'))).
Proof.
  intros HN Hh Hs E. destruct fuel as [|f].
  { cbn in E. injection E as <- <-. repeat split; try apply HN. discriminate. }
  rewrite (imm_statement f s (proj1 HN)) in E.
  pose proof (Q_next_token s HN) as Hq. rewrite (next_token_imm s (proj1 HN)) in Hq.
  unfold safe_from in Hs.
  destruct (nth_error (immediate s) (loc_idx (loc s))) as [t|] eqn:Et; cbn [snd] in Hq;
    destruct Hq as (HNa & Hia & Hca & Hsa).
  2:{ injection E as <- <-. refine (conj HNa (conj Hia (conj Hca (conj Hsa _)))).
      intros _. unfold safe_from. change (loc_idx (loc (bump s))) with (loc_idx (loc s)). rewrite Et. exact I. }
  set (sa := set_loc (mkloc None (S (loc_idx (loc s)))) (bump s)) in *.
  assert (Hla : loc_idx (loc sa) = S (loc_idx (loc s))) by reflexivity.
  assert (Hprint : evaluate_print_statement f 1 sa = (r, s') ->
            NoCall s' /\ immediate s' = immediate s /\ core s' = core s /\ state s' = state s
            /\ (r = Ok tt -> safe_from (immediate s) (loc_idx (loc s')))).
  { intros E'. pose proof (Q_print f 1 sa HNa) as Hq. rewrite E' in Hq. cbn [snd] in Hq.
    destruct Hq as (A & B & C & D). repeat split; try apply A; try congruence.
    intros ->. rewrite <- Hia, <- B. apply EndPos_safe. apply (print_ends f 1 sa s' HNa E'). }
  destruct t; try discriminate Hs; [exact (Hprint E) | | exact (Hprint E) | ].
  - injection E as <- <-. repeat split; try apply HNa; try assumption.
    intros _. rewrite Hla. apply (heads_after_nth _ Hh _ Et).
  - (* ELSE where a statement starts *)
    unfold on_token, dispatch, bind at 1 in E. rewrite (is_else_imm sa eq_refl) in E.
    destruct (then_before _).
    + rewrite (discard_imm sa eq_refl) in E. injection E as <- <-.
      repeat split; try (destruct s; apply HN); try (destruct s; reflexivity).
      intros _. unfold safe_from.
      replace (nth_error (immediate s) _) with (@None token); [exact I|].
      symmetry. apply nth_error_None. destruct s; cbn. lia.
    + injection E as <- <-. repeat split; try apply HNa; try assumption. discriminate.
Qed.

Lemma imm_reset_bp ts s : breakpoint s <> None -> imm_reset ts s = set_loc imm0 (set_immediate ts s).
Proof. intros H. unfold imm_reset. destruct (breakpoint s); [reflexivity | congruence]. Qed.

(* the line is still being executed: the cursor stands where a statement starts *)
Definition Going (ts : list token) (s : interp) : Prop :=
  state s = Running /\ NoCall s /\ immediate s = ts /\ safe_from ts (loc_idx (loc s)).

Lemma core_breakpoint s s' : core s' = core s -> breakpoint s' = breakpoint s.
Proof. intros H. exact (f_equal breakpoint H). Qed.

(* where a turn of the inspection line ends: on the next statement, or Idle with the line taken away *)
Lemma insp_end ts s :
  NoCall s -> immediate s = ts -> safe_from ts (loc_idx (loc s)) -> breakpoint s <> None -> state s = Running ->
  core (turn_end s) = core s /\ (state (turn_end s) = Idle \/ Going ts (turn_end s)).
Proof.
  intros HN Hi Hs Hbp Hst. unfold turn_end, cur_toks. rewrite (proj1 HN).
  destruct (nth_error (immediate s) (loc_idx (loc s))).
  - split; [apply core_bump|]. right. destruct s; repeat split; try assumption; apply HN.
  - split; [|left; reflexivity]. rewrite imm_reset_bp by (destruct s; exact Hbp).
    rewrite core_set_state, core_set_loc, core_set_immediate. apply core_bump.
Qed.

Lemma insp_run_next fuel ts s r s' :
  heads_after ts = true -> NoCall s -> immediate s = ts -> safe_from ts (loc_idx (loc s)) -> breakpoint s <> None ->
  run_next_statement fuel s = (r, s') ->
  core s' = core s /\ (r = Ok tt -> state s' = Idle \/ Going ts s').
Proof.
  intros Hh HN Hi Hs Hbp E. rewrite (rns_eq fuel s (imm_line_exists s (proj1 HN))), bind_run in E.
  set (sb := bump (set_state Running s)) in *.
  assert (Hb : NoCall sb /\ immediate sb = ts /\ safe_from ts (loc_idx (loc sb)) /\ core sb = core s
               /\ state sb = Running /\ breakpoint sb <> None)
    by (destruct s; repeat split; try reflexivity; try assumption; apply HN).
  destruct Hb as (HNb & Hib & Hsb & Hcb & Hstb & Hbpb).
  assert (K : forall s1, NoCall s1 -> immediate s1 = ts -> safe_from ts (loc_idx (loc s1)) -> core s1 = core s ->
            state s1 = Running -> after_statement s1 = (r, s') ->
            core s' = core s /\ (r = Ok tt -> state s' = Idle \/ Going ts s')).
  { intros s1 A B F C D E1. rewrite (after_statement_eq s1 (imm_line_exists s1 (proj1 A))) in E1. injection E1 as <- <-.
    assert (Hbp1 : breakpoint s1 <> None) by (rewrite (core_breakpoint _ _ C), <- (core_breakpoint _ _ Hcb); exact Hbpb).
    destruct (insp_end ts s1 A B F Hbp1 D) as [G1 G2]. split; [congruence | intros _; exact G2]. }
  unfold turn_statement in E. destruct (nth_error (cur_toks s) (loc_idx (loc s))) as [t|].
  - destruct (evaluate_statement fuel 0 sb) as [r1 s1] eqn:E1.
    rewrite <- Hib in Hh, Hsb.
    destruct (insp_statement fuel sb r1 s1 HNb Hh Hsb E1) as (A & B & C & D & F).
    destruct r1 as [[]|e l|p| |]; try (injection E as <- <-; split; [congruence | discriminate]).
    apply (K s1 A (eq_trans B Hib)); [rewrite <- Hib; apply F; reflexivity | congruence | congruence | exact E].
  - apply (K sb HNb Hib Hsb Hcb Hstb E).
Qed.

(* the invariant of an inspection in progress *)
Definition Mid (ts : list token) (s0 s : interp) : Prop :=
  core s = core s0 /\ outputs s = [] /\ (state s = Idle \/ Going ts s).

Lemma Going_outputs ts o s : Going ts s -> Going ts (set_outputs o s).
Proof. intros H. destruct s; exact H. Qed.
Lemma Going_reads ts n s : Going ts s -> Going ts (set_reads n s).
Proof. intros H. destruct s; exact H. Qed.

Lemma insp_post ts s0 (x : res unit * interp) :
  core (snd x) = core s0 -> (fst x = Ok tt -> state (snd x) = Idle \/ Going ts (snd x)) ->
  match pack (postprocess x) with
  | Some (r, _, s1) => is_val r -> Mid ts s0 s1
  | None => False
  end.
Proof.
  destruct x as [[[]|e l|p| |] s1]; cbn [fst snd postprocess pack]; intros Hc Hg Hv; try contradiction.
  - split; [rewrite core_set_outputs; exact Hc|]. split; [reflexivity|].
    destruct (Hg eq_refl) as [H|H]; [left; destruct s1; exact H | right; apply Going_outputs; exact H].
  - split; [rewrite core_set_outputs, core_set_state; exact Hc|]. split; [reflexivity | left; reflexivity].
Qed.

Lemma insp_start fuel text ts s0 :
  state s0 = Idle -> breakpoint s0 <> None -> imm_line text ts -> insp_line ts = true ->
  match call_obs fuel s0 (HLine text) with
  | Some (r, _, s1) => is_val r -> Mid ts s0 s1
  | None => False
  end.
Proof.
  intros Hidle Hbp (Hc & Hp & tsr & Ht & Hm) Hil.
  unfold insp_line in Hil. apply andb_prop in Hil as [Hil Hq]. apply andb_prop in Hil as [Hh0 Hh].
  rewrite (call_obs_turn fuel s0 _ _ (tf_immediate (set_reads 0 s0) text tsr Hidle Hc Hp Ht)), Hm.
  set (sA := imm_reset ts (set_reads 0 s0)).
  assert (HA : NoCall sA /\ immediate sA = ts /\ safe_from ts (loc_idx (loc sA)) /\ breakpoint sA <> None
               /\ core sA = core s0).
  { unfold sA, imm_reset, NoCall, safe_from. destruct s0 as [? ? ? ? b]; cbn in *. destruct b; [|congruence].
    repeat split; try assumption; try discriminate. destruct ts; [exact I | exact Hh0]. }
  destruct HA as (HN & Hi & Hs & Hb & HcA).
  destruct (run_next_statement fuel sA) as [r s'] eqn:E.
  destruct (insp_run_next fuel ts sA r s' Hh HN Hi Hs Hb E) as (G1 & G2).
  apply (insp_post ts s0 (r, s')); cbn [fst snd]; [congruence | exact G2].
Qed.

Lemma insp_cont fuel ts s0 s :
  heads_after ts = true -> breakpoint s0 <> None -> core s = core s0 -> Going ts s ->
  match call_obs fuel s HCont with
  | Some (r, _, s1) => is_val r -> Mid ts s0 s1
  | None => False
  end.
Proof.
  intros Hh Hbp Hc Hg. pose proof (Going_reads ts 0 s Hg) as (Hst & HN & Hi & Hs).
  rewrite (call_obs_turn fuel s HCont _ (tf_continue (set_reads 0 s) Hst)).
  assert (Hb : breakpoint (set_reads 0 s) <> None).
  { replace (breakpoint (set_reads 0 s)) with (breakpoint s) by (destruct s; reflexivity).
    rewrite (core_breakpoint _ _ Hc). exact Hbp. }
  destruct (run_next_statement fuel (set_reads 0 s)) as [r s'] eqn:E.
  destruct (insp_run_next fuel ts _ r s' Hh HN Hi Hs Hb E) as (G1 & G2).
  apply (insp_post ts s0 (r, s')); cbn [fst snd]; [|exact G2].
  rewrite G1, core_set_reads. exact Hc.
Qed.

Lemma norm_of_core s : norm s = set_outputs (outputs s) (set_state (state s) (core s)).
Proof. destruct s; reflexivity. Qed.

Fixpoint conts (k : nat) : list hostop := match k with O => [] | S k => HCont :: conts k end.

(* THE INSPECTION THEOREM.  From an idle interpreter with a breakpoint pending
   and its output taken, type an inspection line and drive it with any number
   of continue calls (each answering a value: an error ends the line): at
   every point the runtime part is the one at the breakpoint, and whenever the
   interpreter is idle again its [norm] — all that CONT and the continuation
   read — is that of the state at the breakpoint. *)
Theorem inspection_keeps_runtime fuel text ts s0 :
  state s0 = Idle -> breakpoint s0 <> None -> outputs s0 = [] ->
  imm_line text ts -> insp_line ts = true ->
  forall k, values fuel s0 (HLine text :: conts k) ->
  let s := run_state fuel s0 (HLine text :: conts k) in
  Mid ts s0 s /\ (state s = Idle -> norm s = norm s0).
Proof.
  intros Hidle Hbp Hout Him Hil k Hv.
  assert (Hh : heads_after ts = true).
  { unfold insp_line in Hil. apply andb_prop in Hil as [Hil _]. apply andb_prop in Hil as [_ Hh]. exact Hh. }
  assert (Hmid : forall k s, Mid ts s0 s -> values fuel s (conts k) -> Mid ts s0 (run_state fuel s (conts k))).
  { clear k Hv. induction k as [|k IH]; intros s Hm Hv; [exact Hm|].
    cbn [conts run_state]. cbn [conts values] in Hv. destruct Hv as [Hv1 Hv2].
    destruct Hm as (Hc & Ho & [Hst | Hg]).
    - (* idle: the call is not legal, nothing happens *)
      assert (E : step fuel s HCont = (None, s)) by (unfold step, legal; rewrite Hst; reflexivity).
      rewrite E in *. cbn [snd] in *. apply IH; [split; [exact Hc | split; [exact Ho | left; exact Hst]] | exact Hv2].
    - pose proof (insp_cont fuel ts s0 s Hh Hbp Hc Hg) as H.
      rewrite step_snd_call_obs in *. destruct (call_obs fuel s HCont) as [[[r o] s1]|]; [|contradiction].
      apply IH; [apply H; exact Hv1 | exact Hv2]. }
  cbn [run_state]. cbn [values] in Hv. destruct Hv as [Hv1 Hv2].
  pose proof (insp_start fuel text ts s0 Hidle Hbp Him Hil) as H.
  rewrite step_snd_call_obs in *. destruct (call_obs fuel s0 (HLine text)) as [[[r o] s1]|]; [|contradiction].
  pose proof (Hmid k s1 (H Hv1) Hv2) as Hm. split; [exact Hm|].
  intros Hst. destruct Hm as (Hc & Ho & _). rewrite !norm_of_core, Hc, Ho, Hst, Hout, Hidle. reflexivity.
Qed.

(* ... so CONT after the inspection is CONT without it, now and for the rest of the run *)
Corollary inspection_transparent fuel text ts s0 k ops :
  state s0 = Idle -> breakpoint s0 <> None -> outputs s0 = [] ->
  imm_line text ts -> insp_line ts = true -> values fuel s0 (HLine text :: conts k) ->
  state (run_state fuel s0 (HLine text :: conts k)) = Idle ->
  transcript fuel (run_state fuel s0 (HLine text :: conts k)) (HLine CONT :: ops) = transcript fuel s0 (HLine CONT :: ops)
  /\ run_state fuel (run_state fuel s0 (HLine text :: conts k)) (HLine CONT :: ops) = run_state fuel s0 (HLine CONT :: ops).
Proof.
  intros Hidle Hbp Hout Him Hil Hv Hst.
  destruct (inspection_keeps_runtime fuel text ts s0 Hidle Hbp Hout Him Hil k Hv) as (Hm & Hn).
  apply continuation_reads_runtime_only; [exact Hst | | exact (Hn Hst)].
  destruct Hm as (Hc & _). rewrite (core_breakpoint _ _ Hc). exact Hbp.
Qed.
