(* Proofs/ImmFrame.v — the immediate line only shrinks while statements run
   ([IM]), as an instance of the walk of Proofs/Frames.v. *)
From Coq Require Import List NArith ZArith Bool Lia.
From Abasic Require Import Model.State Model.Interp Proofs.Monad Proofs.Frames.
Import ListNotations.
Local Open Scope nat_scope.

Definition IM (s s' : interp) : Prop := length (immediate s') <= length (immediate s).

Lemma IM_preorder : preorder IM.
Proof. split; unfold IM; intros; lia. Qed.

Lemma IM_setters_ok : setters_ok IM.
Proof. split; [exact IM_preorder | intros; unfold IM; cbn; lia ..]. Qed.
#[export] Hint Resolve IM_setters_ok : frdb.

Definition imm_stmt_or_goto := fr_stmt_or_goto _ IM_setters_ok.
Definition imm_evaluate_statement := fr_evaluate_statement _ IM_setters_ok.

Lemma imm_run_next_statement fuel : mrel (IM) (run_next_statement fuel).
Proof. apply fr_run_next_statement, IM_setters_ok. Qed.
