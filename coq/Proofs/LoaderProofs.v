(* C19: the start-up loader cannot trap.  The page's loader
   (loadAndRunSourceCode) submits every line of the program file that starts
   with a digit to start_evaluating, stops at the first one the interpreter
   rejects, and then submits RUN.  start_evaluating asserts that the
   interpreter is Idle, so a line that starts with a digit must never leave it
   Running or waiting for input.  Such a line is not a command; it either has a
   line number (an edit: the interpreter stays Idle, or the tokenizer rejects
   it) or, with a digit run beyond u64, it is an immediate line whose first
   token is a number, which no statement starts with: an error. *)
From Coq Require Import List NArith ZArith Bool Lia.
From Abasic Require Import Model.Bytes Model.Num Model.Token Model.Lexer Gen.Tables
     Model.State Model.Interp Model.Analyzer Model.Web
     Proofs.Monad Proofs.StoreProofs Proofs.ResetProofs Proofs.Safety Proofs.InputProofs Proofs.LexerRanges
     Proofs.WebProofs.
Import ListNotations.
Local Open Scope nat_scope.

Lemma digit_range b : is_digit b = true -> (48 <= b <= 57)%N.
Proof. unfold is_digit. rewrite andb_true_iff, !N.leb_le. tauto. Qed.

Lemma ascii_ws_le_32 b : is_ascii_ws b = true -> (b <= 32)%N.
Proof.
  unfold is_ascii_ws. intros H. repeat (apply orb_prop in H as [H|H]); apply N.eqb_eq in H; subst b; discriminate.
Qed.

Lemma digit_not_ascii_ws b : is_digit b = true -> is_ascii_ws b = false.
Proof.
  intros H. apply digit_range in H. destruct (is_ascii_ws b) eqn:E; [|reflexivity].
  apply ascii_ws_le_32 in E. lia.
Qed.

Lemma digit_not_basic_ws b : is_digit b = true -> is_basic_ws b = false.
Proof. intros H. unfold is_basic_ws. rewrite (digit_not_ascii_ws b H). reflexivity. Qed.

Lemma digit_to_upper b : is_digit b = true -> to_upper b = b.
Proof.
  intros H. apply digit_range in H. unfold to_upper, is_lower.
  destruct (N.leb_spec 97 b); [lia|]. reflexivity.
Qed.

Lemma digit_not_command b t : is_digit b = true -> command_of (b :: t) = None.
Proof.
  intros Hd. unfold command_of, first_word. cbn [skip_ascii_ws]. rewrite (digit_not_ascii_ws b Hd).
  cbn [skipn take_word]. rewrite (digit_not_ascii_ws b Hd).
  set (w := take_word t).
  unfold utf8_chars. cbn [length utf8_chars_fuel].
  assert (Hlen : utf8_len b = 1).
  { unfold utf8_len. apply digit_range in Hd. destruct (N.ltb_spec b 192); [reflexivity|lia]. }
  rewrite Hlen. cbn [firstn skipn upper_word].
  destruct (upper_word (utf8_chars_fuel (length w) w)) as [u|]; [|reflexivity].
  rewrite (digit_to_upper b Hd).
  assert (Hne : forall c cs, (65 <= c)%N -> bytes_eqb (b :: u) (c :: cs) = false).
  { intros c cs Hc. destruct (bytes_eqb (b :: u) (c :: cs)) eqn:E; [|reflexivity].
    apply bytes_eqb_eq in E. inversion E; subst. apply digit_range in Hd. lia. }
  repeat (match goal with
          | |- context [bytes_eqb (b :: u) (bs ?str)] =>
              let v := eval vm_compute in (bs str) in change (bs str) with v
          end).
  rewrite !Hne by lia. reflexivity.
Qed.

Lemma keywords_start_nondigit :
  forallb (fun kt => match fst kt with [] => true | k :: _ => negb (is_digit k) end) keywords = true.
Proof. vm_compute. reflexivity. Qed.

Lemma punct_nondigit : forallb (fun ct => negb (is_digit (fst ct))) punct = true.
Proof. vm_compute. reflexivity. Qed.

Lemma digit_no_keyword b t : is_digit b = true -> chomp_any_keyword (b :: t) = None.
Proof.
  intros Hd. unfold chomp_any_keyword. pose proof keywords_start_nondigit as H.
  induction keywords as [|[kw tok] tbl IH]; cbn [first_keyword]; [reflexivity|].
  cbn [forallb fst] in H. apply andb_true_iff in H. destruct H as [H1 H2].
  rewrite (IH H2). destruct kw as [|k kw']; [reflexivity|].
  unfold chomp_keyword. cbn [chomp_keyword_from]. rewrite (digit_not_basic_ws b Hd), (digit_to_upper b Hd).
  destruct (N.eqb_spec b k) as [->|]; [|reflexivity].
  rewrite Hd in H1. discriminate.
Qed.

Lemma digit_no_punct b t : is_digit b = true -> chomp_one_or_two (b :: t) = None.
Proof.
  intros Hd. unfold chomp_one_or_two. cbn [crunch_next]. rewrite (digit_not_basic_ws b Hd).
  assert (H : lookup_punct punct b = None).
  { pose proof punct_nondigit as H. induction punct as [|[c tok] tbl IH]; cbn [lookup_punct]; [reflexivity|].
    cbn [forallb fst] in H. apply andb_true_iff in H. destruct H as [H1 H2].
    destruct (N.eqb_spec c b) as [->|]; [rewrite Hd in H1; discriminate | apply IH, H2]. }
  rewrite H. reflexivity.
Qed.

Lemma number_span_last s : forall k d last, last <= snd (number_span s k d last) \/ True.
Proof. intros; right; exact I. Qed.

Lemma number_span_mono s : forall k d last, last <= k -> last <= snd (number_span s k d last).
Proof.
  induction s as [|c s IH]; intros k d last Hk; cbn [number_span]; [apply le_n|].
  destruct (is_basic_ws c); [apply IH; lia|].
  destruct (is_digit c || (c =? 46)%N); [|apply le_n].
  eapply Nat.le_trans; [|apply IH; apply le_n]. lia.
Qed.

Lemma digit_chomp_number pos b t : is_digit b = true ->
  (exists x n, chomp_number pos (b :: t) = Match (TNumber x) n) \/ (exists e, chomp_number pos (b :: t) = Fail e).
Proof.
  intros Hd. unfold chomp_number. cbn [number_span]. rewrite (digit_not_basic_ws b Hd), Hd. cbn [orb].
  pose proof (number_span_mono t 1 ([] ++ [b]) 1 (le_n _)) as Hm.
  destruct (number_span t 1 ([] ++ [b]) 1) as [digits n]. cbn [snd] in Hm.
  destruct n as [|n]; [lia|].
  destruct (parse_f64 digits) as [x|]; [|right; eexists; reflexivity].
  destruct (f64_is_finite x); [left; eexists _, _; reflexivity | right; eexists; reflexivity].
Qed.

Lemma digit_first_token pos b t : is_digit b = true ->
  (exists x n, chomp_next_token pos (b :: t) = Match (TNumber x) n) \/ (exists e, chomp_next_token pos (b :: t) = Fail e).
Proof.
  intros Hd. unfold chomp_next_token. rewrite (digit_no_keyword b t Hd), (digit_no_punct b t Hd).
  assert (Hs : chomp_string pos (b :: t) = NoMatch).
  { unfold chomp_string. apply digit_range in Hd.
    destruct b as [|p]; [reflexivity|].
    (* only byte 34, the quote, opens a string; the match on the literal is a
       match on its six bits *)
    do 6 (destruct p as [p|p|]; try reflexivity); lia. }
  rewrite Hs. destruct (digit_chomp_number pos b t Hd) as [(x & n & ->)|(e & ->)]; [left|right]; eauto.
Qed.

Lemma digit_tokenize b t : is_digit b = true ->
  match tokenize (b :: t) 0 with
  | TokOk ts => exists x r rest, ts = (TNumber x, r) :: rest
  | TokErr _ _ => True
  end.
Proof.
  intros Hd. rewrite tokenize_tok_from. cbn [skipn length tok_from leading_ws].
  rewrite (digit_not_basic_ws b Hd). cbn [skipn].
  destruct (digit_first_token (0 + 0) b t Hd) as [(x & n & E)|(e & E)]; rewrite E; [|exact I].
  match goal with |- context [prepend _ ?X] => destruct X as [ts|ts e] end; cbn [prepend app]; [|exact I].
  eexists _, _, _. reflexivity.
Qed.

Lemma number_statement_fails fuel x toks s :
  loc s = imm0 -> immediate s = TNumber x :: toks ->
  match fst (run_next_statement fuel s) with Ok _ => False | _ => True end.
Proof.
  intros Hl Hi. assert (Hn : loc_line (loc s) = None) by (rewrite Hl; reflexivity).
  rewrite (rns_eq fuel s (imm_line_exists s Hn)). unfold turn_statement, cur_toks. rewrite Hl. cbn [loc_line loc_idx imm0].
  rewrite Hi. cbn [nth_error]. destruct fuel as [|f]; [reflexivity|].
  (* the statement evaluator reads the number and knows no statement that starts with one *)
  set (s1 := bump (set_state Running s)).
  rewrite bind_run, (statement_eq f 0 s1 (imm_line_exists s1 Hn) eq_refl), (traced_imm s1 Hn).
  unfold cur_toks. change (loc s1) with (loc s). change (immediate s1) with (immediate s). rewrite Hl.
  cbn [loc_line loc_idx imm0]. rewrite Hi. reflexivity.
Qed.

Lemma digit_line_rejected fuel b t s :
  is_digit b = true -> parse_line_number (b :: t) = None -> state s = Idle ->
  match fst (evaluate_impl fuel (b :: t) s) with Ok _ => False | _ => True end.
Proof.
  intros Hd Hp Hidle. pose proof (digit_not_command b t Hd) as Hc.
  apply (evaluate_impl_idle (fun x => match fst x with Ok _ => False | _ => True end) fuel (b :: t) s Hidle).
  - intros c E. congruence.
  - intros n ts E. unfold edit_of in E. rewrite Hc, Hp in E. discriminate.
  - intros ts _ _ Et. pose proof (digit_tokenize b t Hd) as Ht. rewrite Et in Ht.
    destruct Ht as (x & r & rest & ->).
    apply (number_statement_fails fuel x (map fst rest)); reflexivity.
  - intros; exact I.
Qed.

Lemma start_numbered_idle fuel line s n e :
  state s = Idle -> command_of line = None -> parse_line_number line = Some (n, e) ->
  forall u s1, start_evaluating fuel line s = (Ok u, s1) -> state s1 = Idle.
Proof.
  intros Hidle Hc Hp u s1 E. destruct (tokenize line e) as [ts|ts err] eqn:Et.
  - pose proof (edit_invalidates fuel line s n (map fst ts) Hidle) as H.
    unfold edit_of in H. rewrite Hc, Hp, Et, E in H. apply (H eq_refl).
  - destruct (rejected_edit_state fuel line s Hidle) as [e0 He]; [|rewrite He in E; discriminate].
    split; [exact Hc|]. exists ts, err. rewrite Hp. exact Et.
Qed.

Lemma loader_start fuel line j :
  JInv j -> latest_error j = None -> state (core j) = Idle -> starts_with_digit line = true ->
  match js_start_evaluating fuel line j with
  | JOk _ j' => JInv j' /\ (latest_error j' <> None \/ (state (core j') = Idle /\ latest_error j' = None))
  | JTrap => False
  | JStuck => True
  end.
Proof.
  intros Hinv Hnone Hidle Hd.
  pose proof (js_start_safe fuel line j Hinv Hnone Hidle) as Hs.
  destruct line as [|b t]; [discriminate|]. cbn [starts_with_digit] in Hd.
  unfold js_start_evaluating in *. rewrite Hnone in *.
  destruct (start_evaluating fuel (b :: t) (core j)) as [[u|e l|p| |] s1] eqn:Es; try exact Hs.
  - split; [exact Hs|]. right. cbn [core latest_error]. split; [|reflexivity].
    assert (Hs1 : state s1 = Idle).
    { destruct (parse_line_number (b :: t)) as [[n e]|] eqn:Ep.
      - apply (start_numbered_idle fuel (b :: t) (core j) n e Hidle (digit_not_command b t Hd) Ep u s1 Es).
      - exfalso. pose proof (digit_line_rejected fuel b t (core j) Hd Ep Hidle) as Hr.
        unfold start_evaluating in Es.
        destruct (evaluate_impl fuel (b :: t) (core j)) as [[u'|e' l'|p'| |] s'];
          cbn [postprocess fst] in *; try discriminate; contradiction. }
    unfold maybe_replace. rewrite Hs1. exact Hs1.
  - destruct (render_caret _ _ _ _) as [ls|e0 l0|p0| |]; try exact Hs.
    split; [exact Hs|]. left. cbn [latest_error]. discriminate.
Qed.

Lemma load_lines_safe fuel : forall lines j log,
  JInv j -> latest_error j = None -> state (core j) = Idle ->
  match load_lines fuel lines j log with
  | (JOk _ j', _, true) => JInv j' /\ latest_error j' = None /\ state (core j') = Idle
  | (JOk _ j', _, false) => JInv j'
  | (JTrap, _, _) => False
  | (JStuck, _, _) => True
  end.
Proof.
  induction lines as [|l r IH]; intros j log Hinv Hnone Hidle; cbn [load_lines].
  - split; [exact Hinv | split; assumption].
  - destruct (js_blank l || negb (starts_with_digit l)) eqn:Eb; [apply IH; assumption|].
    apply orb_false_iff in Eb. destruct Eb as [_ Eb]. apply negb_false_iff in Eb.
    pose proof (loader_start fuel l j Hinv Hnone Hidle Eb) as Hs.
    destruct (js_start_evaluating fuel l j) as [u j1| |]; [|contradiction|exact I].
    destruct Hs as [Hinv1 Hcase].
    unfold js_get_state.
    destruct Hcase as [Herr|[Hi Hn]].
    + destruct (latest_error j1); [exact Hinv1|congruence].
    + rewrite Hn, Hi. apply IH; assumption.
Qed.

Theorem page_load_safe fuel p text :
  JInv (impl p) -> started p = false -> latest_error (impl p) = None -> state (core (impl p)) = Idle ->
  safe (page_step fuel p (EvLoad text)).
Proof.
  intros Hinv Hns Hnone Hidle. cbn [page_step]. rewrite Hns.
  pose proof (load_lines_safe fuel (split_lines text) (impl p) [] Hinv Hnone Hidle) as Hl.
  destruct (load_lines fuel (split_lines text) (impl p) []) as [[[u j| |] log] [|]]; try exact Hl; try exact I.
  destruct Hl as (Hinv1 & Hn1 & Hi1).
  pose proof (js_start_safe fuel (bs "RUN") j Hinv1 Hn1 Hi1) as Hs.
  destruct (js_start_evaluating fuel (bs "RUN") j) as [u1 j1| |]; [exact Hs | contradiction | exact I].
Qed.

(* the page's protocol: the program file is loaded once, before anything else *)
Theorem page_session_safe fuel oracle text evs :
  Forall (fun ev => match ev with EvLoad _ => False | _ => True end) evs ->
  safe (page_run fuel (page_new oracle) (EvLoad text :: evs)).
Proof.
  intros Hevs. cbn [page_run].
  pose proof (page_load_safe fuel (page_new oracle) text (JInv_new oracle) eq_refl eq_refl eq_refl) as Hl.
  destruct (page_step fuel (page_new oracle) (EvLoad text)) as [p' log|log|log|]; try exact Hl.
  apply page_run_safe; assumption.
Qed.
