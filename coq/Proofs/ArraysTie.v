(* C16 / C01: DimArray::new and DimArray::get_linear_index as TRANSLATED from
   arrays.rs on this run (Gen/ArraysRs.v, usize arithmetic with overflow =
   panic) are the model's array_create_value / linear_index, and on every array
   DimArray::new can build the unchecked `+=` / `*=` of get_linear_index never
   overflow.  Last, the order in which the model tests its caps
   (model_cap_order, for Gen/ProgramEvents.v). *)
From Coq Require Import List NArith ZArith Bool String Lia.
From Abasic Require Import Model.Bytes Model.Num Model.RustInt Gen.Tables Gen.ArraysRs Model.State Proofs.Caps.
Import ListNotations.
Open Scope N_scope.

Lemma u64_chk_spec x : u64_chk x = if USIZE_MAX <? x then None else Some x.
Proof.
  unfold u64_chk, U64_LIMIT, USIZE_MAX.
  destruct (N.ltb_spec x (2 ^ 64)) as [H|H]; destruct (N.ltb_spec 18446744073709551615 x) as [H'|H']; try reflexivity;
    exfalso; change (2 ^ 64) with 18446744073709551616 in H; lia.
Qed.

Lemma rs_new_loop_spec : forall mi t ds,
  rs_dimarray_new_loop mi t ds =
  if existsb (fun m => USIZE_MAX <? m + 1) mi then UErr "ArrayTooLarge"
  else match checked_product (dim_sizes mi) t with
       | None => UErr "ArrayTooLarge"
       | Some total => UOk (total, ds ++ dim_sizes mi)
       end.
Proof.
  induction mi as [|m r IH]; intros t ds.
  { cbn. rewrite app_nil_r. reflexivity. }
  cbn [rs_dimarray_new_loop existsb dim_sizes map checked_product]. rewrite !u64_chk_spec.
  destruct (USIZE_MAX <? m + 1); cbn [orb]; [reflexivity|].
  rewrite u64_chk_spec.
  destruct (USIZE_MAX <? t * (m + 1)).
  (* the loop tests `m + 1` and the running product in turn, the right-hand
     side all the `m + 1` first: here the product fails before the rest of the
     list is looked at, and the two sides agree only because both failures are
     the same error *)
  { destruct (existsb _ r); reflexivity. }
  rewrite IH. fold (dim_sizes r). rewrite <- app_assoc. reflexivity.
Qed.

(* how a translated outcome reads as a model result ([UPanic], which the model
   does not have, goes to an arbitrary panic and is shown never to arise) *)
Definition rs_new_to_res (name : bytes) (r : rs_res (list N * N)) : res arr :=
  match r with
  | UPanic => Panic PCellIndex
  | UErr e => if String.eqb e "BadSubscript" then Err EBadSubscript None else Err EArrayTooLarge None
  | UOk (dims, total) =>
      let str := ends_with_dollar name in
      Ok (mkarr str dims (repeat (if str then VStr [] else VNum f64_zero) (N.to_nat total)))
  end.

Theorem rs_dimarray_new_is_model : forall name mi,
  rs_dimarray_new mi <> UPanic /\ array_create_value name mi = rs_new_to_res name (rs_dimarray_new mi).
Proof.
  intros name mi. unfold rs_dimarray_new, array_create_value.
  destruct mi as [|m r]; [split; [discriminate|reflexivity]|].
  change (N.of_nat (List.length (m :: r)) =? 0) with false. cbv iota.
  rewrite rs_new_loop_spec. cbn [app].
  destruct (existsb _ (m :: r)); [split; [discriminate|reflexivity]|].
  destruct (checked_product (dim_sizes (m :: r)) 1) as [total|]; [|split; [discriminate|reflexivity]].
  unfold max_dim_total.
  destruct (MAX_DIM_TOTAL_ELEMENTS <? total); split; try discriminate; reflexivity.
Qed.

Definition shape_ok (dims : list N) : Prop :=
  Forall (fun d => 1 <= d) dims /\ dims_product dims <= MAX_DIM_TOTAL_ELEMENTS.

Theorem created_shape_ok : forall name mi a,
  array_create_value name mi = Ok a -> shape_ok (ar_dims a) /\ ar_dims a = dim_sizes mi.
Proof.
  intros name mi a H. unfold array_create_value in H.
  destruct mi as [|m r]; [discriminate|].
  destruct (existsb _ (m :: r)); [discriminate|].
  pose proof (checked_product_spec _ (dim_sizes_pos (m :: r)) 1) as Hcp.
  destruct (checked_product (dim_sizes (m :: r)) 1) as [total|]; [|discriminate].
  unfold max_dim_total in H.
  destruct (N.ltb_spec MAX_DIM_TOTAL_ELEMENTS total) as [Hlt|Hle]; [discriminate|].
  injection H as <-. cbn [ar_dims]. split; [|reflexivity].
  split; [exact (dim_sizes_pos (m :: r))|]. rewrite Hcp, N.mul_1_l in Hle. exact Hle.
Qed.

Lemma MAX_DIM_small : MAX_DIM_TOTAL_ELEMENTS < U64_LIMIT.
Proof. vm_compute. reflexivity. Qed.

(* the loop invariant: the index so far is below the stride, and the stride
   times what is left of the dimensions fits in a u64 *)
Lemma rs_gli_loop_spec : forall indices dims acc stride,
  Forall (fun d => 1 <= d) dims -> acc < stride -> stride * dims_product dims < U64_LIMIT ->
  match linear_index indices dims acc stride with
  | None => rs_dimarray_get_linear_index_loop indices dims acc stride = UErr "BadSubscript"
  | Some i => exists st, rs_dimarray_get_linear_index_loop indices dims acc stride = UOk (i, st)
  end.
Proof.
  induction indices as [|i ir IH]; intros dims acc stride Hpos Hacc Hbound.
  { cbn. eexists; reflexivity. }
  destruct dims as [|d dr]; [cbn; eexists; reflexivity|].
  cbn [linear_index rs_dimarray_get_linear_index_loop].
  destruct (N.leb_spec d i) as [Hle|Hlt]; [reflexivity|].
  inversion Hpos as [|? ? Hd Hdr]; subst.
  pose proof (dims_product_pos dr Hdr) as Hp.
  cbn [dims_product fold_right] in Hbound. fold (dims_product dr) in Hbound.
  assert (Hsd : stride * d <= stride * (d * dims_product dr)) by nia.
  assert (Hnew : acc + i * stride < stride * d) by nia.
  cbn [u64_mul u64_add]. unfold u64_chk.
  assert (E1 : i * stride <? U64_LIMIT = true) by (apply N.ltb_lt; nia). rewrite E1.
  assert (E2 : acc + i * stride <? U64_LIMIT = true) by (apply N.ltb_lt; nia). rewrite E2.
  assert (E3 : stride * d <? U64_LIMIT = true) by (apply N.ltb_lt; nia). rewrite E3.
  apply IH; [exact Hdr|exact Hnew|]. rewrite <- N.mul_assoc. exact Hbound.
Qed.

(* every error name is read as BAD SUBSCRIPT here: that the code returns no
   other is the second clause of [rs_get_linear_index_is_model] *)
Definition rs_index_to_res (r : rs_res N) : res N :=
  match r with
  | UPanic => Panic PCellIndex
  | UErr _ => Err EBadSubscript None
  | UOk i => Ok i
  end.

Theorem rs_get_linear_index_is_model : forall a indices, shape_ok (ar_dims a) ->
  rs_dimarray_get_linear_index (ar_dims a) indices <> UPanic /\
  (forall e, rs_dimarray_get_linear_index (ar_dims a) indices = UErr e -> e = "BadSubscript"%string) /\
  array_linear_index a indices = rs_index_to_res (rs_dimarray_get_linear_index (ar_dims a) indices).
Proof.
  intros a indices [Hpos Hcap]. unfold rs_dimarray_get_linear_index, array_linear_index.
  assert (E : (N.of_nat (List.length indices) =? N.of_nat (List.length (ar_dims a))) = Nat.eqb (List.length indices) (List.length (ar_dims a))).
  { destruct (Nat.eqb_spec (List.length indices) (List.length (ar_dims a))) as [->|Hne]; [apply N.eqb_refl|].
    apply N.eqb_neq. lia. }
  rewrite E. destruct (Nat.eqb (List.length indices) (List.length (ar_dims a))); cbn [negb].
  2:{ repeat split; try discriminate. intros e He; injection He as <-; reflexivity. }
  pose proof (rs_gli_loop_spec indices (ar_dims a) 0 1 Hpos ltac:(lia)
                ltac:(pose proof MAX_DIM_small; lia)) as H.
  destruct (linear_index indices (ar_dims a) 0 1) as [i|].
  - destruct H as [st ->]. repeat split; discriminate.
  - rewrite H. repeat split; try discriminate. intros e He; injection He as <-; reflexivity.
Qed.

(* the index it returns is inside the cells: `self.values[linear_index]` in
   DimArray::get / set cannot be out of bounds on such an array *)
Lemma linear_index_bound : forall indices dims acc stride i,
  List.length indices = List.length dims -> acc < stride ->
  linear_index indices dims acc stride = Some i -> i < stride * dims_product dims.
Proof. exact linear_index_lt. Qed.

Theorem rs_index_in_cells : forall a indices i, shape_ok (ar_dims a) ->
  N.of_nat (List.length (ar_cells a)) = dims_product (ar_dims a) ->
  rs_dimarray_get_linear_index (ar_dims a) indices = UOk i -> i < N.of_nat (List.length (ar_cells a)).
Proof.
  intros a indices i Hs Hcells H.
  destruct (rs_get_linear_index_is_model a indices Hs) as (_ & _ & E). rewrite H in E. cbn in E.
  unfold array_linear_index in E. destruct Hs as [Hpos _].
  destruct (Nat.eqb_spec (List.length indices) (List.length (ar_dims a))) as [Hl|Hl]; cbn [negb] in E; [|discriminate].
  destruct (linear_index indices (ar_dims a) 0 1) as [j|] eqn:Ej; [|discriminate]. injection E as ->.
  apply linear_index_bound in Ej; [|exact Hl|lia]. rewrite Hcells. lia.
Qed.

(* [caps_inv] (Proofs/Caps.v) holds at every turn boundary of every session
   (C16_inv); it gives every stored array a shape DimArray::new can build *)
Lemma caps_inv_shape : forall s name a, caps_inv s -> In (name, a) (arrays s) ->
  shape_ok (ar_dims a) /\ N.of_nat (List.length (ar_cells a)) = dims_product (ar_dims a).
Proof.
  intros s name a (_ & _ & _ & _ & _ & Har) Hin.
  destruct (Har _ _ Hin) as ((_ & Hpos) & Hlen & Hcap & _).
  split; [|exact Hlen]. split; [exact Hpos|]. unfold dims_product. rewrite <- Hlen. exact Hcap.
Qed.

Theorem rs_index_safe_in_every_state : forall s name a indices, caps_inv s -> In (name, a) (arrays s) ->
  rs_dimarray_get_linear_index (ar_dims a) indices <> UPanic /\
  array_linear_index a indices = rs_index_to_res (rs_dimarray_get_linear_index (ar_dims a) indices) /\
  forall i, rs_dimarray_get_linear_index (ar_dims a) indices = UOk i -> i < N.of_nat (List.length (ar_cells a)).
Proof.
  intros s name a indices Hinv Hin. destruct (caps_inv_shape s name a Hinv Hin) as [Hs Hc].
  destruct (rs_get_linear_index_is_model a indices Hs) as (H1 & _ & H3).
  split; [exact H1|]. split; [exact H3|]. intros i Hi. exact (rs_index_in_cells a indices i Hs Hc Hi).
Qed.

(* when the caps are tested: the model side of Gen/ProgramEvents.v *)

Theorem model_cap_order : forall sym a b c n name bs s,
  (forall u s1, remove_loop_with_name sym s = (Ok u, s1) -> List.length (loops s1) = stack_limit ->
     start_loop sym a b c s = (Err EStackOverflow None, s1)) /\
  (List.length (stack s) = stack_limit -> gosub_line_number n s = (Err EStackOverflow None, s)) /\
  (List.length (stack s) = stack_limit -> push_function_call name bs s = (Err EStackOverflow None, s)).
Proof.
  intros sym a b c n name bs s. split; [|split].
  - intros u s1 H1 H2. rewrite remove_loop_eq in H1. injection H1 as _ <-.
    rewrite start_loop_eq. cbv zeta. rewrite H2, Nat.eqb_refl. reflexivity.
  - apply gosub_overflow.
  - apply push_function_call_overflow.
Qed.
