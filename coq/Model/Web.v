(* Model/Web.v — the Web adapter (abasic-web/src/lib.rs: JsInterpreter) and the
   page's script (abasic-web/ts/main.ts: class Interpreter and the two DOM
   event handlers), as far as they decide WHICH adapter call is made WHEN.
   The adapter's asserts, the `panic!` arm of get_state and every core panic
   are [JTrap]; a JavaScript `throw` of the page script is [PThrow].
   The call skeleton of the page script is regenerated from main.ts into
   Gen/Tables.v (page_skeleton, page_handlers); Properties/C19.v (C19_skeleton)
   holds it against the skeleton this transliteration was made from. *)
From Coq Require Import List NArith ZArith Bool.
From Abasic Require Import Model.Bytes Model.Num Model.Token Model.Data Model.Lexer Gen.Tables
     Model.State Model.Eval Model.Interp Model.Analyzer.
Import ListNotations.
Local Open Scope nat_scope.

Record js := mkjs { core : interp; latest_error : option bytes }.

Definition js_new (oracle : list (Z * Z * Z)) : js := mkjs (fresh oracle) None.

(* [JStuck]: the core model ran out of fuel / missed a pow oracle entry (model
   artefacts, never produced by the implementation) *)
Inductive jres (A : Type) := JOk (a : A) (j : js) | JTrap | JStuck.
Arguments JOk {A}. Arguments JTrap {A}. Arguments JStuck {A}.

(* maybe_replace_interpreter *)
Definition maybe_replace (s : interp) : interp :=
  match state s with NewInterpreterRequested => fresh (pow_oracle s) | _ => s end.

Definition nl : N := 10%N.

(* start_evaluating: error text, the source line and the caret *)
Definition js_start_evaluating (fuel : nat) (line : bytes) (j : js) : jres unit :=
  match latest_error j with
  | Some _ => JTrap                                         (* assert!(self.latest_error.is_none()) *)
  | None =>
      match start_evaluating fuel line (core j) with
      | (Ok _, s) => JOk tt (mkjs (maybe_replace s) None)
      | (Err e l, s) =>
          match render_caret e l (Some line) s with
          | Ok ls => JOk tt (mkjs s (Some (join [nl] (display_error e l :: ls))))
          | _ => JTrap
          end
      | (Panic _, s) => JTrap                                (* core assert / panic *)
      | (_, s) => JStuck
      end
  end.

(* continue_evaluating: error text, the program line and the caret *)
Definition js_continue_evaluating (fuel : nat) (j : js) : jres unit :=
  match latest_error j with
  | Some _ => JTrap
  | None =>
      match continue_evaluating fuel (core j) with
      | (Ok _, s) => JOk tt (mkjs (maybe_replace s) None)
      | (Err e l, s) =>
          match render_caret e l None s with
          | Ok ls => JOk tt (mkjs s (Some (join [nl] (display_error e l :: ls))))
          | _ => JTrap
          end
      | (Panic _, s) => JTrap
      | (_, s) => JStuck
      end
  end.

Definition js_provide_input (text : bytes) (j : js) : jres unit :=
  match provide_input text (core j) with
  | (Ok _, s) => JOk tt (mkjs s (latest_error j))
  | _ => JTrap
  end.

Definition js_break (j : js) : jres unit :=
  match host_break (core j) with
  | (Ok _, s) => JOk tt (mkjs s (latest_error j))
  | _ => JTrap
  end.

Inductive jstate := JIdle | JRunning | JAwaitingInput | JErrored.

Definition js_get_state (j : js) : jres jstate :=
  match latest_error j with
  | Some _ => JOk JErrored j
  | None =>
      match state (core j) with
      | Idle => JOk JIdle j
      | Running => JOk JRunning j
      | AwaitingInput => JOk JAwaitingInput j
      | NewInterpreterRequested => JTrap                     (* panic!("... never be in this state") *)
      end
  end.

(* take_latest_output: type and text (Display) of every record *)
Definition out_type (o : output) : bytes :=
  match o with
  | OPrint _ => bs "Print" | OBreak _ => bs "Break" | OWarning _ _ => bs "Warning"
  | OTrace _ => bs "Trace" | OExtraIgnored => bs "ExtraIgnored" | OReenter => bs "Reenter"
  end.

Definition js_take_output (j : js) : list (bytes * bytes) * js :=
  (map (fun o => (out_type o, display_output o)) (outputs (core j)),
   mkjs (set_outputs [] (core j)) (latest_error j)).

Definition js_take_error (j : js) : option bytes * js := (latest_error j, mkjs (core j) None).

(* ------------------------------------------------------------------ *)
(* the page *)

Record page := mkpage {
  impl : js; fully_interactive : bool; input_enabled : bool; pending_ticks : nat; started : bool }.

Definition page_new (oracle : list (Z * Z * Z)) : page := mkpage (js_new oracle) true true 0 false.

Inductive event := EvLoad (text : bytes) | EvStart | EvSubmit (text : bytes) | EvBreakKey | EvTick.

Inductive pres := POk (p : page) (log : list bytes) | PThrow (log : list bytes) | PTrap (log : list bytes)
                | PStuck.

Definition state_name (s : jstate) : bytes :=
  bs match s with JIdle => "Idle" | JRunning => "Running" | JAwaitingInput => "AwaitingInput" | JErrored => "Errored" end.

Definition log_out (outs : list (bytes * bytes)) : bytes :=
  bs "out=[" ++ join [44%N] (map (fun o => fst o ++ [58%N] ++ esc (snd o)) outs) ++ bs "]".

(* handleCurrentState; the Errored arm calls itself once more (the error was
   just taken, so the state is no longer Errored): [k] bounds that recursion *)
Fixpoint handle_current_state (fuel : nat) (k : nat) (p : page) (log : list bytes) : pres :=
  match k with
  | O => PThrow log
  | S k' =>
      let '(outs, j1) := js_take_output (impl p) in               (* showOutput *)
      let log := log ++ [log_out outs] in
      match js_get_state j1 with
      | JTrap => PTrap log
      | JStuck => PStuck
      | JOk st j2 =>
          let log := log ++ [bs "state=" ++ state_name st] in
          let p2 := mkpage j2 (fully_interactive p) (input_enabled p) (pending_ticks p) (started p) in
          match st with
          | JIdle =>
              if negb (fully_interactive p)
              then POk (mkpage j2 (fully_interactive p) false (pending_ticks p) (started p)) (log ++ [bs "input-disabled"])
              else POk p2 (log ++ [bs "prompt ]"])
          | JAwaitingInput => POk p2 (log ++ [bs "prompt ?"])
          | JErrored =>
              let '(err, j3) := js_take_error j2 in
              match err with
              | None => PThrow log
              | Some e =>
                  handle_current_state fuel k'
                    (mkpage j3 (fully_interactive p) (input_enabled p) (pending_ticks p) (started p))
                    (log ++ [bs "error " ++ esc e])
              end
          | JRunning =>
              let log := log ++ [bs "continue_evaluating"] in
              match js_continue_evaluating fuel j2 with
              | JTrap => PTrap log
              | JStuck => PStuck
              | JOk _ j3 =>
                  POk (mkpage j3 (fully_interactive p) (input_enabled p) (S (pending_ticks p)) (started p)) log
              end
          end
      end
  end.

Definition hcs (fuel : nat) (p : page) (log : list bytes) : pres := handle_current_state fuel 3 p log.

(* JavaScript String.prototype.trim yields "" *)
Definition js_ws (cp : N) : bool :=
  ((9 <=? cp) && (cp <=? 13))%N || (cp =? 32)%N || (cp =? 160)%N || (cp =? 5760)%N
  || ((8192 <=? cp) && (cp <=? 8202))%N || (cp =? 8232)%N || (cp =? 8233)%N || (cp =? 8239)%N
  || (cp =? 8287)%N || (cp =? 12288)%N || (cp =? 65279)%N.
Definition js_blank (line : bytes) : bool := forallb (fun c => js_ws (code_point c)) (utf8_chars line).
Definition starts_with_digit (line : bytes) : bool :=
  match line with b :: _ => is_digit b | [] => false end.

(* loadAndRunSourceCode: every numbered line is submitted; the loader stops at
   the first line the interpreter rejects (the error is shown by start()) *)
Fixpoint load_lines (fuel : nat) (lines : list bytes) (j : js) (log : list bytes) : jres unit * list bytes * bool :=
  match lines with
  | [] => (JOk tt j, log, true)
  | l :: r =>
      if js_blank l || negb (starts_with_digit l) then load_lines fuel r j log
      else
        let log := log ++ [bs "start_evaluating " ++ esc l] in
        match js_start_evaluating fuel l j with
        | JTrap => (JTrap, log, false)
        | JStuck => (JStuck, log, false)
        | JOk _ j1 =>
            match js_get_state j1 with
            | JTrap => (JTrap, log, false)
            | JStuck => (JStuck, log, false)
            | JOk JErrored j2 => (JOk tt j2, log ++ [bs "state=Errored"], false)
            | JOk st j2 => load_lines fuel r j2 (log ++ [bs "state=" ++ state_name st])
            end
        end
  end.

Definition break_alias : bytes := [240; 159; 146; 165]%N.

Definition do_break (fuel : nat) (p : page) (log : list bytes) : pres :=
  match js_get_state (impl p) with
  | JTrap => PTrap log
  | JStuck => PStuck
  | JOk st j1 =>
      let log := log ++ [bs "state=" ++ state_name st] in
      match st with
      | JAwaitingInput | JRunning =>
          let log := log ++ [bs "break_at_current_location"] in
          match js_break j1 with
          | JTrap => PTrap log
          | JStuck => PStuck
          | JOk _ j2 => hcs fuel (mkpage j2 true (input_enabled p) (pending_ticks p) (started p)) log
          end
      | _ => POk (mkpage j1 (fully_interactive p) (input_enabled p) (pending_ticks p) (started p)) log
      end
  end.

Definition page_step (fuel : nat) (p : page) (ev : event) : pres :=
  match ev with
  | EvLoad text =>
      if started p then PThrow []
      else
        match load_lines fuel (split_lines text) (impl p) [] with
        | (JTrap, log, _) => PTrap log
        | (JStuck, _, _) => PStuck
        | (JOk _ j, log, false) => POk (mkpage j false (input_enabled p) (pending_ticks p) (started p)) log
        | (JOk _ j, log, true) =>
            let log := log ++ [bs "start_evaluating RUN"] in
            match js_start_evaluating fuel (bs "RUN") j with
            | JTrap => PTrap log
            | JStuck => PStuck
            | JOk _ j1 => POk (mkpage j1 false (input_enabled p) (pending_ticks p) (started p)) log
            end
        end
  | EvStart => hcs fuel (mkpage (impl p) (fully_interactive p) (input_enabled p) (pending_ticks p) true) []
  | EvSubmit text =>
      if negb (input_enabled p) || negb (started p) then POk p [bs "ignored"]
      else
        (* canBreak() && input === alias *)
        match js_get_state (impl p) with
        | JTrap => PTrap []
        | JStuck => PStuck
        | JOk st j1 =>
            let log := [bs "state=" ++ state_name st] in
            let p1 := mkpage j1 (fully_interactive p) (input_enabled p) (pending_ticks p) (started p) in
            if (match st with JIdle => false | _ => true end) && bytes_eqb text break_alias
            then do_break fuel p1 log
            else
              (* canProcessUserInput(), then submitUserInput's own get_state *)
              let log := log ++ [bs "state=" ++ state_name st] in
              match st with
              | JIdle =>
                  let log := log ++ [bs "state=" ++ state_name st; bs "start_evaluating " ++ esc text] in
                  match js_start_evaluating fuel text j1 with
                  | JTrap => PTrap log
                  | JStuck => PStuck
                  | JOk _ j2 => hcs fuel (mkpage j2 (fully_interactive p) (input_enabled p) (pending_ticks p) (started p)) log
                  end
              | JAwaitingInput =>
                  let log := log ++ [bs "state=" ++ state_name st; bs "provide_input " ++ esc text] in
                  match js_provide_input text j1 with
                  | JTrap => PTrap log
                  | JStuck => PStuck
                  | JOk _ j2 => hcs fuel (mkpage j2 (fully_interactive p) (input_enabled p) (pending_ticks p) (started p)) log
                  end
              | _ => POk p1 (log ++ [bs "ignored"])
              end
        end
  | EvBreakKey =>
      if negb (input_enabled p) || negb (started p) then POk p [bs "ignored"]
      else do_break fuel p []
  | EvTick =>
      match pending_ticks p with
      | O => POk p [bs "ignored"]
      | S n => hcs fuel (mkpage (impl p) (fully_interactive p) (input_enabled p) n (started p)) []
      end
  end.
