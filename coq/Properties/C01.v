(* C01 — No host interaction sequence can crash or wedge the interpreter.
   Statements only; proofs are in Proofs/Safety.v.

   In the model every place where the Rust can panic (unwrap / expect / index /
   assert / explicit panic!) is an explicit [Panic tag] result, so "never
   panics" is a theorem with content.  [step] performs a call only when the
   turn-taking protocol allows it ([legal]); [call_result] is the outcome of
   that call; [run_results] collects the outcomes along a history. *)
From Coq Require Import List NArith ZArith Bool.
From Abasic Require Import Model.State Model.Interp Proofs.StoreProofs Proofs.Safety.
Import ListNotations.

(* Every history of host calls from a fresh interpreter -- any lines, any
   replies, any seeds, any interleaving of continue / break / replace -- no
   call panics. *)
Theorem C01_no_panic : forall fuel oracle ops,
  Forall (fun r => forall p, r <> Panic p) (run_results fuel (fresh oracle) ops).
Proof. exact session_no_panic. Qed.
Check C01_no_panic : forall fuel oracle ops,
  Forall (fun r => forall p, r <> Panic p) (run_results fuel (fresh oracle) ops).

(* the invariant behind it: every location the state holds (cursor,
   breakpoint, return addresses, loop heads, function bodies, DATA chunks)
   names an existing line, both store indexes agree, every array has as many
   cells as its dimensions say *)
Theorem C01_inv : forall fuel s op, wf s ->
  (forall p, fst (call_result fuel s op) <> Panic p) /\ wf (snd (step fuel s op)).
Proof. exact step_no_panic. Qed.

Theorem C01_history : forall fuel ops s, wf s ->
  Forall (fun r => forall p, r <> Panic p) (run_results fuel s ops) /\ wf (run_state fuel s ops).
Proof. exact history_no_panic. Qed.

(* Every failure is an error VALUE: afterwards the interpreter is idle, still
   accepts lines, and the error renders as source line plus caret (the
   rendering itself cannot panic). *)
Theorem C01_errors_are_values : forall fuel s op e l s1,
  wf s -> legal s op = true -> call_result fuel s op = (Err e l, s1) ->
  state s1 = Idle /\ exists ls, render_caret e l (line_of op) s1 = Ok ls.
Proof. exact errors_are_values. Qed.

Theorem C01_still_accepts_lines : forall fuel s op e l s1 text,
  wf s -> legal s op = true -> call_result fuel s op = (Err e l, s1) ->
  legal (drained s op s1) (HLine text) = true.
Proof. exact error_then_line_accepted. Qed.

(* [call_result] is what [step] computes *)
Theorem C01_call_result_is_step : forall fuel s op,
  snd (step fuel s op) = drained s op (snd (call_result fuel s op)).
Proof. exact step_call_result. Qed.

(* Partial (see DESIGN 6 C01 L): "never exhausts the native stack" rests on
   the nesting cap MAX_NESTING (regenerated from program.rs) being enforced
   at every recursive entry -- it is part of the model ([evaluate_expression],
   [evaluate_statement]) and of the correspondence -- plus stack probes in
   fresh processes at and far beyond the cap; frame sizes are a compiler
   artefact and are not modelled.  [OutOfFuel] is a model artefact: the
   correspondence treats it as disagreement, never as agreement. *)

Print Assumptions C01_no_panic.
Print Assumptions C01_inv.
Print Assumptions C01_history.
Print Assumptions C01_errors_are_values.
Print Assumptions C01_still_accepts_lines.
Print Assumptions C01_call_result_is_step.
