(* C17 — Tracing and warnings never change what a program does.
   Statements only; proofs: Proofs/FlagsSim.v, TraceProofs.v, WarnProofs.v. *)
From Coq Require Import List NArith.
From Abasic Require Import Model.Bytes Model.Token Model.State Model.Eval Model.Interp Proofs.StoreProofs Proofs.Safety
     Proofs.FlagsSim Proofs.TurnProofs Proofs.TraceProofs Proofs.ExprSem Proofs.WarnProofs.
Import ListNotations.

(* [sim s t]: every field equal except the two flags, and the pending output
   equal after dropping Trace and Warning records ([erase]).
   [obs_agree]: both calls illegal, or rows with equal outcome, state, caret,
   error text, cursor-read count and equal output after [erase].
   [ops_match]: the same calls, except that HFlags may carry other booleans. *)

(* All four configurations, any session: identical observations after
   erasure, states equal up to the flags -- at every call. *)
Theorem C17_transparent : forall fuel oracle w1 b1 w2 b2 ops,
  Forall2 obs_agree (observe fuel (fresh oracle) (HFlags w1 b1 :: ops))
                    (observe fuel (fresh oracle) (HFlags w2 b2 :: ops))
  /\ sim (run_state fuel (fresh oracle) (HFlags w1 b1 :: ops))
         (run_state fuel (fresh oracle) (HFlags w2 b2 :: ops)).
Proof. exact C17_four_configurations. Qed.
Check C17_transparent : forall fuel oracle w1 b1 w2 b2 ops,
  Forall2 obs_agree (observe fuel (fresh oracle) (HFlags w1 b1 :: ops))
                    (observe fuel (fresh oracle) (HFlags w2 b2 :: ops))
  /\ sim (run_state fuel (fresh oracle) (HFlags w1 b1 :: ops))
         (run_state fuel (fresh oracle) (HFlags w2 b2 :: ops)).

(* from any two related states, with flags switched at any points (by field
   or differently in the two runs) *)
Theorem C17_history : forall fuel ops1 ops2 s t, ops_match ops1 ops2 -> sim s t ->
  Forall2 obs_agree (observe fuel s ops1) (observe fuel t ops2)
  /\ sim (run_state fuel s ops1) (run_state fuel t ops2).
Proof. exact C17_transparent_history. Qed.

(* the simulation holds for each evaluator, for every outcome *)
Theorem C17_statement : forall fuel n, respects (evaluate_statement fuel n).
Proof. exact respects_evaluate_statement. Qed.
Theorem C17_expression : forall fuel n, respects (evaluate_expression fuel n).
Proof. exact respects_evaluate_expression. Qed.

(* TRACE / NOTRACE change only the tracing flag *)
Theorem C17_cmds : forall fuel s, state s = Idle ->
  let r1 := start_evaluating fuel (bs "TRACE") s in
  let r2 := start_evaluating fuel (bs "NOTRACE") s in
  fst r1 = Ok tt /\ fst r2 = Ok tt
  /\ sim (snd r1) (snd r2)
  /\ enable_tracing (snd r1) = true /\ enable_tracing (snd r2) = false
  /\ enable_warnings (snd r1) = enable_warnings s /\ enable_warnings (snd r2) = enable_warnings s.
Proof. exact trace_cmds_only_flag. Qed.

(* The trace is the path.  With tracing on, a host call that executes a
   statement of numbered line n pushes `Trace n` as its FIRST record, and every
   other Trace record of the call names n too (C09: an IF's selected statement
   traces again): collapsed, the call's trace is [n]; a call on the immediate
   line pushes no Trace record.  (Per call; no theorem here strings the calls
   of a run together.) *)
Theorem C17_trace_first : forall fuel s n t,
  wf s -> enable_tracing s = true -> loc_line (loc s) = Some n ->
  nth_error (cur_toks s) (loc_idx (loc s)) = Some t ->
  exists rest, outputs (snd (run_next_statement (S fuel) s)) = outputs s ++ OTrace n :: rest
               /\ Forall (trace_ok (Some n)) rest /\ (length (filter shows rest) <= 1)%nat.
Proof. exact traced_turn. Qed.

Theorem C17_trace_is_path : forall fuel s n t,
  wf s -> enable_tracing s = true -> loc_line (loc s) = Some n ->
  nth_error (cur_toks s) (loc_idx (loc s)) = Some t ->
  exists new, outputs (snd (run_next_statement (S fuel) s)) = outputs s ++ new /\ collapse (traces new) = [n].
Proof. exact traced_turn_path. Qed.

Theorem C17_no_trace_on_immediate : forall fuel s,
  wf s -> loc_line (loc s) = None ->
  exists new, outputs (snd (run_next_statement fuel s)) = outputs s ++ new /\ filter is_trace new = [].
Proof. exact immediate_turn_untraced. Qed.

(* When a warning is issued (Proofs/WarnProofs.v).  [warn] is called at two
   sites only.  At each, from ANY state: exactly one Warning record (with the
   current line) is appended if warnings are on and the name is absent from
   the variable / array store, none otherwise; it comes before the value; no
   other field changes. *)
Theorem C17_variable_read_warns : forall sym s,
  variable_read sym s
  = (Ok (match alist_get sym (variables s) with Some v => v | None => default_value sym end),
     set_outputs (outputs s ++ warning_if (enable_warnings s && negb (alist_has sym (variables s)))
                                          (undeclared_variable_msg sym) s) s).
Proof. exact variable_read_warns. Qed.

Theorem C17_array_touch_warns : forall name s,
  maybe_warn_undeclared_array name s
  = (Ok tt, set_outputs (outputs s ++ warning_if (enable_warnings s && negb (alist_has name (arrays s)))
                                                  (undeclared_array_msg name) s) s).
Proof. exact array_touch_warns. Qed.

(* every expression term that is a variable token — not followed by "(" and
   not a bound function parameter — is such a read *)
Theorem C17_term_reads_variable : forall fuel (rec : M value) s toks sym i r o,
  fst (cur_tokens s) = Ok toks -> nth_error toks i = Some (TSymbol sym) ->
  (forall t, nth_error toks (S i) = Some t -> t <> TLeftParen) ->
  find_in_frames sym (rev (stack s)) = None ->
  expression_term fuel rec (at_idx s i r o) = variable_read sym (at_idx s (S i) (S (S r)) o).
Proof. exact term_reads_variable. Qed.

(* Whole-run exactness (every Warning record of a run corresponds to such a
   read, in order) is validated by the correspondence, which compares the
   Warning records themselves with the model's, and by the oracle. *)

Print Assumptions C17_transparent.
Print Assumptions C17_history.
Print Assumptions C17_statement.
Print Assumptions C17_expression.
Print Assumptions C17_cmds.
Print Assumptions C17_trace_first.
Print Assumptions C17_trace_is_path.
Print Assumptions C17_no_trace_on_immediate.
Print Assumptions C17_variable_read_warns.
Print Assumptions C17_array_touch_warns.
Print Assumptions C17_term_reads_variable.
