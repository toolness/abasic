(* C14 — LIST output reloads to the same program.

   [listing s] are the lines LIST prints for the stored program (number, a
   blank, the canonical token spellings joined by single blanks), [edit_of l]
   is what entering line [l] stores (number and tokens), [line_roundtrips n ts]
   says the listing text of line n is an edit storing exactly [ts] under [n]. *)
From Coq Require Import List NArith ZArith Bool.
From Abasic Require Import Model.Bytes Model.State Model.Interp Proofs.StoreProofs Proofs.ListProofs Proofs.StoreExt
     Proofs.StoreBehaviour.
Import ListNotations.
Local Open Scope N_scope.

(* From lines to programs: for EVERY stored program whose lines round-trip,
   entering the LIST output into a fresh interpreter gives a program with the
   same line numbers and the same tokens on every line ... *)
Theorem C14_reload_store : forall fuel oracle s,
  store_ok s ->
  (forall n ts, abs s n = Some ts -> line_roundtrips n ts) ->
  let s' := run_state fuel (fresh oracle) (map HLine (listing s)) in
  (forall k, abs s' k = abs s k) /\ st_keys s' = st_keys s /\ store_ok s'.
Proof. exact reload_store. Qed.

(* ... and the identical listing: LIST is a fixed point. *)
Theorem C14_list_fixpoint : forall fuel oracle s,
  store_ok s ->
  (forall n ts, abs s n = Some ts -> line_roundtrips n ts) ->
  let s' := run_state fuel (fresh oracle) (map HLine (listing s)) in
  list_lines (st_keys s') (st_toks s') = list_lines (st_keys s) (st_toks s)
  /\ listing s' = listing s.
Proof. exact reload_listing. Qed.

Theorem C14_listing_is_list : forall s, store_ok s ->
  list_lines (st_keys s) (st_toks s) = Ok (map (fun l => l ++ [10]) (listing s)).
Proof. exact listing_is_list_output. Qed.

(* ... and the identical behaviour under RUN: the original interpreter (any
   idle state holding the program, its output queue drained) and a fresh one
   into which the LIST output was typed, put into the same flag setting and
   given the same seed, answer RUN and EVERY later host operation with the
   same rows ([orow_same]) — outcome (errors and their lines), state (input
   requests), the drained output queue (everything printed, hence every DATA
   item a program reads and prints), caret, message, reads.  The reloaded
   store need not be the same list as the original one (its internal order
   depends on the order of entry); Proofs/StoreExt.v shows that the
   interpreter cannot tell. *)
Theorem C14_reload_behaves_alike : forall fuel s w b seed ops,
  state s = Idle -> outputs s = [] -> store_ok s ->
  (forall n ts, abs s n = Some ts -> line_roundtrips n ts) ->
  let s' := run_state fuel (fresh (pow_oracle s)) (map HLine (listing s)) in
  let session := HFlags w b :: HRand seed :: HLine (bs "RUN") :: ops in
  Forall2 orow_same (run_ops fuel s session) (run_ops fuel s' session).
Proof. exact reload_behaves_alike. Qed.

(* non-vacuity of the hypotheses: a program with DATA typed into a fresh interpreter *)
Example C14_behaves_example :
  let s := run_state 50 (fresh []) (map (fun t => HLine (bs t)) ["20 READ A : PRINT A;"; "10 DATA 7, ""x y"""]%string) in
  state s = Idle /\ outputs s = [] /\ store_ok s
  /\ (forall n ts, abs s n = Some ts -> line_roundtrips n ts).
Proof.
  cbn zeta. split; [reflexivity|]. split; [reflexivity|].
  split; [apply store_ok_reachable, store_ok_init|].
  intros n ts H. unfold abs in H.
  match type of H with toks_get n (st_toks ?x) = _ =>
    let v := eval vm_compute in (st_toks x) in change (st_toks x) with v in H end.
  cbn [toks_get] in H.
  destruct (N.eqb_spec 10 n); [subst; inversion H; subst; vm_compute; reflexivity|].
  destruct (N.eqb_spec 20 n); [subst; inversion H; subst; vm_compute; reflexivity|].
  discriminate.
Qed.

(* Token adjacency, over the regenerated tables (Gen/Tables.v: keyword list in
   matcher order, one- and two-character operators): every such token is
   re-read from its canonical spelling, and every ordered pair of them that the
   tokenizer can produce at all is re-read from the two spellings joined by the
   single blank LIST puts between tokens.  The single tokens are decided by
   computation; the pairs follow from C12_insert, since none of these tokens
   carries text (Proofs/ListProofs.v, nonverb_pair_ok).  A pair that cannot be
   produced (`<` `=` ...) satisfies [fixed_pair_ok] for that reason alone. *)
Theorem C14_fixed_tokens : forallb fixed_token_ok fixed_tokens = true.
Proof. exact fixed_tokens_roundtrip. Qed.

Theorem C14_fixed_pairs :
  forallb (fun t1 => forallb (fixed_pair_ok t1) fixed_tokens) fixed_tokens = true.
Proof. exact fixed_pairs_roundtrip. Qed.

(* Per-line round trip for literal tokens (numerals in every spelling, DATA
   items, REM text, strings, symbol-numeral adjacency) is NOT proved in
   general: it is the hypothesis [line_roundtrips] above, discharged by
   execution — by the examples below inside Coq and, on the implementation
   and the model alike, by the LIST -> reload -> LIST / RUN oracle and the
   correspondence over generated programs (DESIGN.md 6 C14, L). *)
Example C14_example :
  forallb (fun text =>
     match edit_of (bs text) with
     | Some (n, ts) =>
         match edit_of (listing_line n ts) with
         | Some (n', ts') => N.eqb n n' && tokens_eqb ts ts'
         | None => false
         end
     | None => false
     end)
    ["10 PRINT ""a b"";X$;.5;007;1E5"; "20 REM  x y  "; "30 DATA 1, ""a b"", c, ""q"" : PRINT A.5";
     "40 IF A<>B THEN GOTO 10 ELSE ?""n"""; "50 FORI=ATOBSTEP-1:NEXTI"; "60 DATA hello ""there"", x";
     "70 X=12345678901234567890+.000001"]%string = true.
Proof. exact ex_line_roundtrips. Qed.

Print Assumptions C14_reload_store.
Print Assumptions C14_list_fixpoint.
Print Assumptions C14_reload_behaves_alike.
Print Assumptions C14_listing_is_list.
Print Assumptions C14_fixed_tokens.
Print Assumptions C14_fixed_pairs.
