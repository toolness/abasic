(* C16 — Runtime state stays within its caps and obeys name-suffix typing.
   Statements only; proofs are in Proofs/Caps.v, the ties to arrays.rs and to
   the order of program.rs's cap tests in Proofs/ArraysTie.v. *)
From Coq Require Import List NArith ZArith Bool.
From Abasic Require Import Model.Bytes Gen.Tables Model.State Model.Eval Model.Interp Proofs.Monad Proofs.StoreProofs
     Proofs.Caps Model.RustInt Gen.ArraysRs Gen.ProgramEvents Proofs.ArraysTie.
Import ListNotations.
Local Open Scope nat_scope.

(* [caps_inv]: at most 32 frames, at most 32 open loops with pairwise distinct
   variables, every variable / frame binding / array cell typed by its name's
   `$` suffix, every array's cell count = product of its dimensions <= 10000.
   It holds at EVERY turn boundary of EVERY session: the only hypothesis is
   reachability from a fresh interpreter by host calls (legal or not). *)
Theorem C16_inv : forall fuel oracle ops, caps_inv (run_state fuel (fresh oracle) ops).
Proof. exact caps_session. Qed.
Check C16_inv : forall fuel oracle ops, caps_inv (run_state fuel (fresh oracle) ops).

Theorem C16_step : forall fuel s op, caps_inv s -> caps_inv (snd (step fuel s op)).
Proof. exact caps_step. Qed.

(* it holds after every outcome of every evaluator -- also after errors *)
Theorem C16_statement : forall fuel n, mrel (inv_rel caps_inv) (evaluate_statement fuel n).
Proof. exact caps_evaluate_statement. Qed.
Theorem C16_expression : forall fuel n, mrel (inv_rel caps_inv) (evaluate_expression fuel n).
Proof. exact caps_evaluate_expression. Qed.

(* in numbers, against the constants regenerated from the Rust source *)
Theorem C16_numeric : forall s, caps_inv s ->
  (N.of_nat (length (stack s)) <= STACK_LIMIT)%N
  /\ (N.of_nat (length (loops s)) <= STACK_LIMIT)%N
  /\ (forall name a, In (name, a) (arrays s) ->
        N.of_nat (length (ar_cells a)) = dims_product (ar_dims a)
        /\ (N.of_nat (length (ar_cells a)) <= MAX_DIM_TOTAL_ELEMENTS)%N).
Proof. exact caps_numeric. Qed.

(* exceeding a cap is an OUT OF MEMORY error that changes nothing (GOSUB, FN
   call) or only forgets the loops FOR forgets anyway (below the cap the
   error cannot occur: Proofs/Caps.v, gosub_below_cap and its like) *)
Theorem C16_gosub_cap : forall n s,
  length (stack s) = stack_limit -> gosub_line_number n s = (Err EStackOverflow None, s).
Proof. exact gosub_overflow. Qed.
Theorem C16_fn_cap : forall name b s,
  length (stack s) = stack_limit -> push_function_call name b s = (Err EStackOverflow None, s).
Proof. exact push_function_call_overflow. Qed.
Theorem C16_for_cap : forall sym a b c s,
  length (loops_below sym (loops s)) = stack_limit ->
  start_loop sym a b c s = (Err EStackOverflow None, drop_loop sym s).
Proof. exact start_loop_overflow. Qed.
Theorem C16_dim_cap : forall name idx s,
  idx <> [] -> alist_has name (arrays s) = false ->
  (MAX_DIM_TOTAL_ELEMENTS < dims_product (dim_sizes idx))%N ->
  arrays_create name idx s = (Err EArrayTooLarge None, s).
Proof. exact arrays_create_too_large. Qed.
Theorem C16_dim_fits : forall name idx s,
  idx <> [] -> alist_has name (arrays s) = false ->
  (dims_product (dim_sizes idx) <= MAX_DIM_TOTAL_ELEMENTS)%N ->
  exists a, arrays_create name idx s = (Ok tt, set_arrays (alist_set name a (arrays s)) s)
            /\ arr_ok name a /\ ar_dims a = dim_sizes idx.
Proof. exact arrays_create_fits. Qed.

(* re-entering a FOR (GOTO before it) or abandoning inner loops does not
   accumulate state *)
Theorem C16_no_accumulation : forall sym a b c s,
  let s' := snd (start_loop sym a b c s) in
  length (loops s') <= S (length (loops s))
  /\ (In sym (map lp_sym (loops s)) -> length (loops s') <= length (loops s)).
Proof. exact start_loop_growth. Qed.
Theorem C16_loops_le_variables : forall s univ,
  caps_inv s -> incl (map lp_sym (loops s)) univ -> length (loops s) <= length univ.
Proof. exact loops_bounded_by_variables. Qed.

(* THE TIE TO arrays.rs BY TRANSLATION.  Gen/ArraysRs.v holds DimArray::new and
   DimArray::get_linear_index as translated statement by statement from the
   source text on this run (usize arithmetic; an unchecked operation that
   overflows is UPanic).  The translated constructor never panics and is the
   model's array_create_value for EVERY list of subscripts; every array it
   builds has dimensions >= 1 whose product is within the cap; and on every
   such array, with ANY subscripts, the unchecked `+=` / `*=` of the translated
   get_linear_index never overflow, its only error is BAD SUBSCRIPT, its value
   is the model's, and the index it returns lies inside the cells (so
   `self.values[linear_index]` in DimArray::get / set is in bounds). *)
Theorem C16_code_new : forall name mi,
  rs_dimarray_new mi <> UPanic /\ array_create_value name mi = rs_new_to_res name (rs_dimarray_new mi).
Proof. exact rs_dimarray_new_is_model. Qed.
Theorem C16_code_created_shape : forall name mi a,
  array_create_value name mi = Ok a -> shape_ok (ar_dims a) /\ ar_dims a = dim_sizes mi.
Proof. exact created_shape_ok. Qed.
Theorem C16_code_index : forall a indices, shape_ok (ar_dims a) ->
  rs_dimarray_get_linear_index (ar_dims a) indices <> UPanic /\
  (forall e, rs_dimarray_get_linear_index (ar_dims a) indices = UErr e -> e = "BadSubscript"%string) /\
  array_linear_index a indices = rs_index_to_res (rs_dimarray_get_linear_index (ar_dims a) indices).
Proof. exact rs_get_linear_index_is_model. Qed.
Theorem C16_code_index_in_cells : forall a indices i, shape_ok (ar_dims a) ->
  N.of_nat (length (ar_cells a)) = dims_product (ar_dims a) ->
  rs_dimarray_get_linear_index (ar_dims a) indices = UOk i -> (i < N.of_nat (length (ar_cells a)))%N.
Proof. exact rs_index_in_cells. Qed.
Check C16_code_index : forall a indices, shape_ok (ar_dims a) ->
  rs_dimarray_get_linear_index (ar_dims a) indices <> UPanic /\
  (forall e, rs_dimarray_get_linear_index (ar_dims a) indices = UErr e -> e = "BadSubscript"%string) /\
  array_linear_index a indices = rs_index_to_res (rs_dimarray_get_linear_index (ar_dims a) indices).

(* ... and so in EVERY state a session can reach ([caps_inv], which C16_inv establishes at every turn boundary,
   also says that no dimension is 0): for every stored array and any subscripts the translated index computation
   does not panic, is the model's, and indexes inside the cells *)
Theorem C16_code_index_every_state : forall s name a indices, caps_inv s -> In (name, a) (arrays s) ->
  rs_dimarray_get_linear_index (ar_dims a) indices <> UPanic /\
  array_linear_index a indices = rs_index_to_res (rs_dimarray_get_linear_index (ar_dims a) indices) /\
  forall i, rs_dimarray_get_linear_index (ar_dims a) indices = UOk i -> (i < N.of_nat (length (ar_cells a)))%N.
Proof. exact rs_index_safe_in_every_state. Qed.

(* non-vacuity: DIM A(99,99) on the translated code (10000 cells, accepted), its last cell, DIM A(100,99) (10100,
   rejected), a huge subscript (checked_mul fails: the error, not a panic), and — why the shape hypothesis is
   there — dimensions DimArray::new can never produce on which the translated index computation does panic *)
Example C16_code_examples :
  rs_dimarray_new [99; 99]%N = UOk ([100; 100]%N, 10000%N) /\
  rs_dimarray_get_linear_index [100; 100]%N [99; 99]%N = UOk 9999%N /\
  rs_dimarray_get_linear_index [100; 100]%N [99; 100]%N = UErr "BadSubscript" /\
  rs_dimarray_new [100; 99]%N = UErr "ArrayTooLarge" /\
  rs_dimarray_new [18446744073709551615]%N = UErr "ArrayTooLarge" /\
  rs_dimarray_new [4294967296; 4294967296; 3]%N = UErr "ArrayTooLarge" /\
  rs_dimarray_get_linear_index [4294967296; 4294967296; 0]%N [1; 1; 0]%N = UPanic.
Proof. vm_compute. repeat split. Qed.

(* WHEN the caps are tested (program.rs, regenerated on every run as the order of events in the three methods that
   test a cap: Gen/ProgramEvents.v).  The model's start_loop / gosub_line_number / push_function_call (Model/State.v)
   do the same things in the same order: FOR forgets the old loop of its variable BEFORE testing the loop cap (so
   re-entering a FOR with 32 loops open is no overflow), GOSUB tests the frame cap before it jumps (so the error is
   located at the GOSUB), a user-function call tests the SAME frame cap before pushing; all three compare with
   `== STACK_LIMIT` and fail with StackOverflow. *)
Theorem C16_code_cap_order :
  program_events =
  [("start_loop", ["forget-loop"; "cap-test:loop_stack==STACK_LIMIT:StackOverflow"; "push:loop_stack"; "set-variable"]);
   ("gosub_line_number", ["cap-test:stack==STACK_LIMIT:StackOverflow"; "goto"; "push:stack"]);
   ("push_function_call_onto_stack_and_goto_it", ["cap-test:stack==STACK_LIMIT:StackOverflow"; "push:stack"; "set-location"])]%string.
Proof. reflexivity. Qed.
(* the same order on the model: FOR's cap test sees the loops left after the old loop of its variable is forgotten
   (the first clause is C16_for_cap in State.v's own words), GOSUB and the function call fail before anything moves *)
Theorem C16_model_cap_order : forall sym a b c n name bs s,
  (forall u s1, remove_loop_with_name sym s = (Ok u, s1) -> length (loops s1) = stack_limit ->
     start_loop sym a b c s = (Err EStackOverflow None, s1)) /\
  (length (stack s) = stack_limit -> gosub_line_number n s = (Err EStackOverflow None, s)) /\
  (length (stack s) = stack_limit -> push_function_call name bs s = (Err EStackOverflow None, s)).
Proof. exact model_cap_order. Qed.

Print Assumptions C16_inv.
Print Assumptions C16_step.
Print Assumptions C16_statement.
Print Assumptions C16_expression.
Print Assumptions C16_numeric.
Print Assumptions C16_gosub_cap.
Print Assumptions C16_fn_cap.
Print Assumptions C16_for_cap.
Print Assumptions C16_dim_cap.
Print Assumptions C16_dim_fits.
Print Assumptions C16_no_accumulation.
Print Assumptions C16_loops_le_variables.
Print Assumptions C16_code_new.
Print Assumptions C16_code_created_shape.
Print Assumptions C16_code_index.
Print Assumptions C16_code_index_in_cells.
Print Assumptions C16_code_index_every_state.
Print Assumptions C16_code_cap_order.
Print Assumptions C16_model_cap_order.
