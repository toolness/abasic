(* C15 — Loading a file equals typing it in; CLI options apply in both modes.
   Statements and a few short derivations; proofs are in Proofs/LoadProofs.v (on Proofs/AnalyzerFrame.v).

   [analyze fuel text] models SourceFileAnalyzer::analyze, [into_interpreter]
   the loader both `abasic FILE` and `abasic --skip-check FILE` use,
   [run_state fuel s (map HLine lines)] entering the lines one by one at the
   prompt.  [wf_line l]: entering [l] is an edit that stores at least one token
   (numbered, non-empty, tokenizable).  [configure w t seed] is
   CliArgs::configure_interpreter. *)
From Coq Require Import List NArith ZArith Bool.
From Abasic Require Import Model.Bytes Model.State Model.Interp Model.Analyzer Proofs.StoreProofs Proofs.AnalyzerFrame
     Proofs.AnalyzerProofs Proofs.LoadProofs.
Import ListNotations.
Local Open Scope nat_scope.

(* Pass 1 of the analyzer stores exactly what typing stores: the two
   interpreter STATES are equal, line after line. *)
Theorem C15_pass1_is_typing : forall fuel lines i p s,
  Forall wf_line lines -> settled s -> p_prog p = s ->
  p_prog (pass1_lines i lines p) = run_state fuel s (map HLine lines)
  /\ settled (run_state fuel s (map HLine lines)).
Proof. exact pass1_is_typing. Qed.

(* The analysis itself — whatever it reports — changes nothing of the
   interpreter but cursor, function table, DATA cursor and hook counter. *)
Theorem C15_analysis_keeps_program : forall fuel text,
  AF (snd (run_from_first_numbered_line (p_prog (pass1_of text)))) (an_program (analyze fuel text)).
Proof. exact an_program_AF. Qed.

(* Hence: the loaded interpreter IS the typed-in interpreter (every field but
   the hook counter, which each host call resets first). *)
Theorem C15_load_eq : forall fuel fuel' text,
  Forall wf_line (split_lines text) ->
  set_reads 0 (into_interpreter (analyze fuel text))
  = set_reads 0 (run_state fuel' init_interp (map HLine (split_lines text))).
Proof. exact load_equals_typing. Qed.

(* ... so LIST, RUN and everything else answer identically, call for call
   (the restriction to calls a session makes is not needed: same_behaviour
   holds for HFlags and HNew too). *)
Theorem C15_same_behaviour : forall fuel s1 s2 ops,
  set_reads 0 s1 = set_reads 0 s2 ->
  (forall op, In op ops -> match op with HFlags _ _ | HNew => False | _ => True end) ->
  run_ops fuel s1 ops = run_ops fuel s2 ops.
Proof. intros fuel s1 s2 ops H _. apply same_behaviour, H. Qed.

(* The command line: in file mode and in piped mode the session talks to the
   same interpreter, and in both the options are on it.  The first clause is the
   theorem; the other three hold by the definition of [cli_file_mode]
   (Proofs/LoadProofs.v: [configure] applied last), which is this development's
   reading of abasic-cli and is compared with the binary only through the
   two-mode runs below, not by a case runner of its own. *)
Theorem C15_options : forall w t seed fuel fuel' text,
  Forall wf_line (split_lines text) ->
  set_reads 0 (cli_file_mode w t seed fuel text)
  = set_reads 0 (cli_piped_mode w t seed fuel' (split_lines text))
  /\ enable_warnings (cli_file_mode w t seed fuel text) = w
  /\ enable_tracing (cli_file_mode w t seed fuel text) = t
  /\ rng (cli_file_mode w t seed fuel text) = rng_new seed.
Proof. exact cli_modes_agree. Qed.

(* Process I/O (stdout / stderr routing, banner, prompts, exit status,
   rustyline) is glue: exercised by running the real binary in both modes for
   all 8 option combinations, not modelled. *)

Example C15_example :
  let text := bs "10 PRINT X" ++ [10%N] ++ bs "20 GOTO 40" ++ [10%N] ++ bs "5 DIM A(3)" in
  forallb (fun l => match edit_of l with Some (_, _ :: _) => true | _ => false end) (split_lines text) = true
  /\ an_messages (analyze 100 text) <> []
  /\ set_reads 0 (cli_file_mode true true 7 100 text)
     = set_reads 0 (cli_piped_mode true true 7 100 (split_lines text)).
Proof. vm_compute. repeat split; congruence. Qed.

Print Assumptions C15_pass1_is_typing.
Print Assumptions C15_analysis_keeps_program.
Print Assumptions C15_load_eq.
Print Assumptions C15_same_behaviour.
Print Assumptions C15_options.
