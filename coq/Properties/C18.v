(* C18 — RND is a pure, in-range function of the seed.
   Statements only; proofs are in Proofs/RngProofs.v, the tie to random.rs in
   Proofs/RngTie.v. *)
From Coq Require Import List NArith ZArith Bool Floats.SpecFloat.
From Abasic Require Import Model.Bytes Model.Num Gen.Tables Model.State Model.RustInt Gen.RandomRs Proofs.RngProofs
     Proofs.RngTie.
Import ListNotations.
Open Scope N_scope.

(* the generator is the documented LCG (constants regenerated from random.rs) *)
Theorem C18_documented : forall s, lcg s = (1664525 * s + 1013904223) mod 2 ^ 33.
Proof. exact lcg_documented. Qed.

(* seeding with any value gives the sequence of that value (seed mod 2^33),
   within the modulus, and the u64 arithmetic of the step cannot overflow *)
Theorem C18_seed : forall seed, rng_new seed < MODULUS.
Proof. exact rng_new_range. Qed.
Theorem C18_mod : forall s, lcg (s mod MODULUS) = lcg s.
Proof. exact lcg_mod_invariant. Qed.
Theorem C18_no_overflow : forall s, s < MODULUS -> MULTIPLIER * s + INCREMENT < 2 ^ 64.
Proof. exact lcg_no_u64_overflow. Qed.

(* argument-sign dispatch: negative = error without advancing, zero = repeat
   without advancing, anything else = advance *)
Theorem C18_dispatch : forall x st,
  rng_rnd x st =
  if f64_ltb x f64_zero then (Err EUnimplemented None, st)
  else if f64_eqb x f64_zero then (Ok (latest_random (rng st)), st)
  else (Ok (latest_random (lcg (rng st))), set_rng (lcg (rng st)) st).
Proof. exact rng_rnd_spec. Qed.

(* EVERY state below 2^33 maps to a double in [0, 1): exact value s / 2^33.
   [s < MODULUS] holds of the generator after every seeding and is kept by every
   draw (RngProofs.rng_invariant); it is not part of an invariant of whole
   sessions, so for an interpreter state it is a hypothesis here and in
   C18_code_rnd, and only the sequences from a seed (below) are closed. *)
Theorem C18_exact : forall s, s < MODULUS ->
  latest_random s = binary_normalize prec emax (Z.of_N s) (-33) false.
Proof. exact latest_random_exact. Qed.
Theorem C18_range : forall s, s < MODULUS ->
  f64_leb f64_zero (latest_random s) = true /\ f64_ltb (latest_random s) f64_one = true.
Proof. exact latest_random_range. Qed.
Check C18_range : forall s, s < MODULUS ->
  f64_leb f64_zero (latest_random s) = true /\ f64_ltb (latest_random s) f64_one = true.

(* purity: the result sequence depends only on seed mod 2^33 and the arguments *)
Theorem C18_deterministic : forall st0 st1 seed0 seed1 args,
  seed0 mod MODULUS = seed1 mod MODULUS -> rnd_seq_from st0 seed0 args = rnd_seq_from st1 seed1 args.
Proof. exact rnd_seq_deterministic. Qed.

(* every element of every sequence is in range or the Unimplemented error *)
Theorem C18_seq_range : forall seed args,
  Forall (fun r => match r with
                   | Ok v => f64_leb f64_zero v = true /\ f64_ltb v f64_one = true
                   | Err e l => e = EUnimplemented /\ l = None
                   | _ => False
                   end) (rnd_seq seed args).
Proof. exact rnd_seq_range. Qed.

(* THE TIE TO random.rs BY TRANSLATION.  Gen/RandomRs.v holds every method of
   `impl Rng` as translated from the source text on this run (plain u64
   arithmetic: an overflow or a remainder by zero is None / RsPanic).  The
   translated constructor is the model's for EVERY seed; the translated step,
   on every reduced state, does not overflow and is the model's; and a whole
   session of the translated code never panics and yields the sequence the
   theorems above speak about ([rs_to_res]: a translated outcome read as the
   model's result, EVERY error name as Unimplemented, so which error the code
   returns is said by the second clause of C18_code_rnd only; [rs_field]: the
   generator state after it). *)
Theorem C18_code_new : forall seed, rs_new seed = Some (rng_new seed).
Proof. exact rs_new_is_model. Qed.
Theorem C18_code_step : forall s, s < MODULUS -> rs_random s = Some (lcg s, latest_random (lcg s)).
Proof. exact rs_random_is_model. Qed.
Theorem C18_code_rnd : forall x st, rng st < MODULUS ->
  rs_rnd x (rng st) <> RsPanic /\
  (forall e, rs_rnd x (rng st) = RsErr e -> e = "Unimplemented"%string) /\
  fst (rng_rnd x st) = rs_to_res (rs_rnd x (rng st)) /\
  rng (snd (rng_rnd x st)) = rs_field (rng st) (rs_rnd x (rng st)) /\
  rs_field (rng st) (rs_rnd x (rng st)) < MODULUS.
Proof. exact rs_rnd_is_model. Qed.
Theorem C18_code_session : forall seed args,
  exists outs, rs_session seed args = Some outs /\ ~ In RsPanic outs /\
               map rs_to_res outs = rnd_seq seed args /\
               forall st0, map rs_to_res outs = rnd_seq_from st0 seed args.
Proof. exact rs_session_is_model. Qed.
Check C18_code_session : forall seed args,
  exists outs, rs_session seed args = Some outs /\ ~ In RsPanic outs /\
               map rs_to_res outs = rnd_seq seed args /\
               forall st0, map rs_to_res outs = rnd_seq_from st0 seed args.

(* non-vacuity: a u64::MAX seed, RND(0) then two draws, evaluated on the translated code *)
Example C18_code_session_example :
  exists a b c, rs_session 18446744073709551615 [f64_zero; f64_one; f64_one] = Some [RsOk 8589934591 a; RsOk 1012239698 b; RsOk 806866057 c].
Proof. vm_compute. do 3 eexists. reflexivity. Qed.

Print Assumptions C18_documented.
Print Assumptions C18_seed.
Print Assumptions C18_mod.
Print Assumptions C18_no_overflow.
Print Assumptions C18_dispatch.
Print Assumptions C18_exact.
Print Assumptions C18_range.
Print Assumptions C18_deterministic.
Print Assumptions C18_seq_range.
Print Assumptions C18_code_new.
Print Assumptions C18_code_step.
Print Assumptions C18_code_rnd.
Print Assumptions C18_code_session.
