(* C19 — The Web adapter is a faithful, trap-free wrapper under the page's protocol.
   Statements and short derivations; proofs are in Proofs/WebProofs.v (on C01's Proofs/Safety.v)
   and, for the session theorems, Proofs/LoaderProofs.v.

   [js] models abasic_web::JsInterpreter (the core interpreter plus the error
   latch); its asserts, the `panic!` arm of get_state and every core panic are
   [JTrap]; [JStuck] is the model's own OutOfFuel / OracleMiss.  [page_step]
   models the page script's handlers (submit, break key, timer tick, start-up)
   — a transliteration by hand of abasic-web/ts/main.ts; the script's call
   skeleton is regenerated from it on every run and held against the one it had
   when the transliteration was made (C19_skeleton).  [JInv]: the core is
   well-formed, never left in the transient new-interpreter state, and idle
   whenever an error is latched. *)
From Coq Require Import List NArith ZArith Bool.
From Coq Require String.
From Abasic Require Import Model.Bytes Gen.Tables Model.State Model.Interp Model.Web Proofs.WebProofs Proofs.LoaderProofs.
Import ListNotations.
Local Open Scope nat_scope.

(* The adapter calls, under exactly the precondition the page establishes
   before making them: no trap, invariant re-established. *)
Theorem C19_start_evaluating : forall fuel line j,
  JInv j -> latest_error j = None -> state (core j) = Idle ->
  match js_start_evaluating fuel line j with JOk _ j' => JInv j' | JTrap => False | JStuck => True end.
Proof. exact js_start_safe. Qed.

Theorem C19_continue_evaluating : forall fuel j,
  JInv j -> latest_error j = None -> state (core j) = Running ->
  match js_continue_evaluating fuel j with JOk _ j' => JInv j' | JTrap => False | JStuck => True end.
Proof. exact js_continue_safe. Qed.

(* get_state never observes the transient new-interpreter state *)
Theorem C19_get_state : forall j, JInv j -> exists st, js_get_state j = JOk st j
  /\ (st = JErrored <-> latest_error j <> None)
  /\ (st = JIdle -> state (core j) = Idle) /\ (st = JRunning -> state (core j) = Running)
  /\ (st = JAwaitingInput -> state (core j) = AwaitingInput).
Proof. exact js_get_state_safe. Qed.

(* EVERY sequence of page events after start-up (start, submitted lines and
   replies with arbitrary text, break requests incl. the emoji alias, timer
   ticks — in any order, any number of pending timers): no trap, no throw. *)
Theorem C19_trap_free : forall fuel evs p,
  JInv (impl p) -> Forall (fun ev => match ev with EvLoad _ => False | _ => True end) evs ->
  safe (page_run fuel p evs).
Proof. exact page_run_safe. Qed.

(* ... and the program file loaded at start-up: a WHOLE page session under the
   page's protocol — the file (any text) is loaded into the new page once,
   before anything else, then any sequence of the events above — never traps
   and never throws (why a digit-initial line never leaves the interpreter
   busy: Proofs/LoaderProofs.v). *)
Theorem C19_session_trap_free : forall fuel oracle text evs,
  Forall (fun ev => match ev with EvLoad _ => False | _ => True end) evs ->
  safe (page_run fuel (page_new oracle) (EvLoad text :: evs)).
Proof. exact page_session_safe. Qed.

Theorem C19_loader : forall fuel lines j log,
  JInv j -> latest_error j = None -> state (core j) = Idle ->
  match load_lines fuel lines j log with
  | (JOk _ j', _, true) => JInv j' /\ latest_error j' = None /\ state (core j') = Idle
  | (JOk _ j', _, false) => JInv j'
  | (JTrap, _, _) => False
  | (JStuck, _, _) => True
  end.
Proof. exact load_lines_safe. Qed.

Theorem C19_fresh_page_ok : forall oracle, JInv (impl (page_new oracle)).
Proof. intros oracle. apply JInv_new. Qed.

(* Faithfulness: outputs (types and text), state and error text are the image
   of what the core yields for the same calls. *)
Theorem C19_outputs : forall j,
  fst (js_take_output j) = map (fun o => (out_type o, display_output o)) (outputs (core j))
  /\ outputs (core (snd (js_take_output j))) = [].
Proof. exact js_outputs_are_core_outputs. Qed.

Theorem C19_state : forall j st,
  js_get_state j = JOk st j ->
  match st with
  | JErrored => latest_error j <> None
  | JIdle => latest_error j = None /\ state (core j) = Idle
  | JRunning => latest_error j = None /\ state (core j) = Running
  | JAwaitingInput => latest_error j = None /\ state (core j) = AwaitingInput
  end.
Proof. exact js_state_is_core_state. Qed.

Theorem C19_error_text_start : forall fuel line j e l s1,
  latest_error j = None -> start_evaluating fuel line (core j) = (Err e l, s1) ->
  forall ls, render_caret e l (Some line) s1 = Ok ls ->
  js_start_evaluating fuel line j = JOk tt (mkjs s1 (Some (join [nl] (display_error e l :: ls)))).
Proof. exact js_start_error_text. Qed.

Theorem C19_error_text_continue : forall fuel j e l s1,
  latest_error j = None -> continue_evaluating fuel (core j) = (Err e l, s1) ->
  forall ls, render_caret e l None s1 = Ok ls ->
  js_continue_evaluating fuel j = JOk tt (mkjs s1 (Some (join [nl] (display_error e l :: ls)))).
Proof. exact js_continue_error_text. Qed.

(* NEW yields an interpreter that IS a freshly created one *)
Theorem C19_new : forall fuel j,
  latest_error j = None -> state (core j) = Idle ->
  js_start_evaluating fuel (bs "NEW") j = JOk tt (js_new (pow_oracle (core j))).
Proof. exact js_new_is_fresh. Qed.

(* The script's call skeleton as regenerated on this run (Gen/Tables.v) is the one [page_step] was written
   from: a change of main.ts's calls or of their order fails here.  The tables are compared with their own
   text, not with [page_step]; that the model answers event for event as the script's transliteration in the
   harness does is what the check's runs compare (Run/HarnessWeb.v). *)
Import String.StringSyntax.
Local Open Scope string_scope.
Theorem C19_skeleton :
  page_skeleton =
  [ ("loadAndRunSourceCode", "this.isFullyInteractive continue continue impl.start_evaluating impl.get_state S.Errored return impl.start_evaluating");
    ("start", "this.isFullyInteractive this.handleCurrentState");
    ("canProcessUserInput", "impl.get_state return S.Idle S.AwaitingInput");
    ("canBreak", "impl.get_state return S.Idle");
    ("submitUserInput", "impl.get_state S.Idle impl.start_evaluating S.AwaitingInput impl.provide_input throw this.handleCurrentState");
    ("breakAtCurrentLocation", "impl.get_state S.AwaitingInput S.Running this.isFullyInteractive impl.break_at_current_location this.handleCurrentState");
    ("showOutput", "impl.take_latest_output O.Print O.Trace O.Break O.ExtraIgnored O.Reenter O.Warning");
    ("handleCurrentState", "this.showOutput impl.get_state S.Idle this.isFullyInteractive clearPromptAndDisableInput return S.AwaitingInput S.Errored impl.take_latest_error throw this.handleCurrentState S.Running impl.continue_evaluating setTimeout this.handleCurrentState") ]
  /\ page_handlers = [ "return"; "breakAtCurrentLocation"; "canBreak"; "alias:f09f92a5"; "breakAtCurrentLocation"; "return";
                       "canProcessUserInput"; "return"; "submitUserInput" ]
  /\ web_state_map = [ ("Idle", "Idle"); ("Running", "Running"); ("AwaitingInput", "AwaitingInput"); ("NewInterpreterRequested", "PANIC") ]
  /\ web_output_map = [ ("Print", "Print"); ("Break", "Break"); ("Warning", "Warning"); ("Trace", "Trace");
                        ("ExtraIgnored", "ExtraIgnored"); ("Reenter", "Reenter") ].
Proof. repeat split; reflexivity. Qed.
Local Close Scope string_scope.

(* wasm32 execution and the DOM side are outside the model. *)

(* non-vacuity: a page that loaded a 3-line program with an untokenizable line
   reports the error and stays alive; a session ticks to an INPUT, answers,
   breaks with the emoji alias and issues NEW *)
Example C19_example :
  let p0 := page_new [] in
  let evs := [EvStart; EvSubmit (bs "10 INPUT X"); EvSubmit (bs "20 PRINT X*2 : GOTO 10"); EvSubmit (bs "RUN");
              EvTick; EvSubmit (bs "21"); EvTick; EvTick; EvTick; EvSubmit break_alias; EvSubmit (bs "X% = 1"); EvSubmit (bs "NEW")] in
  match page_run 100 p0 evs with
  | POk p _ => core (impl p) = fresh [] /\ latest_error (impl p) = None
  | _ => False
  end
  /\ match page_step 100 p0 (EvLoad (bs "10 PRINT 1" ++ [10%N] ++ bs "20 C% = 1" ++ [10%N] ++ bs "30 PRINT 2")) with
     | POk p _ => latest_error (impl p) <> None
                  /\ match page_step 100 p EvStart with
                     | POk p' _ => latest_error (impl p') = None /\ input_enabled p' = false
                     | _ => False
                     end
     | _ => False
     end.
Proof. split; vm_compute; split; try reflexivity; try discriminate. split; reflexivity. Qed.

Print Assumptions C19_start_evaluating.
Print Assumptions C19_continue_evaluating.
Print Assumptions C19_get_state.
Print Assumptions C19_trap_free.
Print Assumptions C19_fresh_page_ok.
Print Assumptions C19_outputs.
Print Assumptions C19_state.
Print Assumptions C19_error_text_start.
Print Assumptions C19_error_text_continue.
Print Assumptions C19_new.
Print Assumptions C19_skeleton.
Print Assumptions C19_session_trap_free.
Print Assumptions C19_loader.
