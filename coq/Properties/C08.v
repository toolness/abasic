(* C08 — INPUT suspends and resumes without disturbing the rest of the program.
   Statements and a few short derivations; proofs are in Proofs/InputProofs.v.

   Throughout: [toks] are the tokens of the current line (numbered or
   immediate), [loc_idx (loc s)] is the token cursor, [trace_of s] is the one
   TRACE record a numbered line emits when tracing is on (else nothing),
   [reads] is the hook counter of cursor reads.  The statements hold for ANY
   state [s] whose cursor is on an INPUT token: after other statements on the
   line, inside THEN or ELSE, in a loop or subroutine — the surrounding tokens,
   the stacks and everything else are arbitrary. *)
From Coq Require Import List NArith ZArith Bool.
From Abasic Require Import Model.Bytes Model.Token Model.Data Model.State Model.Eval Model.Interp Proofs.StoreProofs
     Proofs.ExprSem Proofs.Safety Proofs.InputProofs.
Import ListNotations.
Local Open Scope nat_scope.

(* Reaching INPUT with no reply pending: the interpreter awaits input; nothing
   but the state flag changes (plus trace record and hook counter); the cursor
   is ON the INPUT token again. *)
Theorem C08_await : forall fuel n s toks,
  fst (cur_tokens s) = Ok toks ->
  nth_error toks (loc_idx (loc s)) = Some TInput ->
  input s = None ->
  1 <= fuel -> n < max_nesting ->
  evaluate_statement fuel n s
  = (Ok tt, set_reads (2 + reads s)
              (set_state AwaitingInput (set_outputs (outputs s ++ trace_of s) s))).
Proof. exact input_awaits. Qed.

(* The host API: the reply is recorded, the interpreter is Running, and the
   next call executes the statement under the cursor — the INPUT token — and
   nothing before it; then the fixed tail of every turn. *)
Theorem C08_resume : forall fuel text s,
  state s = AwaitingInput -> line_exists s (loc s) ->
  nth_error (cur_toks s) (loc_idx (loc s)) = Some TInput ->
  let s1 := snd (provide_input text s) in
  state s1 = Running /\ input s1 = Some text /\ loc s1 = loc s
  /\ continue_evaluating fuel s1
     = postprocess ((evaluate_statement fuel 0 ;;; after_statement) (bump s1)).
Proof. exact reply_resumes_at_input. Qed.

(* A reply whose first item suits the target: for ANY target (scalar or array
   cell) the statement parses the target and then does exactly what the
   assignment statement ends with — [assign_value lv val] — followed by
   EXTRA IGNORED iff anything of the reply is left; text offered to a numeric
   target gives REENTER and awaits again. *)
Theorem C08_reply_any_target : forall fuel n s toks text first more consumed lv s2,
  fst (cur_tokens s) = Ok toks ->
  let i := loc_idx (loc s) in
  nth_error toks i = Some TInput ->
  input s = Some text ->
  parse_data text = (first :: more, consumed) ->
  n < max_nesting ->
  parse_lvalue fuel (S n)
     (at_idx (set_input None s) (S i) (S (reads s)) (outputs s ++ trace_of s)) = (Ok lv, s2) ->
  evaluate_statement (S fuel) n s
  = match coerce_data (lv_sym lv) first with
    | Ok val =>
        (assign_value lv val ;;;
         if excess_of more consumed text then push_output OExtraIgnored else ret tt) s2
    | Err EDataTypeMismatch _ => (push_output OReenter ;;; rewind_program_and_await_input) s2
    | Err e l => (Err e l, s2)
    | _ => (Panic PCellIndex, s2)
    end.
Proof. exact input_reply_any_target. Qed.

(* Scalar target, explicit final state: the variable holds the value, the
   cursor is just after the target, EXTRA IGNORED iff items or text are left,
   every other field is unchanged. *)
Theorem C08_accept : forall fuel n s toks v text first more consumed val,
  fst (cur_tokens s) = Ok toks ->
  let i := loc_idx (loc s) in
  nth_error toks i = Some TInput ->
  nth_error toks (S i) = Some (TSymbol v) ->
  nth_error toks (S (S i)) <> Some TLeftParen ->
  input s = Some text ->
  parse_data text = (first :: more, consumed) ->
  coerce_data v first = Ok val ->
  1 <= fuel -> n < max_nesting ->
  let r := evaluate_statement fuel n s in
  let s' := snd r in
  fst r = Ok tt
  /\ variables s' = alist_set v val (variables s)
  /\ variables s' = variables (snd (variables_set v val s))        (* what LET v = val stores *)
  /\ type_matches v val = true
  /\ input s' = None
  /\ loc s' = mkloc (loc_line (loc s)) (S (S i))
  /\ outputs s' = outputs s ++ trace_of s ++ extra_of more consumed text
  /\ (extra_of more consumed text = [OExtraIgnored] <-> (more <> [] \/ consumed < length text))
  /\ (extra_of more consumed text = [] <-> ~ (more <> [] \/ consumed < length text))
  /\ reads s' = 3 + reads s
  /\ state s' = state s
  /\ arrays s' = arrays s /\ stack s' = stack s
  /\ loops s' = loops s /\ data_it s' = data_it s /\ functions s' = functions s
  /\ breakpoint s' = breakpoint s /\ rng s' = rng s
  /\ st_toks s' = st_toks s /\ st_keys s' = st_keys s /\ immediate s' = immediate s
  /\ enable_warnings s' = enable_warnings s /\ enable_tracing s' = enable_tracing s
  /\ pow_oracle s' = pow_oracle s.
Proof. intros. eapply input_accepts_scalar_frame; eassumption. Qed.

(* ... which is the assignment, as a program: *)
Theorem C08_accept_is_assignment : forall fuel n s toks v text first more consumed val,
  fst (cur_tokens s) = Ok toks ->
  let i := loc_idx (loc s) in
  nth_error toks i = Some TInput ->
  nth_error toks (S i) = Some (TSymbol v) ->
  nth_error toks (S (S i)) <> Some TLeftParen ->
  input s = Some text ->
  parse_data text = (first :: more, consumed) ->
  coerce_data v first = Ok val ->
  1 <= fuel -> n < max_nesting ->
  evaluate_statement fuel n s
  = (assign_value (mklv v None) val ;;;
     if excess_of more consumed text then push_output OExtraIgnored else ret tt)
      (set_input None (at_idx s (S (S i)) (3 + reads s) (outputs s ++ trace_of s))).
Proof. intros. eapply input_accept_is_assignment; eassumption. Qed.

(* Text offered to a numeric variable: REENTER, awaiting input, the cursor ON
   the INPUT token again, the reply consumed, nothing else touched ... *)
Theorem C08_reenter : forall fuel n s toks v text t more consumed,
  fst (cur_tokens s) = Ok toks ->
  let i := loc_idx (loc s) in
  nth_error toks i = Some TInput ->
  nth_error toks (S i) = Some (TSymbol v) ->
  nth_error toks (S (S i)) <> Some TLeftParen ->
  input s = Some text ->
  parse_data text = (DStr t :: more, consumed) ->
  ends_with_dollar v = false ->
  1 <= fuel -> n < max_nesting ->
  evaluate_statement fuel n s
  = (Ok tt,
     set_reads (5 + reads s)
       (set_state AwaitingInput
          (set_input None
             (set_outputs (outputs s ++ trace_of s ++ [OReenter]) s)))).
Proof. exact input_reenter_text. Qed.

(* ... i.e. "the same request again": but for the REENTER record and the hook
   counter the state IS the state of the first request. *)
Theorem C08_reenter_same_request : forall fuel n s toks v text first more consumed,
  fst (cur_tokens s) = Ok toks ->
  let i := loc_idx (loc s) in
  nth_error toks i = Some TInput ->
  nth_error toks (S i) = Some (TSymbol v) ->
  nth_error toks (S (S i)) <> Some TLeftParen ->
  input s = Some text ->
  parse_data text = (first :: more, consumed) ->
  coerce_data v first = Err EDataTypeMismatch None ->
  1 <= fuel -> n < max_nesting ->
  let first_request := snd (evaluate_statement fuel n (set_input None s)) in
  evaluate_statement fuel n s
  = (Ok tt, set_reads (3 + reads first_request)
              (set_outputs (outputs first_request ++ [OReenter]) first_request)).
Proof. intros. eapply input_reenter_same_request; eassumption. Qed.

(* Every reply text whatsoever (numbers, text, empty, quoted, lists, blanks)
   is either stored or refused with REENTER; there is no third outcome. *)
Theorem C08_reply_total : forall fuel n s toks v text,
  fst (cur_tokens s) = Ok toks ->
  let i := loc_idx (loc s) in
  nth_error toks i = Some TInput ->
  nth_error toks (S i) = Some (TSymbol v) ->
  nth_error toks (S (S i)) <> Some TLeftParen ->
  input s = Some text ->
  1 <= fuel -> n < max_nesting ->
  exists first more consumed,
    parse_data text = (first :: more, consumed)
    /\ ((exists val, coerce_data v first = Ok val
                     /\ variables (snd (evaluate_statement fuel n s)) = alist_set v val (variables s)
                     /\ state (snd (evaluate_statement fuel n s)) = state s)
        \/ (coerce_data v first = Err EDataTypeMismatch None
            /\ ends_with_dollar v = false /\ (exists t, first = DStr t)
            /\ variables (snd (evaluate_statement fuel n s)) = variables s
            /\ state (snd (evaluate_statement fuel n s)) = AwaitingInput))
    /\ fst (evaluate_statement fuel n s) = Ok tt.
Proof. exact input_reply_total. Qed.

(* non-vacuity: INPUT inside THEN with an ELSE behind it, in a FOR loop inside
   a subroutine.  After RUN and some turns the interpreter awaits input with
   the cursor on the INPUT token (the premises of C08_resume), a text reply is
   refused with REENTER, a numeric one is stored, and the ELSE is skipped. *)
Definition C08_demo_ops : list hostop :=
  map (fun t => HLine (bs t))
      ["10 GOSUB 30"; "20 END"; "30 FOR I = 1 TO 2";
       "40 IF I THEN INPUT X : PRINT X+I ELSE PRINT ""NO"""; "50 NEXT I : RETURN"; "RUN"]%string
  ++ [HCont; HCont; HCont].

Example C08_example :
  let s := run_state 200 init_interp C08_demo_ops in
  state s = AwaitingInput /\ line_exists s (loc s)
  /\ nth_error (cur_toks s) (loc_idx (loc s)) = Some TInput
  /\ input s = None /\ stack s <> [] /\ loops s <> []
  /\ map (fun o => option_map r_outputs o)
         (run_ops 200 s [HReply (bs "abc"); HCont; HReply (bs "7, 8"); HCont; HCont; HCont])
     = [Some []; Some (canon_output OReenter); Some []; Some (canon_output OExtraIgnored); Some [];
        Some (canon_output (OPrint (bs "8" ++ [10%N])))].
Proof. vm_compute. repeat split; congruence. Qed.

Print Assumptions C08_await.
Print Assumptions C08_resume.
Print Assumptions C08_reply_any_target.
Print Assumptions C08_accept.
Print Assumptions C08_accept_is_assignment.
Print Assumptions C08_reenter.
Print Assumptions C08_reenter_same_request.
Print Assumptions C08_reply_total.
