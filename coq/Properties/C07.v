(* C07 — Break and CONT are transparent to the interrupted program.
   Statements and a few short derivations; proofs are in Proofs/BreakCont.v and Proofs/Inspect.v (on
   Proofs/RunInv.v, Proofs/InputProofs.v).

   [step fuel s op] is one host call on the model ([HBreak] =
   break_at_current_location, [HLine CONT] = typing CONT, [HCont] =
   continue_evaluating, [HReply t] = provide_input); [call_obs] is the same
   call as (outcome, output records, state after).  [J s] is the invariant of a
   program started by RUN (no breakpoint pending, empty immediate line, cursor
   / return addresses / loop starts on numbered lines); [Inv s] says the
   output was taken and J holds while the program is going. *)
From Coq Require Import List NArith ZArith Bool.
From Abasic Require Import Model.Bytes Model.State Model.Interp Proofs.StoreProofs Proofs.Safety Proofs.FlagsSim
     Proofs.InputProofs Proofs.BreakCont Proofs.EditProbes Proofs.Inspect.
Import ListNotations.
Local Open Scope nat_scope.

(* A break while Running, then CONT: the complete state and the complete row
   (outcome, state, outputs, caret, message, hook counter, snapshot) are those
   of the plain continue call; the break call itself shows only the BREAK
   notice and an idle interpreter.  GOSUB / function stack, FOR stack, DATA
   cursor, variables ... all survive: the states are EQUAL. *)
Theorem C07_break_cont_running : forall fuel s n,
  state s = Running -> loc_line (loc s) = Some n ->
  breakpoint s = None -> immediate s = [] -> outputs s = [] ->
  let '(rb, s1) := step fuel s HBreak in
  let '(rc, s2) := step fuel s1 (HLine CONT) in
  let '(r, s') := step fuel s HCont in
  s2 = s' /\ rc = r
  /\ exists row, rb = Some row
       /\ r_outputs row = outputs_text [OBreak (Some n)]
       /\ r_state row = show_state Idle
       /\ r_outcome row = bs "ok".
Proof. exact break_cont_running. Qed.

(* A break while awaiting input, then CONT: the same request again — the
   state is the interrupted state (but for the hook counter), the call shows
   nothing but the trace record of the re-executed INPUT. *)
Theorem C07_break_cont_awaiting : forall fuel s n,
  awaiting_ok s -> loc_line (loc s) = Some n ->
  breakpoint s = None -> immediate s = [] -> outputs s = [] -> 1 <= fuel ->
  call_obs fuel s HBreak = Some (Ok tt, [OBreak (Some n)], broken n (loc_idx (loc s)) s)
  /\ call_obs fuel (broken n (loc_idx (loc s)) s) (HLine CONT) = Some (Ok tt, trace_of s, set_reads 4 s).
Proof.
  intros fuel s n Haw Hl Hbp Himm Hout Hf. split.
  - rewrite (call_obs_break fuel s n (or_intror (proj1 Haw)) Hl), Hout. reflexivity.
  - apply break_cont_awaiting; assumption.
Qed.

(* RUN establishes the invariant; every driving call keeps it. *)
Theorem C07_run_establishes : forall fuel s,
  state s = Idle ->
  match call_obs fuel s (HLine (bs "RUN")) with
  | Some (Ok _, _, s') => Inv s'
  | _ => True
  end.
Proof. exact Inv_after_run. Qed.

Theorem C07_invariant_kept : forall fuel s op,
  Inv s -> drive op ->
  match call_obs fuel s op with Some (x, _, _) => is_val x | None => True end ->
  Inv (snd (step fuel s op)).
Proof. exact Inv_step. Qed.

(* EVERY schedule: any choice of turn boundaries (while Running: the break +
   CONT pair replaces the continue call; while awaiting input: the pair is
   inserted) — what the program shows (all output records but BREAK notices and
   trace records, and its errors) and the final state are those of the
   uninterrupted run.  [values]: the calls of the plain run return values or
   errors (no Panic: C01; no model-side OutOfFuel / OracleMiss). *)
Theorem C07_schedule : forall fuel s ops ops',
  sched fuel s ops ops' -> 1 <= fuel ->
  forall t, eqr t s -> Inv s -> values fuel s ops ->
  transcript fuel t ops' = transcript fuel s ops
  /\ eqr (run_state fuel t ops') (run_state fuel s ops).
Proof. exact break_schedule. Qed.

(* Inspection: CONT — and the whole continuation — reads the breakpoint and the
   runtime part of the state only, not the immediate line, the cursor or the
   hook counter.  An inspection line, succeeding or failing, changes the
   continuation only if it changes the runtime part. *)
Theorem C07_inspect : forall fuel s1 s2 ops,
  state s1 = Idle -> breakpoint s1 <> None -> norm s1 = norm s2 ->
  transcript fuel s1 (HLine CONT :: ops) = transcript fuel s2 (HLine CONT :: ops)
  /\ run_state fuel s1 (HLine CONT :: ops) = run_state fuel s2 (HLine CONT :: ops).
Proof. exact continuation_reads_runtime_only. Qed.

(* ... and an inspection line DOES leave the runtime part alone
   (Proofs/Inspect.v).  [imm_line text ts]: the text is no command, has no line
   number and tokenizes to ts.  [insp_line ts]: PRINT / ? statements separated
   by ":" over ANY item lists and expressions in which no name is followed by
   "(" except ABS and INT (no array reference — it may dimension the array —,
   no RND — it advances the generator —, no user-function call).  Typed at a
   breakpoint and driven by any number of continue calls, succeeding or
   failing ([values]: each call answers a value or an error): the runtime part
   ([core]: everything but cursor, immediate line, output queue, state flag and
   hook counter) never changes, and once the interpreter is idle again its
   [norm] is the one at the breakpoint ... *)
Theorem C07_inspection_keeps_runtime : forall fuel text ts s0,
  state s0 = Idle -> breakpoint s0 <> None -> outputs s0 = [] ->
  imm_line text ts -> insp_line ts = true ->
  forall k, values fuel s0 (HLine text :: conts k) ->
  let s := run_state fuel s0 (HLine text :: conts k) in
  Mid ts s0 s /\ (state s = Idle -> norm s = norm s0).
Proof. exact inspection_keeps_runtime. Qed.

(* ... so CONT after it, and the whole continuation, is CONT without it *)
Theorem C07_inspection_transparent : forall fuel text ts s0 k ops,
  state s0 = Idle -> breakpoint s0 <> None -> outputs s0 = [] ->
  imm_line text ts -> insp_line ts = true -> values fuel s0 (HLine text :: conts k) ->
  state (run_state fuel s0 (HLine text :: conts k)) = Idle ->
  transcript fuel (run_state fuel s0 (HLine text :: conts k)) (HLine CONT :: ops) = transcript fuel s0 (HLine CONT :: ops)
  /\ run_state fuel (run_state fuel s0 (HLine text :: conts k)) (HLine CONT :: ops) = run_state fuel s0 (HLine CONT :: ops).
Proof. exact inspection_transparent. Qed.

(* No evaluator ever returns a tokenizer error, so the row of "CONT" (which has
   a source text) and the row of a plain continue (which has none) render the
   same caret. *)
Theorem C07_no_tokenizer_error_at_run_time : forall fuel, nosyn (run_next_statement fuel).
Proof. exact nosyn_run_next_statement. Qed.

(* Non-vacuity: a program stopped by the host inside a GOSUB inside a FOR with
   DATA half read and an INPUT pending.  The state after RUN satisfies Inv, the
   awaiting state satisfies awaiting_ok, a failing inspection line (PRINT 1/0)
   leaves the runtime part alone, and a broken run shows what the plain run
   shows. *)
Definition C07_prog : list hostop :=
  map (fun t => HLine (bs t))
      ["10 DATA 5,6"; "20 FOR I = 1 TO 2"; "30 GOSUB 60"; "40 NEXT I"; "50 END";
       "60 READ A : INPUT X : PRINT A+X+I"; "70 RETURN"]%string.

Definition C07_s0 : interp := run_state 300 init_interp (C07_prog ++ [HLine (bs "RUN")]).
Definition C07_plain : list hostop :=
  [HCont; HCont; HCont; HCont; HCont; HReply (bs "1"); HCont; HCont; HCont; HCont; HCont; HCont; HCont; HCont; HCont;
   HReply (bs "2"); HCont; HCont; HCont; HCont; HCont; HCont].
Definition C07_broken : list hostop :=
  [HCont; HBreak; HLine CONT; HCont; HCont; HCont; HBreak; HLine (bs "PRINT 1/0"); HLine CONT; HReply (bs "1");
   HBreak; HLine CONT; HCont; HCont; HBreak; HLine CONT; HCont; HCont; HCont; HCont; HCont;
   HReply (bs "2"); HCont; HCont; HCont; HCont; HCont; HCont].

Example C07_example :
  Inv C07_s0 /\ state C07_s0 = Running
  /\ awaiting_ok (run_state 300 C07_s0 [HCont; HCont; HCont; HCont; HCont])
  /\ transcript 300 C07_s0 C07_plain
     = ([OPrint (bs "7" ++ [10%N]); OPrint (bs "10" ++ [10%N])], [])
  /\ fst (transcript 300 C07_s0 C07_broken) = fst (transcript 300 C07_s0 C07_plain)
  /\ snd (transcript 300 C07_s0 C07_broken) = [(EDivisionByZero, Some (mkloc None 3))]   (* the inspection line's own error *)
  /\ state (run_state 300 C07_s0 C07_plain) = Idle
  /\ eqr (run_state 300 C07_s0 C07_broken) (run_state 300 C07_s0 C07_plain).
Proof.
  (* each of the two histories is run once ([calls_run]) and the statement evaluated whole, so that [C07_s0]
     (seven lines tokenized and stored, RUN) is computed once *)
  pattern (transcript 300 C07_s0 C07_plain), (run_state 300 C07_s0 C07_plain). apply calls_run.
  pattern (transcript 300 C07_s0 C07_broken), (run_state 300 C07_s0 C07_broken). apply calls_run.
  vm_compute. split; [split; [reflexivity | intros _; split; cbn; repeat constructor; discriminate]|].
  repeat split; congruence.
Qed.

(* non-vacuity of the inspection theorem: the program above, broken inside the
   subroutine inside the loop; a three-statement inspection line whose second
   statement fails *)
Example C07_inspection_example :
  let s0 := run_state 300 C07_s0 [HCont; HCont; HCont; HBreak] in
  let text := bs "PRINT I; A : ? ABS(0-I)/0 : PRINT X" in
  state s0 = Idle /\ breakpoint s0 <> None /\ outputs s0 = []
  /\ (exists ts, imm_line text ts /\ insp_line ts = true)
  /\ values 300 s0 (HLine text :: conts 2)
  /\ state (run_state 300 s0 (HLine text :: conts 2)) = Idle
  /\ snd (transcript 300 s0 (HLine text :: conts 2)) = [(EDivisionByZero, Some (mkloc None 13))].
Proof.
  intros s0 text. pattern (transcript 300 s0 (HLine text :: conts 2)), (run_state 300 s0 (HLine text :: conts 2)). apply calls_run.
  vm_compute. split; [reflexivity|]. split; [discriminate|]. split; [reflexivity|].
  split; [eexists; split; [repeat split; eexists; split; reflexivity | reflexivity]|].
  repeat split.
Qed.

Print Assumptions C07_break_cont_running.
Print Assumptions C07_break_cont_awaiting.
Print Assumptions C07_run_establishes.
Print Assumptions C07_invariant_kept.
Print Assumptions C07_schedule.
Print Assumptions C07_inspect.
Print Assumptions C07_no_tokenizer_error_at_run_time.
Print Assumptions C07_inspection_keeps_runtime.
Print Assumptions C07_inspection_transparent.
