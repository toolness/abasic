(* C11 — Editing the program invalidates every runtime reference into it.
   Statements only; proofs are in Proofs/ResetProofs.v, EditProbes.v. *)
From Coq Require Import List NArith ZArith Bool.
From Abasic Require Import Model.Bytes Model.Num Model.Token Model.State Model.Eval Model.Interp Proofs.StoreProofs
     Proofs.ResetProofs Proofs.EditProbes.
Import ListNotations.

(* Any idle state whatsoever (at a breakpoint, inside loops and subroutines,
   with a half-read DATA list ...), any line that is a numbered edit: *)
Theorem C11_edit : forall fuel line s n v,
  state s = Idle -> edit_of line = Some (n, v) ->
  let '(r, s') := start_evaluating fuel line s in
  r = Ok tt
  /\ breakpoint s' = None /\ stack s' = [] /\ loops s' = [] /\ functions s' = [] /\ data_it s' = None
  /\ loc s' = imm0 /\ immediate s' = [] /\ state s' = Idle
  /\ variables s' = variables s /\ arrays s' = arrays s /\ rng s' = rng s /\ input s' = input s
  /\ outputs s' = outputs s
  /\ st_toks s' = st_toks (store_set n v s) /\ st_keys s' = st_keys (store_set n v s).
Proof. exact edit_invalidates. Qed.

(* probe: CONT can resume nothing *)
Theorem C11_cont : forall fuel fuel' line s n v,
  state s = Idle -> edit_of line = Some (n, v) ->
  fst (start_evaluating fuel' (bs "CONT") (snd (start_evaluating fuel line s)))
  = Err ECannotContinue (Some imm0).
Proof. exact cont_after_edit. Qed.

(* A rejected edit (tokenization error) is reported as such, leaves program,
   breakpoint, loops, functions, data cursor, variables, arrays, generator
   and pending reply untouched (and the GOSUB stack too whenever something
   could still be resumed), and no later line entry can tell it happened. *)
Theorem C11_rejected : forall fuel line s,
  state s = Idle -> rejected line ->
  let s' := snd (start_evaluating fuel line s) in
  state s' = Idle
  /\ (forall fuel' line', start_evaluating fuel' line' s' = start_evaluating fuel' line' s)
  /\ st_toks s' = st_toks s /\ st_keys s' = st_keys s /\ breakpoint s' = breakpoint s
  /\ loops s' = loops s /\ functions s' = functions s /\ data_it s' = data_it s
  /\ variables s' = variables s /\ arrays s' = arrays s /\ rng s' = rng s /\ input s' = input s
  /\ (breakpoint s <> None -> stack s' = stack s).
Proof. exact rejected_edit_invisible. Qed.

Theorem C11_rejected_error : forall fuel line s,
  state s = Idle -> rejected line ->
  exists e, start_evaluating fuel line s = (Err (ESyntaxTok e) (Some imm0), imm_reset [] s).
Proof. exact rejected_edit_state. Qed.

(* The other probes, after any successful edit from any idle state
   (Proofs/EditProbes.v).  An immediate line is any text that is no command,
   has no line number and tokenizes ([imm_line]):
   - any immediate line starting with RETURN fails with RETURN WITHOUT GOSUB;
   - any immediate line starting with NEXT w, w holding a number (NEXT A$ is a
     TYPE MISMATCH whether or not a loop is open), fails with NEXT WITHOUT FOR
     and leaves the variables alone;
   - no name is a user-defined function any more: the lookup every call FNA(1) starts
     with answers "none" (the term is then read as an array cell);
   - the next DATA item is what it is in ANY state holding the same program
     with no data cursor - a freshly started one included: the first DATA item
     of the program as edited.
   The last two are about the primitives a function call and READ go through
   ([user_function_call], [next_data_element]), not about immediate lines. *)
Theorem C11_probes : forall fuel line s n v,
  state s = Idle -> edit_of line = Some (n, v) ->
  let s' := snd (start_evaluating fuel line s) in
  (forall f l tl, imm_line l (TReturn :: tl) ->
     exists lc s2, start_evaluating (S f) l s' = (Err EReturnWithoutGosub (Some lc), s2) /\ loc_line lc = None /\ state s2 = Idle)
  /\ (forall f l w x tl, var_read w s = VNum x -> imm_line l (TNext :: TSymbol w :: tl) ->
     exists lc s2, start_evaluating (S f) l s' = (Err ENextWithoutFor (Some lc), s2) /\ loc_line lc = None /\ state s2 = Idle
                   /\ variables s2 = variables s)
  /\ (forall (rec : M value) name, user_function_call rec name s' = (Ok None, s'))
  /\ (forall s2, data_it s2 = None -> st_keys s2 = st_keys s' -> st_toks s2 = st_toks s' ->
        fst (next_data_element s') = fst (next_data_element s2)).
Proof. exact probes_after_edit. Qed.

(* non-vacuity: the probe lines are immediate lines *)
Example C11_probe_lines :
  imm_line (bs "RETURN") [TReturn] /\ imm_line (bs "next i") [TNext; TSymbol (bs "I")]
  /\ imm_line (bs "RETURN : PRINT 1") (TReturn :: [TColon; TPrint; TNumber (f64_of_Z 1)]).
Proof. repeat split; try (vm_compute; reflexivity); eexists; (split; [vm_compute; reflexivity | reflexivity]). Qed.

(* non-vacuity: an edit at a breakpoint inside FOR + GOSUB with DATA half read *)
Example C11_example :
  let ops := map (fun t => HLine (bs t))
               ["10 DATA 1,2"; "20 FOR I=1 TO 3"; "30 GOSUB 50"; "40 NEXT I"; "50 READ A : STOP"; "RUN"]%string
             ++ [HCont; HCont; HCont; HCont; HCont] in
  let s := run_state 100 init_interp ops in
  state s = Idle /\ breakpoint s <> None /\ stack s <> [] /\ loops s <> [] /\ data_it s <> None
  /\ edit_of (bs "15 REM x") = Some (15%N, [TRemark (bs " x")]).
Proof. vm_compute. repeat split; congruence. Qed.

Print Assumptions C11_edit.
Print Assumptions C11_cont.
Print Assumptions C11_rejected.
Print Assumptions C11_rejected_error.
Print Assumptions C11_probes.
