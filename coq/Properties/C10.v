(* C10 — RUN starts from a clean slate regardless of session history.
   Statements only; proofs are in Proofs/ResetProofs.v, StoreBehaviour.v. *)
From Coq Require Import List NArith ZArith Bool.
From Abasic Require Import Model.Bytes Model.State Model.Interp Proofs.StoreProofs Proofs.ResetProofs Proofs.StoreExt
     Proofs.StoreBehaviour.
Import ListNotations.

(* [persistent_eq]: same program (both indexes), same generator state, same
   two flags (and the same model-only pow oracle).  NOTHING ELSE is assumed
   about the two states: variables, arrays, loops, GOSUB/FN stack, functions,
   data cursor, breakpoint, pending reply, immediate line and cursor may all
   differ arbitrarily -- i.e. the two interpreters may have any histories. *)
Theorem C10_clean : forall fuel s1 s2,
  state s1 = Idle -> state s2 = Idle -> persistent_eq s1 s2 -> outputs s1 = outputs s2 ->
  step fuel s1 (HLine (bs "RUN")) = step fuel s2 (HLine (bs "RUN")).
Proof. exact run_clean_slate. Qed.
Check C10_clean : forall fuel s1 s2,
  state s1 = Idle -> state s2 = Idle -> persistent_eq s1 s2 -> outputs s1 = outputs s2 ->
  step fuel s1 (HLine (bs "RUN")) = step fuel s2 (HLine (bs "RUN")).

(* ... and so is every later call of the session (the rows; each carries the snapshot of the state) *)
Theorem C10_history : forall fuel ops s1 s2,
  state s1 = Idle -> state s2 = Idle -> persistent_eq s1 s2 -> outputs s1 = outputs s2 ->
  run_ops fuel s1 (HLine (bs "RUN") :: ops) = run_ops fuel s2 (HLine (bs "RUN") :: ops).
Proof. exact run_clean_slate_history. Qed.

(* "holding the same program" need not mean the same internal store: two
   interpreters whose programs are equal as MAPS from line numbers to tokens
   and list the same keys ([same_program]: the internal order of the token
   table may differ -- entered in different orders, edited differently on the
   way; equal key lists follow from equal maps when both stores satisfy
   [store_ok], which this statement does not assume) answer RUN
   and every later call with the same rows — outcome, state, drained output
   queue, caret, message, reads (Proofs/StoreExt.v, StoreBehaviour.v) *)
Theorem C10_history_same_map : forall fuel s t ops,
  state s = Idle -> state t = Idle -> same_program s t ->
  rng s = rng t -> enable_warnings s = enable_warnings t -> enable_tracing s = enable_tracing t ->
  pow_oracle s = pow_oracle t -> outputs s = outputs t ->
  Forall2 orow_same (run_ops fuel s (HLine (bs "RUN") :: ops)) (run_ops fuel t (HLine (bs "RUN") :: ops))
  /\ sim (run_state fuel s (HLine (bs "RUN") :: ops)) (run_state fuel t (HLine (bs "RUN") :: ops)).
Proof. exact run_depends_on_map. Qed.

(* what RUN computes before the first statement is an explicit function of
   the persistent part only *)
Theorem C10_reset : forall fuel s, state s = Idle ->
  evaluate_impl fuel (bs "RUN") s = run_next_statement fuel (clean s).
Proof. exact evaluate_impl_RUN. Qed.

(* non-vacuity: a state with a variable, an array, an open loop, a frame, a
   half-read DATA list, a breakpoint and a pending reply, against the state
   of a fresh interpreter holding the same two lines *)
Example C10_example :
  let prog := [HLine (bs "10 DATA 1,2"); HLine (bs "20 PRINT X")] in
  let dirty := [HLine (bs "X = 5"); HLine (bs "DIM A(3)"); HLine (bs "FOR I = 1 TO 9"); HLine (bs "READ Q")] in
  let s1 := run_state 100 init_interp (prog ++ dirty) in
  let s2 := run_state 100 init_interp prog in
  state s1 = Idle /\ state s2 = Idle /\ persistent_eq s1 s2 /\ outputs s1 = outputs s2
  /\ variables s1 <> variables s2 /\ loops s1 <> loops s2 /\ data_it s1 <> data_it s2.
Proof. vm_compute. repeat split; congruence. Qed.

Print Assumptions C10_clean.
Print Assumptions C10_history.
Print Assumptions C10_history_same_map.
Print Assumptions C10_reset.
