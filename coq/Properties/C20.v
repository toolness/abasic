(* C20 — The language server survives any document and reports in-bounds positions.
   Statements and a few short derivations; proofs are in Proofs/LspProofs.v, on top of C05
   (Proofs/AnalyzerProofs.v) and C13 (Proofs/LexerRanges.v).

   [lsp_answer fuel text] is what the server publishes / returns for a
   document whose latest text is [text]: the diagnostics (analyze_source_file)
   and the delta-encoded semantic tokens (get_semantic_tokens) of the analysis
   of that text — a function of the latest text only.  A document's lines are
   its LF-separated pieces; columns are UTF-16 code units ([utf16_col],
   [utf16_width]). *)
From Coq Require Import List NArith ZArith Bool.
From Abasic Require Import Model.Bytes Model.Analyzer Model.Lsp Proofs.AnalyzerProofs Proofs.LspProofs.
Import ListNotations.
Local Open Scope nat_scope.

(* Every diagnostic lies inside the document: an existing line, start <= end
   <= the line's width, in UTF-16 units.  The premise on [msg_ok] (as in
   C05_diag: it constrains tokenizer-error messages only) is not needed and
   the proof discards it: every message of the analysis maps into its line
   (C05_diagnostics_well_formed). *)
Theorem C20_inbounds : forall fuel text d,
  Forall (fun l => valid_utf8 l = true) (split_lines text) ->
  Forall (msg_ok (sm_ranges (an_map (analyze fuel text)))) (an_messages (analyze fuel text)) ->
  In d (diagnostics_of (split_lines text) (analyze fuel text)) ->
  d_line d < length (split_lines text)
  /\ d_start d <= d_end d
  /\ d_end d <= utf16_width (nth (d_line d) (split_lines text) []).
Proof. intros fuel text d Hv _. exact (diagnostics_in_bounds fuel text d Hv). Qed.

(* The diagnostics are exactly those of the analyzer's messages that map to a
   source position: nothing else, nothing dropped (as sets). *)
Theorem C20_complete : forall lines a d,
  In d (diagnostics_of lines a) <->
  exists msg fl x y, In msg (an_messages a) /\ map_to_source (an_map a) msg = Some (fl, (x, y))
    /\ d = mkdiag fl (utf16_col (nth fl lines []) x) (utf16_col (nth fl lines []) y) (severity_of msg).
Proof. exact diagnostics_complete. Qed.

(* Semantic tokens: the delta encoding decodes, for every text, to exactly the
   analyzer's tokens, line by line in order: so no start delta underflowed
   (Model/Lsp.v subtracts in [nat]; a truncated delta would decode to another
   column).  The lengths are [e - s] on both sides; [s <= e] is C05_tokens'
   [a <= b] under C20_columns_monotone ... *)
Theorem C20_tokens_decode : forall fuel text,
  Forall (fun l => valid_utf8 l = true) (split_lines text) ->
  decode_tokens (semantic_tokens_of (split_lines text) (analyze fuel text)) 0 0
  = abs_from (split_lines text) (an_tokens (analyze fuel text)) 0.
Proof. intros fuel text _. apply analysis_tokens_decode. Qed.

(* ... each of which lies inside its line (existing line, start + length <= width) ... *)
Theorem C20_tokens_inbounds : forall lines tss i t,
  Forall (fun lt => ordered 0 lt) tss -> In t (abs_from lines tss i) ->
  let '(l, s, n, c) := t in i <= l /\ l < i + length tss /\ s + n <= utf16_width (nth l lines []).
Proof. exact abs_from_in_bounds. Qed.

(* ... with a type below 8, the length of the advertised legend ([lsp_legend],
   regenerated into Gen/Tables.v with the class -> index map [lsp_class_index];
   the 8 in [cls_ok] is a literal and the model sends the class itself as the
   index: no statement reads the two tables). *)
Theorem C20_token_types : forall fuel text, Forall cls_ok (an_tokens (analyze fuel text)).
Proof. exact token_types_in_legend. Qed.

Theorem C20_columns_monotone : forall line a b, a <= b -> utf16_col line a <= utf16_col line b <= utf16_width line.
Proof. intros line a b H. split; [apply utf16_col_mono, H|apply utf16_col_le_width]. Qed.

(* Liveness (the process keeps answering; every open/change is answered by one
   publishDiagnostics for the latest text; shutdown/exit end it with status 0)
   lives in the runtime: it is exercised on the real abasic-lsp binary over
   stdio on every run, and rests on C05's totality (C05_total). *)

(* non-vacuity: `20 PRINT "é" + 1` — the TYPE MISMATCH diagnostic is at UTF-16
   columns 15..16 of a 16-unit line (bytes 16..17 of a 17-byte line) *)
Example C20_example :
  let text := bs "20 PRINT """ ++ [195; 169]%N ++ bs """ + 1" in
  map canon_diag (fst (lsp_answer 100 text)) = [bs "0.15.16.1"]
  /\ utf16_width text = 16 /\ length text = 17
  /\ decode_tokens (snd (lsp_answer 100 text)) 0 0
     = [(0, 0, 2, 2%N); (0, 3, 5, 5%N); (0, 9, 3, 1%N); (0, 13, 1, 3%N); (0, 15, 1, 2%N)].
Proof. vm_compute. repeat split. Qed.

Print Assumptions C20_inbounds.
Print Assumptions C20_complete.
Print Assumptions C20_tokens_decode.
Print Assumptions C20_tokens_inbounds.
Print Assumptions C20_token_types.
Print Assumptions C20_columns_monotone.
