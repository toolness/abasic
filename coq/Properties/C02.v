(* C02 — Expressions evaluate per the language's precedence, associativity
   and typing.  Statements only; proofs are in Proofs/ExprSem.v.

   [expr]     : syntax trees (numbers, strings, variables, one unary +/-/NOT,
                the 13 binary operators, ABS, INT, redundant parentheses);
   [den s e]  : the strict left-to-right fold of the tree, defined on the tree with no cursor
                and no token; at each node it applies the operator functions of Model/Eval.v
                (operators.rs as modelled: [eval_unary], [eval_or] .. [eval_pow]), so what is
                proved here is the grouping and the order of evaluation; what the operators do
                to numbers and strings is read off [den] in ExprSem's Section DenFacts;
   [Renders 0 e ts] : [ts] is a token spelling of [e] the grammar admits:
                left operand at the operator's own tier, right operand one
                tier tighter (left grouping), tiers OR < AND < comparisons <
                + - < * / < ^ < unary < atom, parentheses anywhere. *)
From Coq Require Import List.
From Abasic Require Import Model.State Model.Eval Proofs.ExprSem.
Import ListNotations.
Local Open Scope nat_scope.

(* The token walker computes exactly the fold: same value, or the same error
   kind (TYPE MISMATCH, DIVISION BY ZERO, ...), for EVERY tree and EVERY legal
   spelling, from every state and cursor position; on success the cursor is
   right after the expression; nothing else in the state changes (warnings off;
   ExprSem.expr_sem_gen is the version with warnings on). *)
Theorem C02_expr : forall e ts, Renders 0 e ts ->
  forall s pre rest n, enable_warnings s = false ->
    fst (cur_tokens s) = Ok (pre ++ ts ++ rest) -> loc_idx (loc s) = length pre ->
    stops 0 rest = true ->
    n + pdepth e < max_nesting ->
  exists fuel0, forall fuel, fuel0 <= fuel ->
    let '(r, s') := evaluate_expression fuel n s in
    r = den s e
    /\ (forall v, r = Ok v ->
          s' = set_reads (reads s')
                 (set_loc (mkloc (loc_line (loc s)) (length pre + length ts)) s))
    /\ set_reads 0 (set_loc (loc s) s') = set_reads 0 s.
Proof. exact expr_sem. Qed.
Check C02_expr : forall e ts, Renders 0 e ts ->
  forall s pre rest n, enable_warnings s = false ->
    fst (cur_tokens s) = Ok (pre ++ ts ++ rest) -> loc_idx (loc s) = length pre ->
    stops 0 rest = true -> n + pdepth e < max_nesting ->
  exists fuel0, forall fuel, fuel0 <= fuel ->
    let '(r, s') := evaluate_expression fuel n s in
    r = den s e
    /\ (forall v, r = Ok v ->
          s' = set_reads (reads s') (set_loc (mkloc (loc_line (loc s)) (length pre + length ts)) s))
    /\ set_reads 0 (set_loc (loc s) s') = set_reads 0 s.

Theorem C02_parens_den : forall s e1 e2, erase_parens e1 = erase_parens e2 -> den s e1 = den s e2.
Proof. exact den_parens. Qed.

Theorem C02_parens : forall e1 e2 ts1 ts2,
  Renders 0 e1 ts1 -> Renders 0 e2 ts2 -> erase_parens e1 = erase_parens e2 ->
  forall s1 s2 pre1 pre2 rest1 rest2 n1 n2,
    variables s1 = variables s2 -> stack s1 = stack s2 -> pow_oracle s1 = pow_oracle s2 ->
    fst (cur_tokens s1) = Ok (pre1 ++ ts1 ++ rest1) -> loc_idx (loc s1) = length pre1 ->
    stops 0 rest1 = true -> n1 + pdepth e1 < max_nesting ->
    fst (cur_tokens s2) = Ok (pre2 ++ ts2 ++ rest2) -> loc_idx (loc s2) = length pre2 ->
    stops 0 rest2 = true -> n2 + pdepth e2 < max_nesting ->
  exists fuel0, forall fuel, fuel0 <= fuel ->
    fst (evaluate_expression fuel n1 s1) = fst (evaluate_expression fuel n2 s2).
Proof. exact expr_parens. Qed.

(* the quantifier is not vacuous: every tree has a legal spelling with the
   same denotation *)
Theorem C02_every_tree : forall e,
  exists e' ts, erase_parens e' = erase_parens e /\ Renders 0 e' ts /\ forall s, den s e' = den s e.
Proof. exact every_tree_spelled. Qed.

(* `^` is f64::powf, an oracle on both sides: the theorem fixes only where it
   sits in the tree.  Function calls, RND and array cells are outside [expr]
   (exercised by the correspondence and by C03's oracle). *)

Print Assumptions C02_expr.
Print Assumptions C02_parens_den.
Print Assumptions C02_parens.
Print Assumptions C02_every_tree.
