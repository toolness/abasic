(* C09 — One host call executes at most one statement and hands control back.
   Statements and a few short derivations; proofs are in Proofs/TurnProofs.v, Termination.v, WorkBound.v.

   What shows that a statement was executed are its output records: PRINT
   pushes at most one Print record, INPUT at most one Reenter / ExtraIgnored,
   STOP one Break record ([shows]); with tracing on, every entry of the
   statement evaluator pushes one Trace record naming the current line.
   Expressions — user-function bodies included — push nothing but warnings. *)
From Coq Require Import List NArith ZArith Bool.
From Abasic Require Import Model.Bytes Model.Lexer Model.State Model.Eval Model.Interp Proofs.Safety Proofs.FlagsSim
     Proofs.TurnProofs Proofs.Termination Proofs.WorkBound.
Import ListNotations.
Local Open Scope nat_scope.

(* The call that continues a running program, from ANY well-formed state
   (every reachable state is well-formed: C01_inv): at most one record that
   shows an executed statement — an IF together with the single statement it
   selects counts as one — and every Trace record names the one line the cursor
   was on when the call began. *)
Theorem C09_continue : forall fuel s,
  wf s -> state s = Running ->
  exists new, outputs (snd (continue_evaluating fuel s)) = outputs s ++ new
              /\ length (filter shows new) <= 1
              /\ Forall (trace_ok (loc_line (loc s))) new.
Proof. exact continue_one_statement. Qed.

(* The calls that START evaluation — an immediate statement line, RUN, CONT
   (LIST and the other commands execute no statement). *)
Theorem C09_start : forall fuel line s,
  wf s -> starts_statement line ->
  exists new, outputs (snd (start_evaluating fuel line s)) = outputs s ++ new
              /\ length (filter shows new) <= 1.
Proof. exact start_one_statement. Qed.

(* the common core of both *)
Theorem C09_turn : forall fuel s,
  wf s ->
  exists new, outputs (snd (run_next_statement fuel s)) = outputs s ++ new
              /\ length (filter shows new) <= 1
              /\ Forall (trace_ok (loc_line (loc s))) new.
Proof. exact one_statement_per_turn. Qed.

(* Expression evaluation — every user-function body is an expression — appends
   only Warning records, for every outcome. *)
Theorem C09_expressions_silent : forall fuel n s,
  exists new, outputs (snd (evaluate_expression fuel n s)) = outputs s ++ new /\ Forall is_warning new.
Proof. intros fuel n s. exact (rq_evaluate_expression fuel n s). Qed.

(* "Always hands control back".  The interpreter's loops (operator tiers,
   subscript lists, PRINT items, READ targets, the IF scan, DEF parameters and
   body) and its recursion (parentheses, user-function bodies, nested IFs) are
   modelled with fuel; that a host call returns is, in the model, that the fuel
   suffices.  From EVERY well-formed state (every reachable state is: C01_inv),
   with fuel above a bound that depends only on the longest token list the
   cursor can be on (stored lines, immediate line, the submitted line) and the
   nesting cap, the call never answers OutOfFuel (Proofs/Termination.v: an
   evaluator never moves the cursor backwards and returns to its line after a
   user-function call; a successful expression consumes a token; every
   continuing loop iteration consumes a token; recursion costs one unit of
   fuel per level of the shared nesting counter).  provide_input and
   break_at_current_location contain no loop at all. *)
Theorem C09_continue_returns : forall fuel s,
  wf s -> call_bound s < fuel -> fst (continue_evaluating fuel s) <> OutOfFuel.
Proof. exact continue_returns. Qed.

Theorem C09_start_returns : forall fuel line s,
  wf s -> start_bound s line < fuel -> fst (start_evaluating fuel line s) <> OutOfFuel.
Proof. exact start_returns. Qed.

(* "For programs that call no user-defined function, the work done in one call
   is bounded by the length of the line being executed" (Proofs/WorkBound.v).
   Work = token-cursor reads, the hook counter [reads] (the model's counter
   EQUALS the implementation's on every call of every correspondence case).
   [room s] = tokens left on the line the cursor is on, [loc_idx (loc s)] =
   tokens before it.  With an empty function table, from EVERY well-formed
   state, one turn costs at most 12 reads per token left, plus one read per
   token before the cursor (INPUT rewinding over its own statement), plus 4.
   A potential argument over every evaluator: a read that consumes a token is
   paid by that token; the reads that consume nothing are counted along every
   path and covered by the tokens the path did consume, up to the constant. *)
Theorem C09_work_bound_turn : forall fuel s, wf s -> functions s = [] ->
  reads (snd (run_next_statement fuel s)) <= reads s + 12 * room s + loc_idx (loc s) + 4.
Proof. exact work_bound_turn. Qed.

Theorem C09_work_bound_continue : forall fuel s, wf s -> functions s = [] -> state s = Running ->
  reads (snd (continue_evaluating fuel s)) <= reads s + 12 * room s + loc_idx (loc s) + 4.
Proof. exact work_bound_continue. Qed.

(* the calls that start evaluation: a typed line of statements (the line
   executed is the typed one), RUN (which empties the function table itself;
   [lim]: the longest token list in the interpreter), CONT (the line the
   breakpoint is on) *)
Theorem C09_work_bound_immediate : forall fuel line ts s, wf s -> functions s = [] -> state s = Idle ->
  command_of line = None -> parse_line_number line = None -> tokenize line 0 = TokOk ts ->
  reads (snd (start_evaluating fuel line s)) <= reads s + 12 * length ts + 4.
Proof. exact work_bound_immediate. Qed.

Theorem C09_work_bound_run : forall fuel line s, wf s -> state s = Idle -> command_of line = Some CRun ->
  reads (snd (start_evaluating fuel line s)) <= reads s + 12 * lim s + 4.
Proof. exact work_bound_run. Qed.

Theorem C09_work_bound_cont : forall fuel line s n i ts, wf s -> functions s = [] -> state s = Idle ->
  command_of line = Some CCont -> breakpoint s = Some (n, i) -> toks_get n (st_toks s) = Some ts ->
  reads (snd (start_evaluating fuel line s)) <= reads s + 12 * (length ts - i) + i + 4.
Proof. exact work_bound_cont. Qed.

(* expressions alone, in the terms of Proofs/WorkBound.v ([Jpost]): one that returns has made at most 11 reads
   per token it consumed, less one; one that fails at most 11 per token that was left on the line, and 3 *)
Theorem C09_expression_cost : forall fuel n, Jc (evaluate_expression fuel n) (ob (-1) EF).
Proof. exact Jc_evaluate_expression. Qed.

(* non-vacuity: a 27-token line; its first statement (22 tokens of nested
   parentheses and operators) costs 96 reads from a fresh interpreter, under
   the bound 12 * 27 + 4 *)
Example C09_work_example :
  let line := bs "PRINT ((1+2)*(3-4))/((5)) ; A$ ; : X = 1" in
  exists ts, tokenize line 0 = TokOk ts /\ length ts = 27 /\
    reads (snd (start_evaluating 100 line init_interp)) = 96.
Proof. eexists. split; [vm_compute; reflexivity|]. split; vm_compute; reflexivity. Qed.

(* non-vacuity: `10 PRINT "A":PRINT "B"` under TRACE — three calls, one trace
   record each (the colon is its own turn), Print records 1, 0, 1; a never-ending
   program is a host loop; an IF with its selected statement is one turn. *)
Example C09_example :
  let ops := [HFlags false true; HLine (bs "10 PRINT ""A"":PRINT ""B"""); HLine (bs "20 IF 1 THEN PRINT ""C"" ELSE PRINT ""D""");
              HLine (bs "30 GOTO 10"); HLine (bs "RUN"); HCont; HCont; HCont; HCont; HCont] in
  map (fun o => option_map r_outputs o) (run_ops 100 init_interp ops)
  = [None; Some []; Some []; Some [];
     Some (outputs_text [OTrace 10; OPrint (bs "A" ++ [10%N])]);
     Some (outputs_text [OTrace 10]);
     Some (outputs_text [OTrace 10; OPrint (bs "B" ++ [10%N])]);
     Some (outputs_text [OTrace 20; OTrace 20; OPrint (bs "C" ++ [10%N])]);
     Some (outputs_text [OTrace 30]);
     Some (outputs_text [OTrace 10; OPrint (bs "A" ++ [10%N])])].
Proof. vm_compute. reflexivity. Qed.

Print Assumptions C09_continue.
Print Assumptions C09_start.
Print Assumptions C09_turn.
Print Assumptions C09_expressions_silent.
Print Assumptions C09_continue_returns.
Print Assumptions C09_start_returns.
Print Assumptions C09_work_bound_turn.
Print Assumptions C09_work_bound_continue.
Print Assumptions C09_work_bound_immediate.
Print Assumptions C09_work_bound_run.
Print Assumptions C09_work_bound_cont.
Print Assumptions C09_expression_cost.
