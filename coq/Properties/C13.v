(* C13 — Every token's reported source range is exact. *)
From Coq Require Import List NArith ZArith.
From Abasic Require Import Model.Bytes Model.Num Model.Token Model.Lexer Proofs.LexerRanges Proofs.LexerRetok.
Import ListNotations.
Local Open Scope nat_scope.

(* ranges lie within the line, are non-empty, strictly ordered, non-overlapping *)
Theorem C13_ranges : forall line skip ts, skip <= length line -> tokenize line skip = TokOk ts ->
  ranges_ok skip (length line) ts.
Proof. exact tokenize_ranges_ok. Qed.
Check C13_ranges : forall line skip ts, skip <= length line -> tokenize line skip = TokOk ts ->
  ranges_ok skip (length line) ts.

(* what [ranges_ok] alone says of order (so of every [ts] of C13_ranges and C13_error) *)
Theorem C13_ranges_sorted : forall lo hi ts, ranges_ok lo hi ts ->
  Sorted.StronglySorted (fun x y : ranged => snd (snd x) <= fst (snd y)) ts.
Proof. exact ranges_ok_sorted. Qed.

(* they begin and end on non-blank bytes; REM extends to the end of the line
   (C13_remark_end).  Where a DATA token ends - where its item parser stops, at
   the end of the line or in front of a colon - is known per token inside the
   proofs (Proofs/LexerRanges.v, tok_spec) and is not a theorem here. *)
Theorem C13_first_nonblank : forall line skip ts, skip <= length line -> tokenize line skip = TokOk ts ->
  forall t a b, In (t, (a, b)) ts -> exists c, nth_error line a = Some c /\ is_basic_ws c = false.
Proof. exact tokenize_first_nonblank. Qed.

Theorem C13_last_nonblank : forall line skip ts, skip <= length line -> tokenize line skip = TokOk ts ->
  forall t a b, In (t, (a, b)) ts -> (forall c, t <> TRemark c) -> (forall d, t <> TData d) ->
  exists c, nth_error line (b - 1) = Some c /\ is_basic_ws c = false.
Proof. exact tokenize_last_nonblank. Qed.

Theorem C13_remark_end : forall line skip ts, skip <= length line -> tokenize line skip = TokOk ts ->
  forall c a b, In (TRemark c, (a, b)) ts -> b = length line.
Proof. exact tokenize_remark_end. Qed.

(* they lie on character boundaries of the (valid UTF-8) line *)
Theorem C13_boundaries : forall line skip ts, valid_utf8 line = true -> char_boundary line skip = true ->
  skip <= length line -> tokenize line skip = TokOk ts ->
  forall t a b, In (t, (a, b)) ts -> char_boundary line a = true /\ char_boundary line b = true.
Proof. exact tokenize_char_boundaries. Qed.

(* a line that does not tokenize: the error position lies within the line and
   after every token that was produced *)
Theorem C13_error : forall line skip ts e, skip <= length line -> tokenize line skip = TokErr ts e ->
  ranges_ok skip (length line) ts
  /\ (let '(a, b) := error_range e (length line) in skip <= a /\ a < length line /\ a <= b)
  /\ (forall t r, In (t, r) ts -> snd r <= fst (error_range e (length line))).
Proof. exact tokenize_err_ranges_ok. Qed.

(* fuel beyond the length of the text changes nothing; [tokenize] gives one more
   than the length, so the iterator never stops for lack of fuel *)
Theorem C13_fuel : forall fuel pos s acc, length s < fuel ->
  tokenize_from fuel pos s acc = tokenize_from (S (length s)) pos s acc.
Proof. exact tokenize_from_fuel. Qed.

(* tokenizing the text of a range on its own yields exactly that one token —
   for every line whatsoever (also the tokens in front of an error): every
   matcher decides from the bytes it consumes, look-aheads included
   (Proofs/LexerRetok.v) *)
Theorem C13_retok : forall line skip ts, skip <= length line -> tokenize line skip = TokOk ts ->
  Forall (fun r => tokenize (slice line (fst (snd r)) (snd (snd r))) 0
                   = TokOk [(fst r, (0, snd (snd r) - fst (snd r)))]) ts.
Proof. exact retok_ok. Qed.

Theorem C13_retok_before_error : forall line skip ts e, skip <= length line -> tokenize line skip = TokErr ts e ->
  Forall (fun r => tokenize (slice line (fst (snd r)) (snd (snd r))) 0
                   = TokOk [(fst r, (0, snd (snd r) - fst (snd r)))]) ts.
Proof. exact retok_err. Qed.

Example C13_example :
  tokens_of (tokenize (bs "  go to 1 0:?""x""") 0)
  = Some [TGoto; TNumber (f64_of_Z 10); TColon; TQuestionMark; TString (bs "x")]
  /\ match tokenize (bs "  go to 1 0:?""x""") 0 with
     | TokOk ts => map snd ts = [(2, 7); (8, 11); (11, 12); (12, 13); (13, 16)]
     | _ => False
     end.
Proof. vm_compute. split; reflexivity. Qed.

Print Assumptions C13_ranges.
Print Assumptions C13_ranges_sorted.
Print Assumptions C13_first_nonblank.
Print Assumptions C13_last_nonblank.
Print Assumptions C13_remark_end.
Print Assumptions C13_boundaries.
Print Assumptions C13_error.
Print Assumptions C13_fuel.
Print Assumptions C13_retok.
Print Assumptions C13_retok_before_error.
