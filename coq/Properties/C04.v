(* C04 — The program store is a last-writer-wins map, listed and run in line
   order.  The proofs are in Proofs/StoreProofs.v, StoreExt.v, StoreBehaviour.v and
   StoreTie.v; here are the statements, two short derivations and examples. *)
From Coq Require Import List NArith ZArith Bool.
From Abasic Require Import Model.Bytes Model.Num Model.Token Model.Lexer Model.State Model.Interp Proofs.StoreProofs
     Proofs.StoreExt Proofs.StoreBehaviour Gen.ProgramLinesRs Proofs.StoreTie.
Import ListNotations.
Open Scope N_scope.

(* For EVERY history of host calls (edits interleaved with commands, immediate
   statements, running programs, replies, breaks, NEW+replace), from any start
   state, the stored program is the abstract map obtained by folding the
   three-line specification [spec_step] over the calls the protocol allows:
   a line that is a command, is unnumbered or fails to tokenize changes
   nothing; a numbered line sets (or, when empty, deletes) its number. *)
Theorem C04_refines : forall fuel ops s m,
  (forall k, abs s k = m k) ->
  forall k, abs (run_state fuel s ops) k = spec_run fuel s m ops k.
Proof. exact store_refines_spec. Qed.
Check C04_refines : forall fuel ops s m, (forall k, abs s k = m k) ->
  forall k, abs (run_state fuel s ops) k = spec_run fuel s m ops k.

(* one call: the store changes exactly as the specification says *)
Theorem C04_step : forall fuel s op, legal s op = true ->
  let s' := snd (step fuel s op) in
  (forall k, abs s' k = spec_step (abs s) op k) /\ (store_ok s -> store_ok s').
Proof. exact step_store. Qed.

(* both indexes always agree: the sorted set is strictly ascending, holds
   exactly the keys of the token map, and no stored line is empty *)
Theorem C04_agree : forall fuel ops, store_ok (run_state fuel init_interp ops).
Proof. intros; apply store_ok_reachable; apply store_ok_init. Qed.
Check C04_agree : forall fuel ops, store_ok (run_state fuel init_interp ops).

(* LIST cannot hit the unwrap and prints as many records as there are keys, the key list being
   ascending (that record i renders key i with its tokens is [StoreProofs.list_lines_ok], which
   this statement does not repeat) *)
Theorem C04_list : forall s, store_ok s ->
  exists ls, list_lines (st_keys s) (st_toks s) = Ok ls
    /\ length ls = length (st_keys s) /\ keys_sorted (st_keys s).
Proof. exact list_output_ordered. Qed.

(* RUN order: first = least key; the successor of ANY n (no upper bound: this
   includes 18446744073709551615) is the least key strictly above it *)
Theorem C04_first : forall s, store_ok s ->
  match store_first s with
  | Some m => In m (st_keys s) /\ forall k, In k (st_keys s) -> m <= k
  | None => st_keys s = []
  end.
Proof. exact store_first_spec. Qed.

Theorem C04_run_order : forall n l, keys_sorted l ->
  match keys_after n l with
  | Some m => In m l /\ n < m /\ forall k, In k l -> n < k -> m <= k
  | None => forall k, In k l -> k <= n
  end.
Proof. exact keys_after_spec. Qed.
Check C04_run_order : forall n l, keys_sorted l ->
  match keys_after n l with
  | Some m => In m l /\ n < m /\ forall k, In k l -> n < k -> m <= k
  | None => forall k, In k l -> k <= n
  end.

Theorem C04_number : forall line n e, parse_line_number line = Some (n, e) -> n <= U64_MAX.
Proof. exact parse_line_number_range. Qed.

(* Order of entry is irrelevant, behaviourally: two sequences of numbered-line
   entries (any texts that are edits: additions, replacements, deletions)
   typed into a fresh interpreter that leave the same MAP leave interpreters
   that answer every later session — LIST, RUN, immediate statements, further
   edits, replies, breaks — with the same rows (outcome, state, drained output
   queue, caret, message, reads; Proofs/StoreExt.v: a two-run simulation for
   states that differ only in the internal order of the stored lines), and
   hold the same map afterwards. *)
Theorem C04_entry_order_irrelevant : forall fuel o ops1 ops2,
  Forall is_edit ops1 -> Forall is_edit ops2 ->
  let s1 := run_state fuel (fresh o) ops1 in
  let s2 := run_state fuel (fresh o) ops2 in
  (forall k, abs s1 k = abs s2 k) ->
  forall ops, Forall2 orow_same (run_ops fuel s1 ops) (run_ops fuel s2 ops)
              /\ same_program (run_state fuel s1 ops) (run_state fuel s2 ops).
Proof. exact entry_order_irrelevant. Qed.

(* non-vacuity: the two orders of entry give different internal stores *)
Example C04_orders_differ :
  let a := map (fun t => HLine (bs t)) ["10 PRINT 1"; "20 PRINT 2"]%string in
  let b := map (fun t => HLine (bs t)) ["20 PRINT 2"; "10 PRINT 0"; "10 PRINT 1"]%string in
  Forall is_edit a /\ Forall is_edit b
  /\ st_toks (run_state 50 (fresh []) a) <> st_toks (run_state 50 (fresh []) b)
  /\ forall k, abs (run_state 50 (fresh []) a) k = abs (run_state 50 (fresh []) b) k.
Proof.
  cbn zeta. split; [|split; [|split]].
  - repeat constructor; eexists _, _, _; (split; [reflexivity | vm_compute; reflexivity]).
  - repeat constructor; eexists _, _, _; (split; [reflexivity | vm_compute; reflexivity]).
  - vm_compute. discriminate.
  - intros k. unfold abs.
    assert (Ea : st_toks (run_state 50 (fresh []) (map (fun t => HLine (bs t)) ["10 PRINT 1"; "20 PRINT 2"]%string))
                 = [(20, [TPrint; TNumber (f64_of_Z 2)]); (10, [TPrint; TNumber (f64_of_Z 1)])]) by (vm_compute; reflexivity).
    assert (Eb : st_toks (run_state 50 (fresh []) (map (fun t => HLine (bs t)) ["20 PRINT 2"; "10 PRINT 0"; "10 PRINT 1"]%string))
                 = [(10, [TPrint; TNumber (f64_of_Z 1)]); (20, [TPrint; TNumber (f64_of_Z 2)])]) by (vm_compute; reflexivity).
    rewrite Ea, Eb. cbn [toks_get].
    destruct (N.eqb_spec 20 k), (N.eqb_spec 10 k); subst; try reflexivity; discriminate.
Qed.

(* non-vacuity: entering 20 A / 10 B / 20 / 010 C / 10 + an unterminated string leaves {10 -> C} *)
Example C04_example :
  let ops := map (fun t => HLine (bs t)) ["20 A"; "10 B"; "20"; "010 C"; "10 """]%string in
  let s := run_state 50 init_interp ops in
  st_keys s = [10] /\ abs s 10 = Some [TSymbol (bs "C")] /\ abs s 20 = None.
Proof. vm_compute. repeat split. Qed.

(* THE TIE TO program_lines.rs BY TRANSLATION.  Gen/ProgramLinesRs.v holds the
   five methods of ProgramLines the interpreter uses, translated call by call
   from the source text on every run (which field, which collection call, in
   which branch; Model/RustColl.v gives the calls their meaning on an
   ascending key list and an association list).  They are the model's store
   operations, for every state, line number and token list — so the theorems
   above are re-checked against the calls the code makes. *)
Theorem C04_code_first : forall s, rs_pl_first (st_toks s) (st_keys s) = store_first s.
Proof. exact rs_pl_first_is_model. Qed.
Theorem C04_code_after : forall s n, rs_pl_after (st_toks s) (st_keys s) n = store_after n s.
Proof. exact rs_pl_after_is_model. Qed.
Theorem C04_code_has : forall s n, rs_pl_has (st_toks s) (st_keys s) n = store_has n s.
Proof. exact rs_pl_has_is_model. Qed.
Theorem C04_code_get : forall s n, rs_pl_get (st_toks s) (st_keys s) n = toks_get n (st_toks s).
Proof. exact rs_pl_get_is_model. Qed.
Theorem C04_code_set : forall s n ts,
  store_set n ts s = set_store (fst (rs_pl_set (st_toks s) (st_keys s) n ts)) (snd (rs_pl_set (st_toks s) (st_keys s) n ts)) s.
Proof. exact rs_pl_set_is_model. Qed.

(* non-vacuity, on the translated code: enter 30, 10, 20, replace 10, delete 20; successor of 10 and of 2^64-1 *)
Example C04_code_example :
  let put n ts (p : list (N * list token) * list N) := rs_pl_set (fst p) (snd p) n ts in
  let p := put 20 [] (put 10 [TEnd] (put 20 [TStop] (put 10 [TStop] (put 30 [TEnd] ([], []))))) in
  snd p = [10; 30] /\ rs_pl_get (fst p) (snd p) 10 = Some [TEnd] /\ rs_pl_has (fst p) (snd p) 20 = false /\
  rs_pl_first (fst p) (snd p) = Some 10 /\ rs_pl_after (fst p) (snd p) 10 = Some 30 /\
  rs_pl_after (fst p) (snd p) 18446744073709551615 = None.
Proof. vm_compute. repeat split. Qed.

Print Assumptions C04_refines.
Print Assumptions C04_step.
Print Assumptions C04_agree.
Print Assumptions C04_list.
Print Assumptions C04_first.
Print Assumptions C04_run_order.
Print Assumptions C04_number.
Print Assumptions C04_entry_order_irrelevant.
Print Assumptions C04_code_first.
Print Assumptions C04_code_after.
Print Assumptions C04_code_has.
Print Assumptions C04_code_get.
Print Assumptions C04_code_set.
