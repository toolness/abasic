(* C05 — Static analysis terminates on every file; diagnostics are well-formed.
   Proofs: Proofs/AnalyzerProofs.v (ranges, over C13), AnalyzerSafety.v, AnalyzerTermination.v.

   [analyze fuel text] is the model of SourceFileAnalyzer::analyze: pass 1
   (per file line: tokenize, store, record token classes, source ranges and the
   BASIC-line -> file-line map), the walk over the stored lines with the
   analyzer fork of the evaluators, the symbol warnings.  A file's lines are
   its LF-separated pieces; each is valid UTF-8 (pieces of a Rust &str).
   [range_ok line (a, b)]: a <= b <= |line|, both on character boundaries. *)
From Coq Require Import List NArith ZArith Bool.
From Abasic Require Import Model.Bytes Model.Lexer Model.State Model.Analyzer Proofs.LexerRanges
     Proofs.AnalyzerProofs Proofs.AnalyzerSafety Proofs.AnalyzerTermination.
Import ListNotations.
Local Open Scope nat_scope.

(* one token list and one range record per file line, for every text *)
Theorem C05_shape : forall fuel text,
  Forall (fun l => valid_utf8 l = true) (split_lines text) ->
  length (an_tokens (analyze fuel text)) = length (split_lines text)
  /\ an_nlines (analyze fuel text) = length (split_lines text)
  /\ length (sm_ranges (an_map (analyze fuel text))) = length (split_lines text).
Proof. intros fuel text _. apply analysis_shape. Qed.

(* token classes per line: ordered, non-overlapping ranges *)
Theorem C05_tokens : forall fuel text,
  Forall (fun l => valid_utf8 l = true) (split_lines text) ->
  Forall (fun lt => ordered 0 lt) (an_tokens (analyze fuel text)).
Proof. intros fuel text _. apply analysis_tokens_ordered. Qed.

(* every BASIC-line binding of the source map names an existing file line *)
Theorem C05_bindings : forall fuel text,
  Forall (fun l => valid_utf8 l = true) (split_lines text) ->
  Forall (fun kv => snd kv < length (split_lines text)) (sm_lines (an_map (analyze fuel text))).
Proof. intros fuel text _. apply bindings_in_file. Qed.

(* Every diagnostic that maps to a source position maps INTO its line:
   an existing file line, a byte range inside it, on character boundaries —
   for warnings and errors of every kind, located by token (map_location_to_
   source), by line number, or by the tokenizer's error range (an illegal
   multi-byte character is covered whole).  [msg_ok] is a side condition on
   tokenizer-error messages only: the named file line recorded an error range. *)
Theorem C05_diag : forall fuel text msg fl r,
  Forall (fun l => valid_utf8 l = true) (split_lines text) ->
  let a := analyze fuel text in
  msg_ok (sm_ranges (an_map a)) msg ->
  map_to_source (an_map a) msg = Some (fl, r) ->
  exists line, nth_error (split_lines text) fl = Some line /\ range_ok line r.
Proof. exact mapped_in_bounds. Qed.

(* ... which all messages of pass 1 satisfy (tokenizer errors come from pass 1) *)
Theorem C05_pass1_messages : forall fuel text,
  Forall (fun l => valid_utf8 l = true) (split_lines text) ->
  exists more, an_messages (analyze fuel text) = p_msgs (pass1_of text) ++ more
               /\ Forall (msg_ok (sm_ranges (an_map (analyze fuel text)))) (p_msgs (pass1_of text)).
Proof. intros fuel text _. apply pass1_messages_ok. Qed.

(* the end of a tokenizer error range never exceeds the line: from there the
   analyzer widens it to a character boundary, and stays inside the line
   (AnalyzerProofs.widen4_ok) *)
Theorem C05_error_range_end : forall line skip ts e,
  skip <= length line -> tokenize line skip = TokErr ts e ->
  snd (error_range e (length line)) <= length line.
Proof. exact tokenize_err_end. Qed.

(* The analysis never panics — for EVERY text (no validity hypothesis): the
   result is never Panic, where the model keeps as Panic
   tokens_for_line(..).unwrap() under every cursor operation,
   err.location.unwrap(), the explicit panic! when a diagnostic's location
   does not map to the source and the unwrap() on the symbol warnings'
   locations; the index file_line_ranges[..] inside map_location_to_source is
   [None] in the model, which the last two turn into Panic. *)
Theorem C05_never_panics : forall fuel text p, an_result (analyze fuel text) <> Panic p.
Proof. exact analysis_never_panics. Qed.

(* EVERY diagnostic the analysis reports — pass-1 warnings and tokenizer errors,
   the errors of the walk, the symbol warnings — maps to a source position,
   for every text ... *)
Theorem C05_every_diagnostic_maps : forall fuel text,
  Forall (fun msg => map_to_source (an_map (analyze fuel text)) msg <> None) (an_messages (analyze fuel text)).
Proof. exact analysis_messages_map. Qed.

(* ... and for a text whose lines are valid UTF-8 (pieces of a Rust &str) that
   position is on an existing file line, inside it, on character boundaries:
   the full second sentence of the property. *)
Theorem C05_diagnostics_well_formed : forall fuel text,
  Forall (fun l => valid_utf8 l = true) (split_lines text) ->
  Forall (fun msg => exists fl r line,
            map_to_source (an_map (analyze fuel text)) msg = Some (fl, r)
            /\ nth_error (split_lines text) fl = Some line /\ range_ok line r)
         (an_messages (analyze fuel text)).
Proof. exact diagnostics_well_formed. Qed.

(* The analysis TERMINATES, for every text.  The Rust analyzer's loops and its
   recursion are modelled with fuel; that the fuel suffices is what their
   termination is in the model: with fuel above a bound that depends only on
   the longest stored line and the nesting cap ([line_bound text] = longest
   token list + max_nesting) the result is never OutOfFuel; it is [Ok tt]
   ([C05_total], of which this is an instance). *)
Theorem C05_terminates : forall fuel text,
  line_bound text < fuel -> an_result (analyze fuel text) <> OutOfFuel.
Proof. exact analysis_terminates. Qed.

Theorem C05_total : forall fuel text, line_bound text < fuel -> an_result (analyze fuel text) = Ok tt.
Proof. exact analysis_total. Qed.

(* non-vacuity: a file with a duplicate number, a blank line, an unnumbered
   line, an untokenizable line with a multi-byte illegal character; the fuel 200
   is above its [line_bound], 3 + 64 *)
Example C05_example :
  let text := bs "10 X = 1" ++ [10%N] ++ bs "10" ++ [10%N] ++ [10%N] ++ bs "PRINT 1" ++ [10%N]
              ++ bs "20 PRINT " ++ [195; 169]%N ++ [10%N] ++ bs "30 PRINT Y" in
  let a := analyze 200 text in
  an_result a = Ok tt /\ an_nlines a = 6 /\ length (an_tokens a) = 6
  /\ forallb (fun l => valid_utf8 l) (split_lines text) = true
  /\ map (map_to_source (an_map a)) (an_messages a)
     = [Some (1, (0, 2)); Some (1, (0, 2)); Some (3, (0, 0)); Some (4, (9, 11)); Some (0, (3, 4)); Some (5, (9, 10))].
Proof. vm_compute. repeat split. Qed.

Print Assumptions C05_shape.
Print Assumptions C05_tokens.
Print Assumptions C05_bindings.
Print Assumptions C05_diag.
Print Assumptions C05_pass1_messages.
Print Assumptions C05_error_range_end.
Print Assumptions C05_never_panics.
Print Assumptions C05_every_diagnostic_maps.
Print Assumptions C05_diagnostics_well_formed.
Print Assumptions C05_terminates.
Print Assumptions C05_total.
