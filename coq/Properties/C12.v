(* C12 — Spacing and letter case outside literal text never change meaning.

   [tokenize line skip] is the model of Tokenizer::new(line, skip) run to the
   end (tokens with byte ranges, or the tokens before an error and the error).
   [ins_at i w line] inserts byte [w] before byte [i]; [flip_at i line] changes
   the case of byte [i] when it is an ASCII letter.  Protected positions are
   computed from the tokenizer's own ranges: strictly inside a string literal,
   inside REM text, inside the item text of DATA.  There are two readings of
   "position": [protected_ins] judges an insertion point (in front of byte [i]),
   [protected_byte] = [protected_flip] a byte (to flip, or the blank to delete).
   They differ by one at the ends: the point in front of a closing quote is
   protected, the quote is not; the point behind the last byte of DATA's items
   is protected (Proofs/LexerCrunch.v, at [sh], [prot1_ins], [prot1_byte]).
   [skip] is the length of the line-number prefix, so the statement text is
   everything from [skip] on.

   The whole item text of a DATA token is protected, so the tokenizer theorems
   never speak of a blank in front of or behind an item; that is the second half
   (C12_data, C12_data_chars), which speaks of the items the parser returns and
   not of the number of bytes it consumes.  The two halves do not overlap. *)
From Coq Require Import List NArith ZArith Relations.
From Abasic Require Import Model.Bytes Model.Token Model.Data Model.Lexer Proofs.LexerCrunch Proofs.DataProofs.
Import ListNotations.
Local Open Scope nat_scope.

(* inserting a blank (space, tab, FF, CR) at any unprotected position *)
Theorem C12_insert : forall line skip ts i w,
  skip <= i <= length line -> is_basic_ws w = true ->
  tokenize line skip = TokOk ts -> protected_ins ts line i = false ->
  tokens_of (tokenize (ins_at i w line) skip) = Some (map fst ts).
Proof. exact crunch_insert. Qed.

(* ... and the ranges of the tokens move by exactly the inserted byte *)
Theorem C12_insert_ranges : forall line skip ts i w,
  skip <= i <= length line -> is_basic_ws w = true ->
  tokenize line skip = TokOk ts -> protected_ins ts line i = false ->
  tokenize (ins_at i w line) skip = TokOk (map (shift_r i) ts).
Proof. exact crunch_insert_ranges. Qed.

(* deleting a blank at any unprotected position *)
Theorem C12_delete : forall line skip ts' i w,
  skip <= i <= length line -> is_basic_ws w = true ->
  tokenize (ins_at i w line) skip = TokOk ts' ->
  protected_byte ts' (ins_at i w line) i = false ->
  tokens_of (tokenize line skip) = Some (map fst ts').
Proof. exact crunch_delete. Qed.

(* changing the case of any unprotected byte: same tokens, same ranges *)
Theorem C12_flip : forall line skip ts i,
  tokenize line skip = TokOk ts -> protected_flip ts line i = false ->
  tokenize (flip_at i line) skip = TokOk ts.
Proof. exact crunch_flip_ranges. Qed.

(* any finite sequence of such edits, each judged on the text it is applied to *)
Theorem C12_any : forall skip line line' ts,
  clos_refl_trans _ (edit skip) line line' -> tokenize line skip = TokOk ts ->
  tokens_of (tokenize line' skip) = Some (map fst ts).
Proof. exact crunch_edits. Qed.

(* DATA items: a blank where an item starts (after the keyword, after a comma,
   around a quoted item) or where it ends (before a comma, before the
   terminating colon, at the end of the text) changes no item.  [cs1] is the
   text before the blank, as whole characters; [dp_steps] is the parser state
   reached after it ([false]: not inside a quoted item). *)
Theorem C12_data : forall cs1 s2 w cur elems,
  Forall whole_char cs1 -> is_basic_ws w = true ->
  dp_steps cs1 false [] [] = Some (false, cur, elems) ->
  all_ws cur = true \/ sep_next (utf8_chars s2) = true ->
  fst (parse_data (concat cs1 ++ w :: s2)) = fst (parse_data (concat cs1 ++ s2)).
Proof. exact parse_data_blank. Qed.

(* the same for every Unicode white-space character, on character lists *)
Theorem C12_data_chars : forall cs1 cs2 w cur elems,
  char_ws w = true ->
  dp_steps cs1 false [] [] = Some (false, cur, elems) ->
  all_ws cur = true \/ sep_next cs2 = true ->
  fst (dp_run (cs1 ++ w :: cs2) false [] [] 0) = fst (dp_run (cs1 ++ cs2) false [] [] 0).
Proof. exact data_blank. Qed.

(* The hypotheses of C12_data are met, e.g. by the text `1` in front of `,2`:
   Proofs/DataProofs.v, padded_step. *)
Example C12_example :
  exists x,
    tokens_of (tokenize (bs "P R I N T 1 2 3") 0) = Some [TPrint; TNumber x]
    /\ tokens_of (tokenize (bs "print123") 0) = Some [TPrint; TNumber x]
    /\ tokens_of (tokenize (bs "PRINT 123") 0) = Some [TPrint; TNumber x].
Proof. exact ex_same_tokens. Qed.

Example C12_example_unprotected : unprot_everywhere (bs "PRINT 123") = true.
Proof. exact ex_unprotected. Qed.

Example C12_example_protected :
  prot_positions (bs "PRINT ""a b""") = [7; 8; 9; 10]
  /\ prot_positions (bs "R E M x") = [5; 6; 7]
  /\ prot_positions (bs "DATA 1, 2:PRINT") = [4; 5; 6; 7; 8; 9].
Proof. split; [exact ex_string_protected|split; [exact ex_rem_protected|exact ex_data_protected]]. Qed.

Example C12_example_data :
  fst (parse_data (bs " 1 , ""a"" , b c  : PRINT")) = fst (parse_data (bs "1,""a"",b c:PRINT")).
Proof. exact padded_equals_tight. Qed.

Print Assumptions C12_insert.
Print Assumptions C12_insert_ranges.
Print Assumptions C12_delete.
Print Assumptions C12_flip.
Print Assumptions C12_any.
Print Assumptions C12_data.
Print Assumptions C12_data_chars.
