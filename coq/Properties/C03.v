(* C03 — Programs behave as an independent reference interpreter says they should.
   Statements, with the example programs run here; proofs are in Proofs/RefProofs.v, StmtSim.v, ProgSim.v,
   ProgRun.v, and Proofs/ArraysTie.v for the order of events in FOR and GOSUB (Gen/ProgramEvents.v).

   [Ref/RefSem.v] is the reference interpreter: a small-step interpreter on SYNTAX TREES
   written from the documented semantics — no token stream, no cursor, no host turns.
   PARTIAL: proved are (1) the documented behaviours of the yardstick, (2) agreement of the
   token walker and the reference evaluator on the expression fragment of C02, (3) the
   assignment and PRINT statements, (4) the simulation of whole programs of the fragment of
   Proofs/ProgSim.v, started by RUN.  For the rest of the language (arrays, DEF FN, ...) the
   claim is decided on every run by execution: the reference interpreter is evaluated INSIDE
   Coq on each generated program and must print what the implementation prints and fail
   where it fails. *)
From Coq Require Import List ZArith Lia.
From Abasic Require Import Model.Bytes Model.Num Model.Token Model.State Model.Eval Model.Interp Ref.RefSem Proofs.ExprSem Proofs.RefProofs Proofs.StmtSim Proofs.ProgSim Proofs.ProgRun.
From Abasic Require Proofs.StoreProofs.    (* not imported: its [same_store] is not StmtSim's *)
From Abasic Require Gen.ProgramEvents Proofs.ArraysTie.
From Coq Require String.
Import ListNotations.
Local Open Scope nat_scope.

(* a FOR body always runs at least once, with limit and step fixed at entry *)
Theorem C03_ref_for_runs_once : forall fuel p v a b after li st from to st1 st2,
  eval fuel st a = EOk (VNum from) st1 -> eval fuel st1 b = EOk (VNum to) st2 -> str_name v = false ->
  let kept := match drop_loop v (r_loops st2) with Some (_, k) => k | None => r_loops st2 end in
  length kept <> depth_cap ->
  exec fuel p (SFor v a b None) after li st
  = Next after (set_vars' (update v (VNum from) (r_vars st2)) (set_loops' (kept ++ [mkrl v to f64_one after]) st2)).
Proof. exact ref_for_runs_once. Qed.

(* NEXT forgets inner loops *)
Theorem C03_ref_next_forgets_inner : forall fuel p v after li st outer lp inner cur,
  r_loops st = outer ++ lp :: inner -> rl_var lp = v -> (forall x, In x inner -> rl_var x <> v) ->
  lookup v (r_vars st) = Some (VNum cur) -> str_name v = false ->
  exists st' pc', exec fuel p (SNext v) after li st = Next pc' st'
    /\ (r_loops st' = outer ++ [lp] \/ r_loops st' = outer)
    /\ (pc' = rl_body lp \/ pc' = after).
Proof. exact ref_next_forgets_inner. Qed.

(* undefined variables read as 0 or the empty string *)
Theorem C03_ref_undefined_variable : forall st name,
  lookup_frames name (r_frames st) = None -> lookup name (r_vars st) = None ->
  read_var st name = if str_name name then VStr [] else VNum f64_zero.
Proof. exact ref_undefined_variable. Qed.

(* implicit arrays have indices 0..10 in each of their 1-3 dimensions *)
Theorem C03_ref_implicit_array : forall name n st st',
  lookup name (r_arrays st) = None -> 1 <= n <= 3 -> ensure_array name n st = inl st' ->
  exists a, lookup name (r_arrays st') = Some a /\ ra_dims a = repeat 11%N n.
Proof. exact ref_implicit_array. Qed.

(* READ consumes DATA in line order, then statement order *)
Theorem C03_ref_data_order : forall p1 p2, data_list (p1 ++ p2) = data_list p1 ++ data_list p2.
Proof. exact ref_data_in_line_order. Qed.

Theorem C03_expr_reference_is_fold : forall e e' st s fuel,
  tr e = Some e' -> same_reads st s -> xsize e <= fuel ->
  eval fuel st e = conv st (den s e').
Proof. exact ref_expr_is_den. Qed.

(* hence, for every tree of the fragment and EVERY legal token spelling of it,
   from every model state that reads variables like the reference state: the
   token walker returns what the reference evaluator returns *)
Theorem C03_expr_model_is_reference : forall e e' ts, tr e = Some e' -> Renders 0 e' ts ->
  forall st s pre rest n, same_reads st s -> enable_warnings s = false ->
    fst (cur_tokens s) = Ok (pre ++ ts ++ rest) -> loc_idx (loc s) = length pre ->
    stops 0 rest = true -> n + pdepth e' < max_nesting ->
  exists fuel0, forall fuel, fuel0 <= fuel ->
    conv st (fst (evaluate_expression fuel n s)) = eval (xsize e) st e.
Proof.
  intros e e' ts Htr Hr st s pre rest n Hrel Hw Htoks Hidx Hstop Hdepth.
  destruct (expr_sem e' ts Hr s pre rest n Hw Htoks Hidx Hstop Hdepth) as (fuel0 & H).
  exists fuel0. intros fuel Hf. specialize (H fuel Hf).
  destruct (evaluate_expression fuel n s) as [r s']. destruct H as (Hr' & _). cbn [fst]. rewrite Hr'.
  symmetry. apply (ref_expr_is_den e e' st s (xsize e) Htr Hrel). apply le_n.
Qed.

(* (3) the assignment `v = e`, in ANY legal token spelling, from any cursor position, run
   by the model's statement evaluator and by the reference from related stores
   ([same_store]): both succeed or both fail with the same error kind; on success the stores
   are related again (the step composes), the cursor is just past the statement and only
   store, cursor, read counter and (warnings) outputs changed; on failure neither store
   changed. *)
Theorem C03_let_statement_simulates : forall s toks,
  fst (cur_tokens s) = Ok toks -> enable_tracing s = false ->
  forall v e e' ts rest i,
  skipn i toks = TSymbol v :: TEquals :: ts ++ rest -> stops 0 rest = true ->
  tr e = Some e' -> Renders 0 e' ts ->
  forall d, Nat.eqb d max_nesting = false -> S d + pdepth e' < max_nesting ->
  forall p after li st, same_store st s ->
  exists fuel0, forall fuel, fuel0 <= fuel -> forall r o,
    match exec (xsize e) p (SLet v [] e) after li st with
    | Next pc st' =>
        pc = after /\
        exists s', evaluate_statement fuel d (at_idx s i r o) = (Ok tt, s')
          /\ same_store st' s'
          /\ loc s' = mkloc (loc_line (loc s)) (i + 2 + length ts)
          /\ W s o (outputs s')
          /\ (exists x r', s' = set_variables (alist_set v x (variables s))
                                (at_idx s (i + 2 + length ts) r' (outputs s')))
    | Fail er line st' =>
        line = line_no p li /\ st' = st /\
        exists ie l s', evaluate_statement fuel d (at_idx s i r o) = (Err ie l, s')
          /\ rerr_of ie = er /\ same_store st s'
    | Done _ | NoFuel => False
    end.
Proof. exact let_statement_simulates. Qed.

(* the PRINT statement, any item list (expressions, `;`, `,`) in any legal
   spelling: the reference appends one output record, the model pushes one
   Print record with the same text behind any warnings; stores and cursor as
   for the assignment; or both fail with the same error kind *)
Theorem C03_print_statement_simulates : forall s toks items mitems ts rest i p after li st d hd,
  fst (cur_tokens s) = Ok toks -> enable_tracing s = false ->
  hd = TPrint \/ hd = TQuestionMark ->
  skipn i toks = hd :: ts ++ rest ->
  tr_items items = Some mitems -> IRenders rest mitems ts ->
  Nat.eqb d max_nesting = false -> S d + idepth mitems < max_nesting ->
  same_store st s ->
  exists fuel0, forall fuel, fuel0 <= fuel -> forall r o,
    match exec (isize items) p (SPrint items) after li st with
    | Next pc st' =>
        pc = after /\
        exists text, st' = add_out text st /\
        exists s' ow r', evaluate_statement fuel d (at_idx s i r o) = (Ok tt, s')
          /\ W s o ow
          /\ s' = at_idx s (i + 1 + length ts) r' (ow ++ [OPrint text])
          /\ same_store st' s'
    | Fail er line st' =>
        line = line_no p li /\ st' = st /\
        exists ie l s', evaluate_statement fuel d (at_idx s i r o) = (Err ie l, s')
          /\ rerr_of ie = er /\ same_store st s'
    | Done _ | NoFuel => False
    end.
Proof. exact print_statement_simulates. Qed.

(* the relation gives the expression theorem its hypothesis *)
Theorem C03_same_store_reads : forall st s, same_store st s -> same_reads st s.
Proof. exact same_store_reads. Qed.

(* non-vacuity of (3): `A = 1 + B` typed as an immediate line into a fresh
   interpreter, against the reference from its initial state *)
Example C03_let_example :
  let toks := [TSymbol (bs "A"); TEquals; TNumber (f64_of_Z 1); TPlus; TSymbol (bs "B")] in
  let s := set_immediate toks init_interp in
  fst (cur_tokens s) = Ok toks /\ enable_tracing s = false
  /\ skipn 0 toks = TSymbol (bs "A") :: TEquals :: [TNumber (f64_of_Z 1); TPlus; TSymbol (bs "B")] ++ []
  /\ tr (XBin RAdd (XNum (f64_of_Z 1)) (XVar (bs "B"))) = Some (EBin (BAddSub OAdd) (ENum (f64_of_Z 1)) (EVar (bs "B")))
  /\ Renders 0 (EBin (BAddSub OAdd) (ENum (f64_of_Z 1)) (EVar (bs "B"))) [TNumber (f64_of_Z 1); TPlus; TSymbol (bs "B")]
  /\ same_store (r_init 0) s
  /\ fst (evaluate_statement 20 0 s) = Ok tt
  /\ alist_get (bs "A") (variables (snd (evaluate_statement 20 0 s))) = Some (VNum (f64_of_Z 1)).
Proof.
  cbv zeta. repeat split; try reflexivity.
  - do 3 (apply R_incl; [repeat constructor|]).
    apply (R_bin (BAddSub OAdd) (ENum (f64_of_Z 1)) (EVar (bs "B")) [TNumber (f64_of_Z 1)] [TSymbol (bs "B")]).
    + do 4 (apply R_incl; [repeat constructor|]). constructor.
    + do 3 (apply R_incl; [repeat constructor|]). constructor.
Qed.

(* (4) WHOLE PROGRAMS of the fragment ([SRen] in Proofs/ProgSim.v), which loop, branch, call
   subroutines and need not terminate.  For ANY reference program [p] of the fragment and
   ANY legal token spelling of it stored in the model ([Inv]; [F]: the reference's
   expression fuel, which every expression of [p] fits), from related configurations
   ([Sim]: same place, same variable store, the model has printed the reference's output
   records), after EVERY number [k] of reference steps:
     - reference still running at pc' -> the model, after finitely many host calls each
       made with enough fuel, is in a state related to it again;
     - reference finished -> the model is idle and has printed exactly the reference's output;
     - reference failed -> the model's call fails with the same error kind on the same
       line, having printed the same output;
     - the reference never runs out of fuel.
   The model executes the colon between statements as a call of its own and advances to
   the next line inside the call: the simulation absorbs both. *)
Theorem C03_fragment_simulation : forall F p o0 k pc st s,
  Sim F p o0 pc st s -> after_step F p o0 (rrun F p k pc st) s.
Proof. exact fragment_simulation. Qed.

Check C03_fragment_simulation : forall F p o0 k pc st s,
  Sim F p o0 pc st s ->
  match rrun F p k pc st with
  | Next pc' st' => reach (Sim F p o0 pc' st') s
  | Done st' => reach (fun s' => state s' = Idle /\ outputs s' = o0 ++ map OPrint (r_out st')) s
  | Fail er line st' =>
      reach (fun s1 => exists f0, forall fuel, f0 <= fuel -> exists ie l s',
               continue_evaluating fuel s1 = (Err ie (Some l), s') /\ rerr_of2 ie = er /\ loc_line l = Some line
               /\ state s' = Idle /\ outputs s' = o0 ++ map OPrint (r_out st')) s
  | NoFuel => False
  end.

(* ... and RUN: for a program of the fragment stored in an idle interpreter,
   the host call start_evaluating("RUN") IS the first call of a run that
   simulates the reference interpreter from its initial state (variables
   cleared, at the first line) *)
Theorem C03_run_simulates : forall F p s seed n stmts,
  Inv F p s -> state s = Idle -> nth_error p 0 = Some (n, stmts) ->
  (forall fuel, start_evaluating fuel (bs "RUN") s = continue_evaluating fuel (run_start s))
  /\ forall k, after_step F p (outputs s) (rrun F p k (0, 0) (r_init seed)) (run_start s).
Proof. exact run_simulates. Qed.

(* non-vacuity of (4): the program  10 I = I + 1 / 20 PRINT I; / 30 IF I < 3
   THEN 10 / 40 END  typed into a fresh interpreter, the cursor put on its first line
   ([ex_s]; n1, n3, n10 are [f64_of_Z] of 1, 3, 10 written out): the tokens are
   the tokenizer's, the configuration is related to the reference's initial
   one, and therefore (by the theorem) every sufficiently fuelled run of host
   calls ends idle having printed 1, 2, 3 — what the reference prints *)
Definition ex_lines := [HLine (bs "10 I = I + 1"); HLine (bs "20 PRINT I;"); HLine (bs "30 IF I < 3 THEN 10"); HLine (bs "40 END")].
Definition ex_s : interp := set_state Running (snd (run_from_first_numbered_line (StoreProofs.run_state 50 init_interp ex_lines))).
Definition n1 : f64 := SpecFloat.S754_finite false 4503599627370496 (-52).
Definition n3 : f64 := SpecFloat.S754_finite false 6755399441055744 (-51).
Definition n10 : f64 := SpecFloat.S754_finite false 5629499534213120 (-49).
Definition vI : bytes := [73%N].
Definition ex_p : rprogram :=
  [(10%N, [SLet vI [] (XBin RAdd (XVar vI) (XNum n1))]);
   (20%N, [SPrint [PExpr (XVar vI); PSemi]]);
   (30%N, [SIf (XBin (RCmp CLt) (XVar vI) (XNum n3)) (ALine 10%N) None]);
   (40%N, [SEnd])].

Lemma R0_var v : Renders 0 (EVar v) [TSymbol v].
Proof. do 7 (apply R_incl; [lia|]). constructor. Qed.

Lemma R0_num x : Renders 0 (ENum x) [TNumber x].
Proof. do 7 (apply R_incl; [lia|]). constructor. Qed.

Lemma ex_inc : SRen 8 0 [] (SLet vI [] (XBin RAdd (XVar vI) (XNum n1))) [TSymbol vI; TEquals; TSymbol vI; TPlus; TNumber n1].
Proof.
  apply (SR_let 8 0 [] vI _ (EBin (BAddSub OAdd) (EVar vI) (ENum n1)) [TSymbol vI; TPlus; TNumber n1]); try reflexivity; try (cbn; lia).
  do 3 (apply R_incl; [lia|]).
  apply (R_bin (BAddSub OAdd) (EVar vI) (ENum n1) [TSymbol vI] [TNumber n1]).
  - do 4 (apply R_incl; [cbn; lia|]). constructor.
  - do 3 (apply R_incl; [cbn; lia|]). constructor.
Qed.

Lemma ex_items v rest : ends rest = true -> IRenders rest [MExpr (EVar v); MSemi] [TSymbol v; TSemicolon].
Proof.
  intros H. apply (IR_expr rest (EVar v) [TSymbol v] [MSemi] [TSemicolon]); [apply R0_var | reflexivity|].
  apply IR_semi, IR_nil, H.
Qed.

Lemma ex_print v d rest : ends rest = true -> S d < max_nesting ->
  SRen 8 d rest (SPrint [PExpr (XVar v); PSemi]) [TPrint; TSymbol v; TSemicolon].
Proof.
  intros H Hd. apply (SR_print 8 d rest _ [MExpr (EVar v); MSemi] [TSymbol v; TSemicolon]);
    [reflexivity | apply ex_items, H | change (S d + 0 < max_nesting); lia | cbn; lia].
Qed.

Example ex_sim : Sim 8 ex_p [] (0, 0) (r_init 0) ex_s.
Proof.
  (* the state is evaluated once; the goals below read its fields off the record *)
  remember ex_s as x eqn:E. vm_compute in E. subst x.
  eapply (sim_start 8 ex_p _ 0 10%N); try reflexivity.
  split; try reflexivity.
  - repeat constructor.
  - apply lines_rendered. repeat (apply Forall_cons; [eexists; split; [reflexivity|] | ]); [..|apply Forall_nil].
    + apply LR_last, ex_inc.
    + apply LR_last, ex_print; [reflexivity | cbn; lia].
    + apply LR_last.
      apply (SR_if 8 0 [] (XBin (RCmp CLt) (XVar vI) (XNum n3)) (EBin (BCmp OLessThan) (EVar vI) (ENum n3)) [TSymbol vI; TLessThan; TNumber n3] 10%N n10); try reflexivity; try (cbn; lia).
      do 2 (apply R_incl; [lia|]).
      apply (R_bin (BCmp OLessThan) (EVar vI) (ENum n3) [TSymbol vI] [TNumber n3]).
      * do 5 (apply R_incl; [cbn; lia|]). constructor.
      * do 4 (apply R_incl; [cbn; lia|]). constructor.
    + apply LR_last, SR_end.
  - apply only_lines. reflexivity.
Qed.
Example ex_runs : exists st', rrun 8 ex_p 40 (0,0) (r_init 0) = Done st' /\ r_out st' = [bs "1"; bs "2"; bs "3"]
  /\ reach (fun s => state s = Idle /\ outputs s = map OPrint [bs "1"; bs "2"; bs "3"]) ex_s.
Proof. refine (run_ends _ _ _ _ _ _ _ _ ex_sim _). vm_compute. reflexivity. Qed.

(* non-vacuity of (4) for subroutines:  10 GOSUB 30: PRINT I; / 20 END /
   30 I = I + 1 / 40 RETURN  — the RETURN lands on the colon after the GOSUB *)
Definition ex2_lines := [HLine (bs "10 GOSUB 30: PRINT I;"); HLine (bs "20 END"); HLine (bs "30 I = I + 1"); HLine (bs "40 RETURN")].
Definition ex2_s : interp := set_state Running (snd (run_from_first_numbered_line (StoreProofs.run_state 50 init_interp ex2_lines))).
Definition n30 : f64 := f64_of_Z 30.
Definition ex2_p : rprogram :=
  [(10%N, [SGosub 30%N; SPrint [PExpr (XVar vI); PSemi]]);
   (20%N, [SEnd]);
   (30%N, [SLet vI [] (XBin RAdd (XVar vI) (XNum n1))]);
   (40%N, [SReturn])].

Lemma ex2_line10 : LRen 8 [SGosub 30%N; SPrint [PExpr (XVar vI); PSemi]] ([TGosub; TNumber n30] ++ TColon :: [TPrint; TSymbol vI; TSemicolon]).
Proof.
  apply LR_cons; [apply SR_gosub; vm_compute; reflexivity|]. apply LR_last, ex_print; [reflexivity | cbn; lia].
Qed.

Example ex2_sim : Sim 8 ex2_p [] (0, 0) (r_init 0) ex2_s.
Proof.
  remember ex2_s as x eqn:E. vm_compute in E. subst x.
  eapply (sim_start 8 ex2_p _ 0 10%N); try reflexivity.
  split; try reflexivity.
  - repeat constructor.
  - apply lines_rendered. repeat (apply Forall_cons; [eexists; split; [reflexivity|] | ]); [..|apply Forall_nil].
    + exact ex2_line10.
    + apply LR_last, SR_end.
    + apply LR_last, ex_inc.
    + apply LR_last, SR_return.
  - apply only_lines. reflexivity.
Qed.
Example ex2_runs : exists st', rrun 8 ex2_p 40 (0,0) (r_init 0) = Done st' /\ r_out st' = [bs "1"]
  /\ reach (fun s => state s = Idle /\ outputs s = map OPrint [bs "1"]) ex2_s.
Proof. refine (run_ends _ _ _ _ _ _ _ _ ex2_sim _). vm_compute. reflexivity. Qed.

(* non-vacuity of (4) for loops:  10 FOR I = 1 TO 5 STEP 2 / 20 PRINT I; / 30 NEXT I
   — NEXT lands at the end of line 10, the run falls off the end of the program *)
Definition ex3_lines := [HLine (bs "10 FOR I = 1 TO 5 STEP 2"); HLine (bs "20 PRINT I;"); HLine (bs "30 NEXT I")].
Definition ex3_s : interp := set_state Running (snd (run_from_first_numbered_line (StoreProofs.run_state 50 init_interp ex3_lines))).
Definition n2 : f64 := f64_of_Z 2.
Definition n5 : f64 := f64_of_Z 5.
Definition ex3_p : rprogram :=
  [(10%N, [SFor vI (XNum n1) (XNum n5) (Some (XNum n2))]);
   (20%N, [SPrint [PExpr (XVar vI); PSemi]]);
   (30%N, [SNext vI])].

Lemma ex3_line10 : LRen 8 [SFor vI (XNum n1) (XNum n5) (Some (XNum n2))]
                          (TFor :: TSymbol vI :: TEquals :: [TNumber n1] ++ TTo :: [TNumber n5] ++ [TStep; TNumber n2]).
Proof.
  apply LR_last.
  apply (SR_for 8 0 [] vI (XNum n1) (ENum n1) [TNumber n1] (XNum n5) (ENum n5) [TNumber n5] (Some (XNum n2)) [TStep; TNumber n2]);
    try reflexivity; try apply R0_num; try (cbn; lia).
  right. exists (XNum n2), (ENum n2), [TNumber n2]. repeat split; try reflexivity; try apply R0_num; cbn; lia.
Qed.

Example ex3_sim : Sim 8 ex3_p [] (0, 0) (r_init 0) ex3_s.
Proof.
  remember ex3_s as x eqn:E. vm_compute in E. subst x.
  eapply (sim_start 8 ex3_p _ 0 10%N); try reflexivity.
  split; try reflexivity.
  - repeat constructor.
  - apply lines_rendered. repeat (apply Forall_cons; [eexists; split; [reflexivity|] | ]); [..|apply Forall_nil].
    + exact ex3_line10.
    + apply LR_last, ex_print; [reflexivity | cbn; lia].
    + apply LR_last, SR_next.
  - apply only_lines. reflexivity.
Qed.
Example ex3_runs : exists st', rrun 8 ex3_p 40 (0,0) (r_init 0) = Done st' /\ r_out st' = [bs "1"; bs "3"; bs "5"]
  /\ reach (fun s => state s = Idle /\ outputs s = map OPrint [bs "1"; bs "3"; bs "5"]) ex3_s.
Proof. refine (run_ends _ _ _ _ _ _ _ _ ex3_sim _). vm_compute. reflexivity. Qed.

(* non-vacuity of (4) for IF..THEN <statement>:  10 I = I + 1 / 20 IF I < 3 THEN PRINT I; /
   30 IF I < 3 THEN 10  — the clause runs one nesting level down, or the rest of the line is skipped *)
Definition ex4_lines := [HLine (bs "10 I = I + 1"); HLine (bs "20 IF I < 3 THEN PRINT I;"); HLine (bs "30 IF I < 3 THEN 10")].
Definition ex4_s : interp := set_state Running (snd (run_from_first_numbered_line (StoreProofs.run_state 50 init_interp ex4_lines))).
Definition cI3 : rexpr := XBin (RCmp CLt) (XVar vI) (XNum n3).
Definition cI3' : expr := EBin (BCmp OLessThan) (EVar vI) (ENum n3).
Definition ex4_p : rprogram :=
  [(10%N, [SLet vI [] (XBin RAdd (XVar vI) (XNum n1))]);
   (20%N, [SIf cI3 (AStmt (SPrint [PExpr (XVar vI); PSemi])) None]);
   (30%N, [SIf cI3 (ALine 10%N) None])].

Lemma cI3_renders : Renders 0 cI3' [TSymbol vI; TLessThan; TNumber n3].
Proof.
  do 2 (apply R_incl; [lia|]).
  apply (R_bin (BCmp OLessThan) (EVar vI) (ENum n3) [TSymbol vI] [TNumber n3]).
  - do 5 (apply R_incl; [cbn; lia|]). constructor.
  - do 4 (apply R_incl; [cbn; lia|]). constructor.
Qed.

Lemma ex4_line20 : LRen 8 [SIf cI3 (AStmt (SPrint [PExpr (XVar vI); PSemi])) None]
                          (TIf :: [TSymbol vI; TLessThan; TNumber n3] ++ TThen :: [TPrint; TSymbol vI; TSemicolon]).
Proof.
  apply LR_last.
  apply (SR_if_stmt 8 0 [] cI3 cI3' [TSymbol vI; TLessThan; TNumber n3] (SPrint [PExpr (XVar vI); PSemi]) [TPrint; TSymbol vI; TSemicolon]);
    try reflexivity; try apply cI3_renders; try (cbn; lia).
  apply ex_print; [reflexivity | cbn; lia].
Qed.

Example ex4_sim : Sim 8 ex4_p [] (0, 0) (r_init 0) ex4_s.
Proof.
  remember ex4_s as x eqn:E. vm_compute in E. subst x.
  eapply (sim_start 8 ex4_p _ 0 10%N); try reflexivity.
  split; try reflexivity.
  - repeat constructor.
  - apply lines_rendered. repeat (apply Forall_cons; [eexists; split; [reflexivity|] | ]); [..|apply Forall_nil].
    + apply LR_last, ex_inc.
    + exact ex4_line20.
    + apply LR_last.
      apply (SR_if 8 0 [] cI3 cI3' [TSymbol vI; TLessThan; TNumber n3] 10%N n10); try reflexivity; try apply cI3_renders; try (cbn; lia).
  - apply only_lines. reflexivity.
Qed.
Example ex4_runs : exists st', rrun 8 ex4_p 40 (0,0) (r_init 0) = Done st' /\ r_out st' = [bs "1"; bs "2"]
  /\ reach (fun s => state s = Idle /\ outputs s = map OPrint [bs "1"; bs "2"]) ex4_s.
Proof. refine (run_ends _ _ _ _ _ _ _ _ ex4_sim _). vm_compute. reflexivity. Qed.

(* non-vacuity of (4) for ELSE:  10 I = I + 1 / 20 IF I < 3 THEN PRINT I; ELSE PRINT 9; /
   30 IF I < 3 THEN 10 ELSE END *)
Definition ex5_lines := [HLine (bs "10 I = I + 1"); HLine (bs "20 IF I < 3 THEN PRINT I; ELSE PRINT 9;"); HLine (bs "30 IF I < 3 THEN 10 ELSE END")].
Definition ex5_s : interp := set_state Running (snd (run_from_first_numbered_line (StoreProofs.run_state 50 init_interp ex5_lines))).
Definition n9 : f64 := f64_of_Z 9.
Definition ex5_p : rprogram :=
  [(10%N, [SLet vI [] (XBin RAdd (XVar vI) (XNum n1))]);
   (20%N, [SIf cI3 (AStmt (SPrint [PExpr (XVar vI); PSemi])) (Some (AStmt (SPrint [PExpr (XNum n9); PSemi])))]);
   (30%N, [SIf cI3 (ALine 10%N) (Some (AStmt SEnd))])].

Lemma ex5_line20 : LRen 8 [SIf cI3 (AStmt (SPrint [PExpr (XVar vI); PSemi])) (Some (AStmt (SPrint [PExpr (XNum n9); PSemi])))]
   (TIf :: [TSymbol vI; TLessThan; TNumber n3] ++ TThen :: [TPrint; TSymbol vI; TSemicolon] ++ TElse :: [TPrint; TNumber n9; TSemicolon]).
Proof.
  apply LR_last.
  apply (SR_if_else_stmt 8 0 [] cI3 cI3' [TSymbol vI; TLessThan; TNumber n3]
           (AStmt (SPrint [PExpr (XVar vI); PSemi])) [TPrint; TSymbol vI; TSemicolon]
           (SPrint [PExpr (XNum n9); PSemi]) [TPrint; TNumber n9; TSemicolon]);
    try reflexivity; try apply cI3_renders; try (cbn; lia).
  - apply (TR_print 8 1 _ [PExpr (XVar vI); PSemi] [MExpr (EVar vI); MSemi] [TSymbol vI; TSemicolon]); try reflexivity; try (cbn; lia).
    apply ex_items. reflexivity.
  - apply (SR_print 8 1 [] [PExpr (XNum n9); PSemi] [MExpr (ENum n9); MSemi] [TNumber n9; TSemicolon]); try reflexivity; try (cbn; lia).
    apply (IR_expr [] (ENum n9) [TNumber n9] [MSemi] [TSemicolon]); [apply R0_num | reflexivity|].
    apply IR_semi. apply IR_nil. reflexivity.
Qed.

Lemma ex5_line30 : LRen 8 [SIf cI3 (ALine 10%N) (Some (AStmt SEnd))]
   (TIf :: [TSymbol vI; TLessThan; TNumber n3] ++ TThen :: [TNumber n10] ++ TElse :: [TEnd]).
Proof.
  apply LR_last.
  apply (SR_if_else_stmt 8 0 [] cI3 cI3' [TSymbol vI; TLessThan; TNumber n3] (ALine 10%N) [TNumber n10] SEnd [TEnd]);
    try reflexivity; try apply cI3_renders; try (cbn; lia).
  - apply TR_line. reflexivity.
  - apply SR_end.
Qed.

Example ex5_sim : Sim 8 ex5_p [] (0, 0) (r_init 0) ex5_s.
Proof.
  remember ex5_s as x eqn:E. vm_compute in E. subst x.
  eapply (sim_start 8 ex5_p _ 0 10%N); try reflexivity.
  split; try reflexivity.
  - repeat constructor.
  - apply lines_rendered. repeat (apply Forall_cons; [eexists; split; [reflexivity|] | ]); [..|apply Forall_nil].
    + apply LR_last, ex_inc.
    + exact ex5_line20.
    + exact ex5_line30.
  - apply only_lines. reflexivity.
Qed.
Example ex5_runs : exists st', rrun 8 ex5_p 40 (0,0) (r_init 0) = Done st' /\ r_out st' = [bs "1"; bs "2"; bs "9"]
  /\ reach (fun s => state s = Idle /\ outputs s = map OPrint [bs "1"; bs "2"; bs "9"]) ex5_s.
Proof. refine (run_ends _ _ _ _ _ _ _ _ ex5_sim _). vm_compute. reflexivity. Qed.

(* non-vacuity of (4) for READ / DATA / RESTORE:
   10 DATA 7, 8 / 20 READ I, J / 30 PRINT I + J; / 40 RESTORE / 50 READ J: PRINT J; *)
Definition ex6_lines := [HLine (bs "10 DATA 7, 8"); HLine (bs "20 READ I, J"); HLine (bs "30 PRINT I + J;"); HLine (bs "40 RESTORE"); HLine (bs "50 READ J: PRINT J;")].
Definition ex6_s : interp := set_state Running (snd (run_from_first_numbered_line (StoreProofs.run_state 50 init_interp ex6_lines))).
Definition vJ : bytes := [74%N].
Definition d78 : list data_elem := [DNum (f64_of_Z 7); DNum (f64_of_Z 8)].
Definition ex6_p : rprogram :=
  [(10%N, [SData d78]);
   (20%N, [SRead [(vI, []); (vJ, [])]]);
   (30%N, [SPrint [PExpr (XBin RAdd (XVar vI) (XVar vJ)); PSemi]]);
   (40%N, [SRestore]);
   (50%N, [SRead [(vJ, [])]; SPrint [PExpr (XVar vJ); PSemi]])].

Lemma ex6_line30 : LRen 8 [SPrint [PExpr (XBin RAdd (XVar vI) (XVar vJ)); PSemi]] [TPrint; TSymbol vI; TPlus; TSymbol vJ; TSemicolon].
Proof.
  apply LR_last.
  apply (SR_print 8 0 [] [PExpr (XBin RAdd (XVar vI) (XVar vJ)); PSemi] [MExpr (EBin (BAddSub OAdd) (EVar vI) (EVar vJ)); MSemi]
           [TSymbol vI; TPlus; TSymbol vJ; TSemicolon]); try reflexivity; try (cbn; lia).
  apply (IR_expr [] (EBin (BAddSub OAdd) (EVar vI) (EVar vJ)) [TSymbol vI; TPlus; TSymbol vJ] [MSemi] [TSemicolon]); [|reflexivity|].
  - do 3 (apply R_incl; [lia|]).
    apply (R_bin (BAddSub OAdd) (EVar vI) (EVar vJ) [TSymbol vI] [TSymbol vJ]).
    + do 4 (apply R_incl; [cbn; lia|]). constructor.
    + do 3 (apply R_incl; [cbn; lia|]). constructor.
  - apply IR_semi. apply IR_nil. reflexivity.
Qed.

Lemma ex6_line50 : LRen 8 [SRead [(vJ, [])]; SPrint [PExpr (XVar vJ); PSemi]] ([TRead; TSymbol vJ] ++ TColon :: [TPrint; TSymbol vJ; TSemicolon]).
Proof.
  apply LR_cons; [apply (SR_read 8 0 _ [vJ]); discriminate|].
  apply LR_last, ex_print; [reflexivity | cbn; lia].
Qed.

Example ex6_sim : Sim 8 ex6_p [] (0, 0) (r_init 0) ex6_s.
Proof.
  remember ex6_s as x eqn:E. vm_compute in E. subst x.
  eapply (sim_start 8 ex6_p _ 0 10%N); try reflexivity.
  split; try reflexivity.
  - repeat constructor.
  - apply lines_rendered. repeat (apply Forall_cons; [eexists; split; [reflexivity|] | ]); [..|apply Forall_nil].
    + apply LR_last. apply (SR_data 8 0 [] d78). reflexivity.
    + apply LR_last. apply (SR_read 8 0 [] [vI; vJ]). discriminate.
    + exact ex6_line30.
    + apply LR_last. apply SR_restore.
    + exact ex6_line50.
  - apply only_lines. reflexivity.
Qed.
Example ex6_runs : exists st', rrun 8 ex6_p 40 (0,0) (r_init 0) = Done st' /\ r_out st' = [bs "15"; bs "7"]
  /\ reach (fun s => state s = Idle /\ outputs s = map OPrint [bs "15"; bs "7"]) ex6_s.
Proof. refine (run_ends _ _ _ _ _ _ _ _ ex6_sim _). vm_compute. reflexivity. Qed.

(* non-vacuity: the manual's nested-loop example (NEXT I forgets the J loop), run by the
   reference interpreter *)
Definition nx := XNum (f64_of_Z 1).
Example C03_example :
  let p : rprogram :=
    [(10%N, [SFor (bs "I") (XNum (f64_of_Z 1)) (XNum (f64_of_Z 2)) None]);
     (20%N, [SFor (bs "J") (XNum (f64_of_Z 1)) (XNum (f64_of_Z 2)) None]);
     (30%N, [SPrint [PExpr (XVar (bs "I")); PSemi; PExpr (XVar (bs "J"))]]);
     (40%N, [SNext (bs "I")]); (50%N, [SNext (bs "J")])] in
  transcript_of (run_ref 50 100 0 p) = ([bs "11" ++ [10%N]; bs "21" ++ [10%N]], Some (RNextWithoutFor, 50%N)).
Proof. vm_compute. reflexivity. Qed.

(* the order of events in FOR and GOSUB as regenerated from program.rs on this run (Gen/ProgramEvents.v, DESIGN 11.7):
   FOR forgets the old loop of its variable, THEN tests the loop cap, pushes the loop and assigns the counter; GOSUB tests
   the frame cap, THEN jumps, then pushes the return address — the order the reference interpreter has, and the one the
   step lemmas of Proofs/ProgSim.v meet when they run the primitives (re-entering a FOR with 32 loops open is no overflow;
   a 33rd GOSUB fails on the GOSUB's line) *)
Theorem C03_code_for_gosub_order :
  firstn 2 Gen.ProgramEvents.program_events =
  [("start_loop", ["forget-loop"; "cap-test:loop_stack==STACK_LIMIT:StackOverflow"; "push:loop_stack"; "set-variable"]);
   ("gosub_line_number", ["cap-test:stack==STACK_LIMIT:StackOverflow"; "goto"; "push:stack"])]%string.
Proof. reflexivity. Qed.
Theorem C03_model_for_gosub_order : forall sym a b c n name bs s,
  (forall u s1, remove_loop_with_name sym s = (Ok u, s1) -> length (loops s1) = stack_limit ->
     start_loop sym a b c s = (Err EStackOverflow None, s1)) /\
  (length (stack s) = stack_limit -> gosub_line_number n s = (Err EStackOverflow None, s)) /\
  (length (stack s) = stack_limit -> push_function_call name bs s = (Err EStackOverflow None, s)).
Proof. exact Proofs.ArraysTie.model_cap_order. Qed.

Print Assumptions C03_ref_for_runs_once.
Print Assumptions C03_ref_next_forgets_inner.
Print Assumptions C03_ref_undefined_variable.
Print Assumptions C03_ref_implicit_array.
Print Assumptions C03_ref_data_order.
Print Assumptions C03_expr_reference_is_fold.
Print Assumptions C03_expr_model_is_reference.
Print Assumptions C03_let_statement_simulates.
Print Assumptions C03_same_store_reads.
Print Assumptions C03_print_statement_simulates.
Print Assumptions C03_fragment_simulation.
Print Assumptions ex_runs.
Print Assumptions C03_run_simulates.
Print Assumptions C03_code_for_gosub_order.
Print Assumptions C03_model_for_gosub_order.
