(* C06 — The static checker and the interpreter agree on what is an error.

   The plan (DESIGN.md section 6) asks for two clauses: no analysis error and unique, executed-before-use
   definitions => no run ever fails with a syntax error, a type mismatch or an undefined jump; and an error on a
   straight line => executing that line fresh fails.  Proved here: the first for every program without a DEF
   token (C06_program_sound_input and its special cases), with [benign] as the class of errors left, which
   excludes syntax errors and type mismatches; it is FALSE, of the model and of the code, for a DEF that runs
   before its use but stands on a later line (C06_late_def_refuted), and programs with DEF are decided on every
   run by execution instead (analyzer verdict vs forced runs along both branches, on the implementation, with
   the model tied to both tools by the analyzer and run correspondences).  The second for straight lines
   (C06_straight_line_complete, C06_host_line_complete, C06_reported_error_means_failure).  Underneath: the lock
   step between the two token walkers, for every token stream and cursor position — no syntax tree, no
   well-formedness assumption. *)
From Coq Require Import List NArith ZArith Bool.
From Coq Require String.
From Abasic Require Import Model.Bytes Model.Num Model.Token Model.Data Model.Lexer Gen.Tables
     Model.State Model.Eval Model.Interp Model.Analyzer Proofs.Monad Proofs.Frames Proofs.StoreProofs
     Proofs.Safety Proofs.AnalyzerFrame Proofs.AnalyzerProofs Proofs.AgreeProofs Proofs.Caps Proofs.CheckSound Proofs.CheckAgree Proofs.AnalyzerFns Proofs.AnalyzerSafety Proofs.AnalyzerTermination
     Proofs.PlainToks Proofs.ProgSound Proofs.ProgSoundElse Proofs.LineAgree Proofs.LineComplete.
Import ListNotations.
Local Open Scope nat_scope.

(* One grammar: the same precedence tiers, operator classes and associativity
   in both expression walkers, the same statement keywords in both dispatchers
   (tables regenerated from the four Rust files on every run). *)
Theorem C06_same_expression_grammar : analyzer_expr_tiers = expr_tiers.
Proof. exact same_expression_grammar. Qed.

Theorem C06_same_statement_keywords :
  stmt_keywords analyzer_stmt_dispatch
  = filter (fun k => negb (String.eqb k "Else")) (stmt_keywords stmt_dispatch).
Proof. exact same_statement_keywords. Qed.

(* Jump targets: the checker accepts a numeric target exactly when the
   interpreter's jump to it succeeds, on any two states with the same store ... *)
Theorem C06_jump_targets : forall x toks st s,
  fst (cur_tokens (fst st)) = Ok toks ->
  nth_error toks (loc_idx (loc (fst st))) = Some (TNumber x) ->
  line_exists (fst st) (loc (fst st)) ->
  st_toks s = st_toks (fst st) ->
  let n := Z.to_N (f64_to_u64_sat x) in
  (fst (an_goto_or_gosub st) = Ok tt <-> fst (goto_line_number n s) = Ok tt)
  /\ (fst (an_goto_or_gosub st) = Err EUndefinedStatement None
      <-> fst (goto_line_number n s) = Err EUndefinedStatement None).
Proof. exact jump_targets_agree. Qed.

(* ... and the store the checker consults IS the program's: statement analysis,
   expression analysis and the whole walk change only cursor-like fields. *)
Theorem C06_analysis_keeps_store : forall fuel n st,
  AF (fst st) (fst (snd (analyze_statement fuel n st))).
Proof. intros fuel n st. exact (af_analyze_statement fuel n st). Qed.

(* Kinds: the checker accepts an assignment exactly when the value's static
   kind is the kind of the target's name; the interpreter stores exactly when
   the value's dynamic kind is; comparison and logical results are numbers. *)
Theorem C06_checker_assignment : forall lv t st,
  fst (an_assign lv t st) = Ok tt <-> t = type_of_name (alv_sym lv).
Proof. exact checker_assignment_rule. Qed.

Theorem C06_interpreter_assignment : forall name v s,
  fst (variables_set name v s) = Ok tt <-> kind_of_value v = type_of_name name.
Proof. exact interpreter_assignment_rule. Qed.

Theorem C06_comparisons_are_numbers : forall op a b s v s',
  eval_eq op a b s = (Ok v, s') -> kind_of_value v = TyNumber.
Proof. exact comparison_results_are_numbers. Qed.

(* the checker on the model, by the number of its Error messages: an accepted
   line, rejected ones, a comparison is a number whatever its left operand,
   a DEF body is checked against the function's name, an undefined target *)
Definition errors_of (text : String.string) : nat :=
  length (filter (fun m => match m with MError _ _ _ => true | _ => false end)
                 (an_messages (analyze 200 (bs text)))).

Example C06_example :
  errors_of "10 X = 1 : PRINT X" = 0
  /\ errors_of "10 A = ""hi""" = 1
  /\ errors_of "20 S$ = S$ = T$" = 1
  /\ errors_of "30 X = S$ = T$" = 0
  /\ errors_of "40 X = NOT S$" = 0
  /\ errors_of "10 DEF F$(X) = X : A$ = F$(1)" = 1
  /\ errors_of "10 GOTO 20" = 1.
Proof. vm_compute. repeat split. Qed.

(* Soundness of the checker on expressions.  Take ANY stored program and
   immediate line, ANY cursor position, ANY nesting level and fuels, an
   interpreter state [s] that satisfies the name-suffix typing invariant of C16
   ([caps_inv]: every reachable state does) and an analyzer state [sa] looking
   at the same tokens through the same cursor, neither holding user-defined
   functions ([R s sa]).  If the expression analyzer accepts what stands at
   the cursor and says it has type t, then the evaluator, on the same tokens,
   - returns a value of type t, leaves its cursor where the analyzer left its
     own, and keeps the invariant; or
   - fails with an error that is NEITHER a syntax error NOR a type mismatch
     (division by zero, bad subscript, illegal quantity, out of memory ...).
   (The remaining answers are the model's own: out of fuel, oracle miss for ^,
   and the panic tags, which C01 shows unreachable.) *)
Theorem C06_expression_check_sound : forall f1 f2 n s sa acc t sa' acc',
  R s sa -> analyze_expression f2 n (sa, acc) = (Ok t, (sa', acc')) ->
  match evaluate_expression f1 n s with
  | (Ok v, s') => kind v = t /\ loc s' = loc sa' /\ caps_inv s'
  | (Err e _, _) => benign e
  | _ => True
  end.
Proof. exact checked_expression_does_not_fail_on_types. Qed.

(* ... and for the assignment (scalar or array cell, any subscripts) and the
   PRINT statement (any item list): accepted by the statement analyzer at the
   cursor => executing it there stores / prints, or fails with an error that is
   neither a syntax error nor a type mismatch *)
Theorem C06_assignment_check_sound : forall f1 f2 nest sym s sa acc sa' acc',
  R s sa -> an_assignment f2 nest sym (sa, acc) = (Ok tt, (sa', acc')) ->
  stmt_ok (evaluate_assignment_statement f1 nest sym s).
Proof. exact checked_assignment_does_not_fail_on_types. Qed.

Theorem C06_print_check_sound : forall f1 f2 nest s sa acc sa' acc',
  R s sa -> an_print f2 nest (sa, acc) = (Ok tt, (sa', acc')) ->
  stmt_ok (evaluate_print_statement f1 nest s).
Proof. exact checked_print_does_not_fail_on_types. Qed.

(* ... and for EVERY statement that neither branches nor jumps, at the level of
   the two dispatchers ([edispatch] / [adispatch] are the dispatch tables of
   evaluate_statement_body / an_statement_body, by reflexivity): whichever of
   v = e, LET, PRINT, ?, DIM, FOR..TO..STEP, READ, RESTORE, REM, DATA or ":" the
   cursor has just passed, if the checker accepts the statement the
   interpreter executes it without a syntax error or a type mismatch and the
   two cursors are together again behind it ([sound]: Proofs/CheckSound.v) *)
Theorem C06_straight_statement_sound : forall f1 f2 nest rec arec t, straight_head t = true ->
  sound (fun _ _ => True) (edispatch f1 nest rec t) (adispatch f2 nest arec t).
Proof. exact straight_statement_sound. Qed.

Theorem C06_dispatchers : forall f nest rec arec,
  evaluate_statement_body f nest rec =
    (tr <- get enable_tracing ;;
     (if tr then l <- get_line_number ;; match l with Some n => push_output (OTrace n) | None => ret tt end else ret tt) ;;;
     t <- next_token ;; edispatch f nest rec t)
  /\ an_statement_body f nest arec = (t <-- lift next_token ;; adispatch f nest arec t).
Proof.
  intros f nest rec arec.
  exact (conj (evaluate_statement_body_dispatch f nest rec) (an_statement_body_dispatch f nest arec)).
Qed.

(* THE OTHER DIRECTION (Proofs/CheckAgree.v).  [agree] strengthens [sound]:
   besides the clause above, whenever the interpreter SUCCEEDS from a related
   state the checker does not report an error from there (it may still run out
   of fuel: that is a different outcome and is excluded by the fuel bounds of C05 and C09),
   and when both succeed the kind of the value is the type the checker
   computed and the two cursors are together again.  Over every token stream,
   for expressions ... *)
Theorem C06_expression_check_agrees : forall f1 f2 n,
  agree K (evaluate_expression f1 n) (analyze_expression f2 n).
Proof. exact expression_check_agrees. Qed.

(* ... and for every statement that neither branches nor jumps *)
Theorem C06_straight_statement_agrees : forall f1 f2 nest rec arec t, straight_head t = true ->
  agree (fun _ _ => True) (edispatch f1 nest rec t) (adispatch f2 nest arec t).
Proof. exact straight_statement_agrees. Qed.

(* spelled out: what the interpreter evaluated / executed is not rejected *)
Theorem C06_evaluated_expression_is_not_rejected : forall f1 f2 n s sa acc v s',
  R s sa -> evaluate_expression f1 n s = (Ok v, s') ->
  forall e l st, analyze_expression f2 n (sa, acc) <> (Err e l, st).
Proof. exact evaluated_expression_is_not_rejected. Qed.

Theorem C06_executed_statement_is_not_rejected : forall f1 f2 nest rec arec t s sa acc u s', straight_head t = true ->
  R s sa -> edispatch f1 nest rec t s = (Ok u, s') ->
  forall e l st, adispatch f2 nest arec t (sa, acc) <> (Err e l, st).
Proof. exact executed_statement_is_not_rejected. Qed.

(* WHOLE PROGRAMS (Proofs/ProgSoundElse.v, stated with Proofs/ProgSound.v).  [analyze fuel text] is the checker on a
   program text; [pass1_of' text] its first pass, whose [p_prog] holds the
   stored program.  If the analysis reports no error (with the fuel the
   totality theorem of C05 asks for) and no line of the program contains an
   ELSE, INPUT or DEF token ([clean_program]), then from ANY idle interpreter
   that holds this program and satisfies the typing invariant of C16 (a premise
   the proof does not use: RUN empties the stores), RUN and EVERY turn of the
   run after it — programs that loop for ever included — fails, if at all, with
   a [benign] error: neither a syntax error nor a type mismatch.  (The proof
   also shows that every jump finds its line; [benign] does not exclude
   EUndefinedStatement, so the statement does not say it.)  IF..THEN nested to any depth,
   GOTO, GOSUB / RETURN, FOR / NEXT, END, STOP, and every straight-line
   statement are covered. *)
Theorem C06_program_sound : forall fuel fi text,
  line_bound text < fuel ->
  forallb (fun msg => negb (is_error_msg msg)) (an_messages (analyze fuel text)) = true ->
  clean_program (st_toks (p_prog (pass1_of' text))) ->
  forall line s0, state s0 = Idle -> st_toks s0 = st_toks (p_prog (pass1_of' text)) ->
    st_keys s0 = st_keys (p_prog (pass1_of' text)) ->
    caps_inv s0 -> command_of line = Some CRun ->
    match start_evaluating fi line s0 with
    | (Ok _, s1) => forall s, Reach fi s1 s -> state s = Running -> turn_ok fi s
    | (Err e _, _) => benign e
    | _ => True
    end.
Proof. exact program_sound. Qed.

(* its core: one turn from a state that satisfies the invariant *)
Theorem C06_turn_sound : forall fa ptoks pkeys,
  (forall n ts, toks_get n ptoks = Some ts -> clean_line ts = true) ->
  (forall n, toks_get n ptoks <> None -> AccAt fa ptoks pkeys (mkloc (Some n) 0)) ->
  (forall n, In n pkeys -> toks_get n ptoks <> None) ->
  forall fi s, Inv fa ptoks pkeys s ->
    match run_next_statement fi s with
    | (Ok _, s') => Inv fa ptoks pkeys s'
    | (Err e _, _) => benign e
    | _ => True
    end.
Proof. exact turn_sound. Qed.

(* ... AND WITH ELSE (Proofs/ProgSoundElse.v): the same theorem for programs whose
   lines may contain ELSE anywhere — nested IF .. THEN .. ELSE to any depth,
   clauses that are line numbers, transfers, loops, empty statements —; only
   INPUT and DEF tokens are excluded ([clean2_program]). *)
Theorem C06_program_sound_else : forall fuel fi text,
  line_bound text < fuel ->
  forallb (fun msg => negb (is_error_msg msg)) (an_messages (analyze fuel text)) = true ->
  clean2_program (st_toks (p_prog (pass1_of' text))) ->
  forall line s0, state s0 = Idle -> st_toks s0 = st_toks (p_prog (pass1_of' text)) ->
    st_keys s0 = st_keys (p_prog (pass1_of' text)) ->
    caps_inv s0 -> command_of line = Some CRun ->
    match start_evaluating fi line s0 with
    | (Ok _, s1) => forall s, Reach fi s1 s -> state s = Running -> turn_ok fi s
    | (Err e _, _) => benign e
    | _ => True
    end.
Proof. exact program_sound_else. Qed.

(* ... AND WITH INPUT (Proofs/ProgSoundElse.v): only DEF tokens are excluded, and the
   run includes the replies the host gives while the program waits ([ReachI]):
   an INPUT goes back to its own token and is re-executed as a statement of its
   own when the reply arrives, again after REENTER. *)
Theorem C06_program_sound_input : forall fuel fi text,
  line_bound text < fuel ->
  forallb (fun msg => negb (is_error_msg msg)) (an_messages (analyze fuel text)) = true ->
  nodef_program (st_toks (p_prog (pass1_of' text))) ->
  forall line s0, state s0 = Idle -> st_toks s0 = st_toks (p_prog (pass1_of' text)) ->
    st_keys s0 = st_keys (p_prog (pass1_of' text)) ->
    caps_inv s0 -> command_of line = Some CRun ->
    match start_evaluating fi line s0 with
    | (Ok _, s1) => forall s, ReachI fi s1 s -> state s = Running -> turn_ok fi s
    | (Err e _, _) => benign e
    | _ => True
    end.
Proof. exact program_sound_input. Qed.

(* THE CONVERSE CLAUSE FOR A WHOLE LINE (Proofs/LineAgree.v).  A line none of whose tokens is IF, THEN, ELSE, GOTO,
   GOSUB, RETURN, NEXT, END, STOP, INPUT or DEF; interpreter and checker on the same program with their cursors at the
   same place of that line, the interpreter's runtime state typed and no function defined (a fresh state is one):
   if the interpreter executes the statements that remain on the line one after another, each successfully
   ([LineRun]), the checker's walk over the rest of the line reports no error.  [walk_line] is the function whose
   [Some msg] answers are the Error messages of the analysis.  Read the other way round: an error the analysis
   reports on a straight line means that executing that line does not complete at the given fuel: a statement of
   it answers an error, or one of the model's own answers (OutOfFuel, OracleMiss for "^", Panic), which
   [~ exists s', LineRun fi s s'] does not tell apart. *)
Theorem C06_straight_line_complete : forall fi fa k m s s', LineRun fi s s' ->
  forall sa acc, R s sa -> straight_line (cur_line s) = true ->
  match walk_line fa k m (sa, acc) with
  | (Ok (Some _), _) => False
  | _ => True
  end.
Proof. exact straight_line_complete. Qed.

Theorem C06_straight_line_error_fails : forall fi fa k m s sa acc msg st',
  R s sa -> straight_line (cur_line s) = true ->
  walk_line fa k m (sa, acc) = (Ok (Some msg), st') -> ~ exists s', LineRun fi s s'.
Proof. exact straight_line_error_fails. Qed.

(* the same over the host's turns: [HostLine fi s] - the host calls the interpreter turn after turn while statements
   remain on the current line, and every one of these turns succeeds *)
Theorem C06_host_line_complete : forall fi fa s, HostLine fi s ->
  forall k m sa acc, R s sa -> straight_line (cur_line s) = true ->
  match walk_line fa k m (sa, acc) with
  | (Ok (Some _), _) => False
  | _ => True
  end.
Proof. exact host_line_complete. Qed.

(* ... and over the analysis of a whole program text (Proofs/LineComplete.v): every Error message of the analysis of
   a program without DEF tokens is a tokenization error of pass 1 (the line was never stored), or there is a stored
   line ln such that, if it is straight, executing it fails - from EVERY interpreter state that holds the program,
   stands at the first token of line ln, is typed and has no function defined (a fresh state is one).  (The proof
   takes for ln the line on which the walk produced the message; the statement does not say so.) *)
Theorem C06_reported_error_means_failure : forall fuel text,
  line_bound text < fuel ->
  nodef_program (st_toks (p_prog (pass1_of' text))) ->
  forall msg, In msg (an_messages (analyze fuel text)) -> is_error_msg msg = true ->
  In msg (p_msgs (pass1_of' text))
  \/ exists ln ts, toks_get ln (st_toks (p_prog (pass1_of' text))) = Some ts
       /\ (straight_line ts = true ->
           forall fi s, st_toks s = st_toks (p_prog (pass1_of' text)) -> st_keys s = st_keys (p_prog (pass1_of' text)) ->
             immediate s = [] -> loc s = mkloc (Some ln) 0 -> caps_inv s -> functions s = [] ->
             (~ exists s', LineRun fi s s') /\ ~ HostLine fi s).
Proof. exact reported_error_means_failure. Qed.

(* a failing statement of the line is a failing turn of the host loop *)
Theorem C06_statement_failure_is_turn_failure : forall fi s s1 e l s2,
  has_next_token (set_state Running s) = (Ok true, s1) -> evaluate_statement fi 0 s1 = (Err e l, s2) ->
  run_next_statement fi s = (Err e l, s2).
Proof. exact turn_fails_with_statement. Qed.

Theorem C06_turn_success_is_statement_success : forall fi s s1 s',
  has_next_token (set_state Running s) = (Ok true, s1) -> run_next_statement fi s = (Ok tt, s') ->
  exists s2, evaluate_statement fi 0 s1 = (Ok tt, s2).
Proof. exact turn_ok_statement_ok. Qed.

(* what an accepted expression is made of: operands, operators, parentheses, commas *)
Theorem C06_expression_tokens : forall f n st t st',
  analyze_expression f n st = (Ok t, st') -> PL exprtok (fst st) (fst st').
Proof. intros f n. exact (apl_analyze_expression exprtok (fun t H => H) token_eqb_exprtok f n). Qed.

Lemma program_check (P : list token -> bool) T :
  forallb (fun kv => P (snd kv)) T = true -> forall n ts, toks_get n T = Some ts -> P ts = true.
Proof.
  induction T as [|[k v] T IH]; intros H n ts E; cbn [toks_get] in E; [discriminate E|].
  cbn [forallb snd] in H. apply andb_prop in H as [H1 H2].
  destruct (k =? n)%N; [injection E as <-; exact H1 | exact (IH H2 n ts E)].
Qed.

(* [H : t = v] for the value [v] of the closed term [t], computed once: the conjuncts of an example then read the
   program, the state or the answer off [v] (by [rewrite H] inside the conjunct, so that [v] does not get into the
   types of the [conj]s) instead of each running the tokenizer or the interpreter again; coqchk has no virtual
   machine and repeats every such run by plain conversion *)
Ltac evaluated t H := eassert (H : t = _) by (vm_compute; reflexivity).

(* non-vacuity: a program with a FOR loop, a subroutine and nested IFs is
   accepted, is clean, an interpreter into which its lines were typed holds it
   and satisfies the typing invariant — and RUN answers Ok *)
Definition C06_prog_lines : list String.string :=
  ["10 FOR I = 1 TO 3"; "20 GOSUB 100"; "30 NEXT I"; "40 IF I > 3 THEN IF I < 9 THEN PRINT ""done"""; "50 END";
   "100 IF I > 1 THEN PRINT I : GOTO 120"; "110 A$ = ""one"" : PRINT A$"; "120 RETURN"]%string.
Definition C06_prog_text : bytes := List.concat (map (fun l => bs l ++ [10%N]) C06_prog_lines).
Definition C06_prog_state : interp := run_state 100 init_interp (map (fun l => HLine (bs l)) C06_prog_lines).

Example C06_program_example :
  line_bound C06_prog_text < 200
  /\ forallb (fun msg => negb (is_error_msg msg)) (an_messages (analyze 200 C06_prog_text)) = true
  /\ clean_program (st_toks (p_prog (pass1_of' C06_prog_text)))
  /\ state C06_prog_state = Idle
  /\ st_toks C06_prog_state = st_toks (p_prog (pass1_of' C06_prog_text))
  /\ st_keys C06_prog_state = st_keys (p_prog (pass1_of' C06_prog_text))
  /\ caps_inv C06_prog_state
  /\ fst (start_evaluating 200 (bs "RUN") C06_prog_state) = Ok tt.
Proof.
  evaluated (p_prog (pass1_of' C06_prog_text)) Ep. evaluated C06_prog_state Es.
  split; [unfold line_bound; rewrite Ep; vm_compute; repeat constructor|]. split; [vm_compute; reflexivity|].
  split; [rewrite Ep; refine (program_check clean_line _ _); vm_compute; reflexivity|].
  split; [rewrite Es; reflexivity|]. split; [rewrite Es, Ep; reflexivity|]. split; [rewrite Es, Ep; reflexivity|].
  split; [apply caps_reachable, caps_init | rewrite Es; vm_compute; reflexivity].
Qed.

(* non-vacuity of the ELSE theorem: the line of finding cf302e8 among nested IF / ELSE lines *)
Definition C06_else_lines : list String.string :=
  ["10 A = 0 : B = 0 : FOR I = 1 TO 2"; "20 IF A THEN IF B THEN PRINT 1 ELSE : ELSE PRINT 2";
   "30 IF I = 2 THEN GOSUB 100 ELSE IF B THEN 60 ELSE PRINT ""no"""; "40 NEXT I"; "50 END"; "60 PRINT ""never"" : END";
   "100 IF A THEN RETURN ELSE PRINT ""sub"" : RETURN"]%string.
Definition C06_else_text : bytes := List.concat (map (fun l => bs l ++ [10%N]) C06_else_lines).
Definition C06_else_state : interp := run_state 100 init_interp (map (fun l => HLine (bs l)) C06_else_lines).

Example C06_else_example :
  line_bound C06_else_text < 200
  /\ forallb (fun msg => negb (is_error_msg msg)) (an_messages (analyze 200 C06_else_text)) = true
  /\ clean2_program (st_toks (p_prog (pass1_of' C06_else_text)))
  /\ state C06_else_state = Idle
  /\ st_toks C06_else_state = st_toks (p_prog (pass1_of' C06_else_text))
  /\ st_keys C06_else_state = st_keys (p_prog (pass1_of' C06_else_text))
  /\ caps_inv C06_else_state
  /\ fst (start_evaluating 200 (bs "RUN") C06_else_state) = Ok tt.
Proof.
  evaluated (p_prog (pass1_of' C06_else_text)) Ep. evaluated C06_else_state Es.
  split; [unfold line_bound; rewrite Ep; vm_compute; repeat constructor|]. split; [vm_compute; reflexivity|].
  split; [rewrite Ep; refine (program_check clean2_line _ _); vm_compute; reflexivity|].
  split; [rewrite Es; reflexivity|]. split; [rewrite Es, Ep; reflexivity|]. split; [rewrite Es, Ep; reflexivity|].
  split; [apply caps_reachable, caps_init | rewrite Es; vm_compute; reflexivity].
Qed.

(* non-vacuity of the INPUT theorem: INPUT as the ELSE clause of an inner IF with the outer ELSE behind it;
   RUN stops awaiting input, the reply makes the interpreter runnable again and the next turn succeeds *)
Definition C06_input_lines : list String.string :=
  ["10 IF 1 THEN IF 0 THEN PRINT ""A"" ELSE INPUT X ELSE PRINT ""B""";
   "20 IF X THEN INPUT B$ ELSE INPUT C"; "30 PRINT X; B$"]%string.
Definition C06_input_text : bytes := List.concat (map (fun l => bs l ++ [10%N]) C06_input_lines).
Definition C06_input_state : interp := run_state 100 init_interp (map (fun l => HLine (bs l)) C06_input_lines).

Example C06_input_example :
  line_bound C06_input_text < 200
  /\ forallb (fun msg => negb (is_error_msg msg)) (an_messages (analyze 200 C06_input_text)) = true
  /\ nodef_program (st_toks (p_prog (pass1_of' C06_input_text)))
  /\ state C06_input_state = Idle
  /\ st_toks C06_input_state = st_toks (p_prog (pass1_of' C06_input_text))
  /\ st_keys C06_input_state = st_keys (p_prog (pass1_of' C06_input_text))
  /\ caps_inv C06_input_state
  /\ fst (start_evaluating 200 (bs "RUN") C06_input_state) = Ok tt
  /\ state (snd (start_evaluating 200 (bs "RUN") C06_input_state)) = AwaitingInput
  /\ exists s2, provide_input (bs "7") (snd (start_evaluating 200 (bs "RUN") C06_input_state)) = (Ok tt, s2)
       /\ ReachI 200 (snd (start_evaluating 200 (bs "RUN") C06_input_state)) s2
       /\ state s2 = Running /\ fst (continue_evaluating 200 s2) = Ok tt.
Proof.
  evaluated (p_prog (pass1_of' C06_input_text)) Ep. evaluated C06_input_state Es.
  evaluated (start_evaluating 200 (bs "RUN") C06_input_state) Er.
  split; [unfold line_bound; rewrite Ep; vm_compute; repeat constructor|]. split; [vm_compute; reflexivity|].
  split; [rewrite Ep; refine (program_check nodef_line _ _); vm_compute; reflexivity|].
  split; [rewrite Es; reflexivity|]. split; [rewrite Es, Ep; reflexivity|]. split; [rewrite Es, Ep; reflexivity|].
  split; [apply caps_reachable, caps_init|]. split; [rewrite Er; reflexivity|]. split; [rewrite Er; reflexivity|].
  rewrite Er. eexists. split; [reflexivity|].
  split; [eapply reachI_reply; [apply reachI_refl | reflexivity]|].
  split; [reflexivity | vm_compute; reflexivity].
Qed.

(* THE KNOWN FINDING (open, known_findings.json class accepted-but-fails:late-def): the soundness clause is FALSE of the
   faithful model, and of the code, for a DEF that runs before its use but stands on a later line.  The checker reports
   nothing; the third turn after RUN fails with a syntax error at the call.  (The theorems above exclude DEF tokens.) *)
Definition C06_late_lines : list String.string :=
  ["10 GOTO 30"; "20 PRINT FNA(1) : END"; "30 DEF FNA(X,Y) = X + Y"; "40 GOTO 20"]%string.
Definition C06_late_text : bytes := List.concat (map (fun l => bs l ++ [10%N]) C06_late_lines).
Definition C06_late_state : interp :=
  run_state 100 init_interp (map (fun l => HLine (bs l)) C06_late_lines ++ [HLine (bs "RUN"); HCont; HCont]).

Example C06_late_def_refuted :
  forallb (fun msg => negb (is_error_msg msg)) (an_messages (analyze 200 C06_late_text)) = true
  /\ st_toks C06_late_state = st_toks (p_prog (pass1_of' C06_late_text))
  /\ state C06_late_state = Running
  /\ exists e l, fst (continue_evaluating 100 C06_late_state) = Err e l /\ ~ benign e.
Proof.
  evaluated C06_late_state Es.
  split; [vm_compute; reflexivity|]. split; [rewrite Es; vm_compute; reflexivity|]. split; [rewrite Es; reflexivity|].
  rewrite Es. eexists _, _. split; [vm_compute; reflexivity|]. cbn. exact (fun H => H).
Qed.

(* non-vacuity of the line theorems.  Line 10 A = 1 : PRINT A : B$ = "x" : straight, related states, the interpreter
   executes all three statements and the checker's walk answers "no error".  Line 10 A$ = 5 : PRINT 1 : the walk
   answers an Error message, and the interpreter's first statement indeed fails. *)
Definition C06_line_state (l : String.string) : interp :=
  set_loc (mkloc (Some 10%N) 0) (run_state 100 init_interp [HLine (bs l)]).
Definition C06_line_map (l : String.string) : source_map := an_map (analyze 200 (bs l ++ [10%N])).

Lemma C06_line_state_R l : functions (C06_line_state l) = [] -> R (C06_line_state l) (C06_line_state l).
Proof.
  intros Hf. split; [repeat split|]. split; [|split; exact Hf].
  apply (caps_inv_ext (run_state 100 init_interp [HLine (bs l)])); try reflexivity.
  apply caps_reachable, caps_init.
Qed.

Example C06_line_example_good :
  let st := C06_line_state "10 A = 1 : PRINT A : B$ = ""x""" in
  R st st /\ straight_line (cur_line st) = true
  /\ (exists s', LineRun 200 st s') /\ HostLine 200 st
  /\ fst (walk_line 200 10 (C06_line_map "10 A = 1 : PRINT A : B$ = ""x""") (st, [])) = Ok None.
Proof.
  cbn zeta. evaluated (C06_line_state "10 A = 1 : PRINT A : B$ = ""x""") Es.
  split; [apply C06_line_state_R; rewrite Es; reflexivity|]. split; [rewrite Es; vm_compute; reflexivity|].
  split; [|split; [apply (host_run_sound 200 10); rewrite Es; vm_compute; reflexivity | rewrite Es; vm_compute; reflexivity]].
  eexists. apply (line_run_sound 200 10). rewrite Es. vm_compute. reflexivity.
Qed.

Example C06_line_example_bad :
  let st := C06_line_state "10 A$ = 5 : PRINT 1" in
  R st st /\ straight_line (cur_line st) = true
  /\ (exists msg st', walk_line 200 10 (C06_line_map "10 A$ = 5 : PRINT 1") (st, []) = (Ok (Some msg), st'))
  /\ (exists s1 l s2, has_next_token st = (Ok true, s1) /\ evaluate_statement 200 0 s1 = (Err ETypeMismatch l, s2)).
Proof.
  cbn zeta. evaluated (C06_line_state "10 A$ = 5 : PRINT 1") Es.
  split; [apply C06_line_state_R; rewrite Es; reflexivity|]. split; [rewrite Es; vm_compute; reflexivity|].
  split; [rewrite Es; eexists _, _; vm_compute; reflexivity|].
  rewrite Es. eexists _, _, _. split; [vm_compute; reflexivity|]. vm_compute; reflexivity.
Qed.

Lemma caps_set_loc l s0 : caps_inv s0 -> caps_inv (set_loc l s0).
Proof. intros H. apply (caps_inv_ext s0); try reflexivity. exact H. Qed.

(* non-vacuity of the whole-text converse: the analysis of  10 A = 1 : PRINT A / 20 A$ = 5 : PRINT 1  reports one
   Error (TYPE MISMATCH on file line 1), the text has no DEF, the message is not a tokenization error of pass 1 -
   so by the theorem it comes from the walk on a stored line, here line 20, which is straight, and an interpreter that
   holds the program and stands at line 20 indeed fails there *)
Definition C06_text_lines : list String.string := ["10 A = 1 : PRINT A"; "20 A$ = 5 : PRINT 1"]%string.
Definition C06_text : bytes := List.concat (map (fun l => bs l ++ [10%N]) C06_text_lines).
Definition C06_text_state : interp :=
  set_loc (mkloc (Some 20%N) 0) (run_state 100 init_interp (map (fun l => HLine (bs l)) C06_text_lines)).

Example C06_reported_error_example :
  let msg := MError 1 ETypeMismatch (Some (mkloc (Some 20%N) 2)) in
  line_bound C06_text < 200
  /\ nodef_program (st_toks (p_prog (pass1_of' C06_text)))
  /\ In msg (an_messages (analyze 200 C06_text)) /\ is_error_msg msg = true /\ ~ In msg (p_msgs (pass1_of' C06_text))
  /\ st_toks C06_text_state = st_toks (p_prog (pass1_of' C06_text))
  /\ st_keys C06_text_state = st_keys (p_prog (pass1_of' C06_text))
  /\ immediate C06_text_state = [] /\ loc C06_text_state = mkloc (Some 20%N) 0
  /\ caps_inv C06_text_state /\ functions C06_text_state = []
  /\ match toks_get 20%N (st_toks C06_text_state) with Some ts => straight_line ts | None => false end = true
  /\ match has_next_token C06_text_state with
     | (Ok true, s1) => match evaluate_statement 200 0 s1 with (Err ETypeMismatch _, _) => true | _ => false end
     | _ => false
     end = true.
Proof.
  cbn zeta. evaluated (p_prog (pass1_of' C06_text)) Ep. evaluated C06_text_state Es.
  split; [unfold line_bound; rewrite Ep; vm_compute; repeat constructor|].
  split; [rewrite Ep; refine (program_check nodef_line _ _); vm_compute; reflexivity|].
  split; [vm_compute; left; reflexivity|]. split; [reflexivity|]. split; [vm_compute; exact (fun H => H)|].
  split; [rewrite Es, Ep; reflexivity|]. split; [rewrite Es, Ep; reflexivity|]. split; [rewrite Es; reflexivity|].
  split; [rewrite Es; reflexivity|].
  split; [unfold C06_text_state; apply caps_set_loc, caps_reachable, caps_init|].
  split; [rewrite Es; reflexivity|]. split; rewrite Es; vm_compute; reflexivity.
Qed.

(* non-vacuity of the completeness direction: the checker REJECTS  1 + "x"  on
   a fresh state (so by the theorem the interpreter cannot evaluate it) and the
   interpreter indeed answers TYPE MISMATCH *)
Example C06_agree_example :
  let toks := [TNumber (f64_of_Z 1); TPlus; TString (bs "x")] in
  let s := set_immediate toks init_interp in
  (exists l st, analyze_expression 40 0 (s, []) = (Err ETypeMismatch l, st)) /\
  (exists l st, evaluate_expression 40 0 s = (Err ETypeMismatch l, st)).
Proof. cbn zeta. split; eexists _, _; vm_compute; reflexivity. Qed.

(* non-vacuity: a fresh interpreter and a fresh analyzer state looking at the
   immediate line  (A + 1) * 2 < N(3) OR B$ = "x" : related, accepted as a number *)
Example C06_sound_example :
  let toks := [TLeftParen; TSymbol (bs "A"); TPlus; TNumber (f64_of_Z 1); TRightParen; TMultiply; TNumber (f64_of_Z 2);
               TLessThan; TSymbol (bs "N"); TLeftParen; TNumber (f64_of_Z 3); TRightParen; TOr;
               TSymbol (bs "B$"); TEquals; TString (bs "x")] in
  let s := set_immediate toks init_interp in
  R s s /\ exists sa' acc', analyze_expression 40 0 (s, []) = (Ok TyNumber, (sa', acc')).
Proof.
  cbn zeta. split.
  - split; [repeat split|]. split; [apply (caps_inv_ext init_interp); try reflexivity; apply caps_init|]. split; reflexivity.
  - eexists _, _. vm_compute. reflexivity.
Qed.

Print Assumptions C06_same_expression_grammar.
Print Assumptions C06_same_statement_keywords.
Print Assumptions C06_jump_targets.
Print Assumptions C06_analysis_keeps_store.
Print Assumptions C06_checker_assignment.
Print Assumptions C06_interpreter_assignment.
Print Assumptions C06_comparisons_are_numbers.
Print Assumptions C06_expression_check_sound.
Print Assumptions C06_assignment_check_sound.
Print Assumptions C06_print_check_sound.
Print Assumptions C06_straight_statement_sound.
Print Assumptions C06_dispatchers.
Print Assumptions C06_expression_check_agrees.
Print Assumptions C06_straight_statement_agrees.
Print Assumptions C06_evaluated_expression_is_not_rejected.
Print Assumptions C06_executed_statement_is_not_rejected.
Print Assumptions C06_program_sound.
Print Assumptions C06_turn_sound.
Print Assumptions C06_program_sound_else.
Print Assumptions C06_program_sound_input.
Print Assumptions C06_straight_line_complete.
Print Assumptions C06_straight_line_error_fails.
Print Assumptions C06_host_line_complete.
Print Assumptions C06_reported_error_means_failure.
Print Assumptions C06_statement_failure_is_turn_failure.
Print Assumptions C06_turn_success_is_statement_success.
Print Assumptions C06_expression_tokens.
