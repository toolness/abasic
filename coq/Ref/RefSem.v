(* Ref/RefSem.v — a reference interpreter for BASIC programs, on SYNTAX TREES.

   Written from the language's documented semantics (README, the manual's
   wording quoted in property C03), not from the token walker: there is no
   token stream, no cursor and no host turn here.  A program is a finite list
   of numbered lines, each a list of statements; a configuration is a program
   counter (line index, statement index) plus variables, arrays, the FOR stack,
   the GOSUB stack, function-call bindings (dynamic scoping), the DATA position,
   the function table, the random generator and the printed text.

   Shared with the model: the IEEE-754 arithmetic, the saturating conversion and the number
   printer of Model/Num.v, the datatypes [value] and [data_elem], byte-string equality and
   order (Model/Bytes.v), and six constants of Gen/Tables.v, which are generated from the Rust
   source: the caps [STACK_LIMIT], [MAX_DIM_TOTAL_ELEMENTS], [DEFAULT_ARRAY_SIZE] and the
   generator's [MODULUS], [MULTIPLIER], [INCREMENT].  The small functions on names, values and
   association lists ([str_name], [default_of], [kind_ok], [truth], [lookup], [update] ..) are
   written again here on purpose; that they agree with State.v's is proved where it is used
   (Proofs/RefProofs.v, Proofs/StmtSim.v). *)
From Coq Require Import List NArith ZArith Bool.
From Abasic Require Import Model.Bytes Model.Num Model.Token Gen.Tables Model.State.
Import ListNotations.
Local Open Scope nat_scope.

Inductive cmp := CEq | CLt | CLe | CGt | CGe | CNe.
Inductive rbin := ROr | RAnd | RCmp (c : cmp) | RAdd | RSub | RMul | RDiv.

Inductive rexpr :=
| XNum (x : f64) | XStr (s : bytes) | XVar (v : bytes)
| XCell (a : bytes) (idx : list rexpr)
| XNeg (e : rexpr) | XPos (e : rexpr) | XNot (e : rexpr)
| XBin (op : rbin) (a b : rexpr)
| XAbs (e : rexpr) | XInt (e : rexpr) | XRnd (e : rexpr)
| XFn (f : bytes) (args : list rexpr).

Inductive pitem := PExpr (e : rexpr) | PSemi | PComma.

Inductive rstmt :=
| SLet (v : bytes) (idx : list rexpr) (e : rexpr)        (* idx = [] : a scalar *)
| SPrint (items : list pitem)
| SIf (c : rexpr) (t : arm) (e : option arm)
| SGoto (n : N) | SGosub (n : N) | SReturn
| SFor (v : bytes) (a b : rexpr) (st : option rexpr) | SNext (v : bytes)
| SRead (targets : list (bytes * list rexpr)) | SData (items : list data_elem) | SRestore
| SDim (a : bytes) (idx : list rexpr)
| SDef (f : bytes) (params : list bytes) (body : rexpr)
| SEnd | SRem
with arm := AStmt (s : rstmt) | ALine (n : N).

Definition rprogram := list (N * list rstmt).

Inductive rerr :=
| RTypeMismatch | RDivisionByZero | ROutOfData | RDataTypeMismatch | RBadSubscript | RIllegalQuantity
| RStackOverflow | RArrayTooLarge | RRedim | RUndefinedLine | RReturnWithoutGosub | RNextWithoutFor
| RUnimplemented | RSyntax.

Definition rpc := (nat * nat)%type.          (* line index, statement index (= length: next line) *)

Record rarray := mkra { ra_dims : list N; ra_cells : list value }.
Record rloop := mkrl { rl_var : bytes; rl_to : f64; rl_step : f64; rl_body : rpc }.
Record rfn := mkrf { rf_params : list bytes; rf_body : rexpr; rf_line : N }.

Record rstate := mkr {
  r_vars : list (bytes * value);
  r_arrays : list (bytes * rarray);
  r_loops : list rloop;                       (* innermost last *)
  r_calls : list rpc;                         (* GOSUB return points, innermost first *)
  r_frames : list (list (bytes * value));     (* function-call bindings, innermost first *)
  r_dpos : nat;                               (* items of the DATA list already read *)
  r_fns : list (bytes * rfn);
  r_rng : N;
  r_out : list bytes }.                       (* one entry per PRINT statement *)

Definition r_init (seed : N) : rstate := mkr [] [] [] [] [] 0 [] (seed mod MODULUS) [].

(* ------------------------------------------------------------------ *)
(* values *)

Definition str_name (name : bytes) : bool := match rev name with 36%N :: _ => true | _ => false end.
Definition default_of (name : bytes) : value := if str_name name then VStr [] else VNum f64_zero.
Definition kind_ok (name : bytes) (v : value) : bool :=
  match v with VStr _ => str_name name | VNum _ => negb (str_name name) end.
Definition truth (v : value) : bool :=
  match v with VStr [] => false | VStr _ => true | VNum x => negb (f64_eqb x f64_zero) end.
Definition of_bool (b : bool) : value := VNum (if b then f64_one else f64_zero).

Fixpoint lookup {V} (k : bytes) (l : list (bytes * V)) : option V :=
  match l with [] => None | (k', v) :: r => if bytes_eqb k k' then Some v else lookup k r end.
Fixpoint update {V} (k : bytes) (v : V) (l : list (bytes * V)) : list (bytes * V) :=
  match l with
  | [] => [(k, v)]
  | (k', v') :: r => if bytes_eqb k k' then (k, v) :: r else (k', v') :: update k v r
  end.

(* a variable read: parameter bindings of the active function calls first
   (innermost first: dynamic scoping), then the program's variables, then the
   default *)
Fixpoint lookup_frames (k : bytes) (fs : list (list (bytes * value))) : option value :=
  match fs with
  | [] => None
  | f :: r => match lookup k f with Some v => Some v | None => lookup_frames k r end
  end.
Definition read_var (st : rstate) (name : bytes) : value :=
  match lookup_frames name (r_frames st) with
  | Some v => v
  | None => match lookup name (r_vars st) with Some v => v | None => default_of name end
  end.

Definition cmp_nums (c : cmp) (a b : f64) : bool :=
  match c with
  | CEq => f64_eqb a b | CLt => f64_ltb a b | CLe => f64_leb a b
  | CGt => f64_ltb b a | CGe => f64_leb b a | CNe => negb (f64_eqb a b)
  end.
Definition cmp_strs (c : cmp) (a b : bytes) : bool :=
  match c, bytes_compare a b with
  | CEq, Eq => true | CEq, _ => false
  | CLt, Lt => true | CLt, _ => false
  | CLe, Gt => false | CLe, _ => true
  | CGt, Gt => true | CGt, _ => false
  | CGe, Lt => false | CGe, _ => true
  | CNe, Eq => false | CNe, _ => true
  end.

Definition apply_bin (op : rbin) (a b : value) : value + rerr :=
  match op, a, b with
  | ROr, _, _ => inl (of_bool (truth a || truth b))
  | RAnd, _, _ => inl (of_bool (truth a && truth b))
  | RCmp c, VNum x, VNum y => inl (of_bool (cmp_nums c x y))
  | RCmp c, VStr x, VStr y => inl (of_bool (cmp_strs c x y))
  | RAdd, VNum x, VNum y => inl (VNum (f64_add x y))
  | RSub, VNum x, VNum y => inl (VNum (f64_sub x y))
  | RMul, VNum x, VNum y => inl (VNum (f64_mul x y))
  | RDiv, VNum x, VNum y => if f64_eqb y f64_zero then inr RDivisionByZero else inl (VNum (f64_div x y))
  | _, _, _ => inr RTypeMismatch
  end.

(* ------------------------------------------------------------------ *)
(* arrays: implicit arrays have indices 0..10 in every dimension *)

Fixpoint product (l : list N) : N := match l with [] => 1%N | d :: r => (d * product r)%N end.

Definition new_array (name : bytes) (max_indices : list N) : rarray + rerr :=
  match max_indices with
  | [] => inr RBadSubscript
  | _ =>
      let dims := map (fun m => (m + 1)%N) max_indices in
      if (MAX_DIM_TOTAL_ELEMENTS <? product dims)%N then inr RArrayTooLarge
      else inl (mkra dims (repeat (default_of name) (N.to_nat (product dims))))
  end.

(* first subscript varies fastest *)
Fixpoint offset (idx dims : list N) (stride : N) : option N :=
  match idx, dims with
  | [], [] => Some 0%N
  | i :: ir, d :: dr =>
      if (d <=? i)%N then None
      else match offset ir dr (stride * d)%N with Some o => Some (i * stride + o)%N | None => None end
  | _, _ => None
  end.

Definition ensure_array (name : bytes) (n : nat) (st : rstate) : rstate + rerr :=
  match lookup name (r_arrays st) with
  | Some _ => inl st
  | None =>
      match new_array name (repeat DEFAULT_ARRAY_SIZE n) with
      | inl a => inl (mkr (r_vars st) (update name a (r_arrays st)) (r_loops st) (r_calls st) (r_frames st)
                          (r_dpos st) (r_fns st) (r_rng st) (r_out st))
      | inr e => inr e
      end
  end.

Definition set_arrays' (a : list (bytes * rarray)) (st : rstate) : rstate :=
  mkr (r_vars st) a (r_loops st) (r_calls st) (r_frames st) (r_dpos st) (r_fns st) (r_rng st) (r_out st).
Definition set_vars' (v : list (bytes * value)) (st : rstate) : rstate :=
  mkr v (r_arrays st) (r_loops st) (r_calls st) (r_frames st) (r_dpos st) (r_fns st) (r_rng st) (r_out st).
Definition set_frames' (f : list (list (bytes * value))) (st : rstate) : rstate :=
  mkr (r_vars st) (r_arrays st) (r_loops st) (r_calls st) f (r_dpos st) (r_fns st) (r_rng st) (r_out st).
Definition set_rng' (g : N) (st : rstate) : rstate :=
  mkr (r_vars st) (r_arrays st) (r_loops st) (r_calls st) (r_frames st) (r_dpos st) (r_fns st) g (r_out st).
Definition set_loops' (l : list rloop) (st : rstate) : rstate :=
  mkr (r_vars st) (r_arrays st) l (r_calls st) (r_frames st) (r_dpos st) (r_fns st) (r_rng st) (r_out st).
Definition set_calls' (c : list rpc) (st : rstate) : rstate :=
  mkr (r_vars st) (r_arrays st) (r_loops st) c (r_frames st) (r_dpos st) (r_fns st) (r_rng st) (r_out st).
Definition set_dpos' (d : nat) (st : rstate) : rstate :=
  mkr (r_vars st) (r_arrays st) (r_loops st) (r_calls st) (r_frames st) d (r_fns st) (r_rng st) (r_out st).
Definition set_fns' (f : list (bytes * rfn)) (st : rstate) : rstate :=
  mkr (r_vars st) (r_arrays st) (r_loops st) (r_calls st) (r_frames st) (r_dpos st) f (r_rng st) (r_out st).
Definition add_out (t : bytes) (st : rstate) : rstate :=
  mkr (r_vars st) (r_arrays st) (r_loops st) (r_calls st) (r_frames st) (r_dpos st) (r_fns st) (r_rng st) (r_out st ++ [t]).

Fixpoint replace_nth {A} (l : list A) (i : nat) (v : A) : list A :=
  match l, i with
  | [], _ => []
  | _ :: r, O => v :: r
  | x :: r, S i' => x :: replace_nth r i' v
  end.

(* ------------------------------------------------------------------ *)
(* expressions: strict, left to right.  An error carries the line it is
   attributed to ([None]: the line of the statement being executed; an error
   inside a user function's body belongs to the DEF's line). *)

Inductive eres (A : Type) := EOk (a : A) (st : rstate) | EErr (e : rerr) (line : option N) | EFuel.
Arguments EOk {A}. Arguments EErr {A}. Arguments EFuel {A}.

Definition depth (st : rstate) : nat := length (r_calls st) + length (r_frames st).
Definition depth_cap : nat := N.to_nat STACK_LIMIT.

Definition subscript (v : value) : N + rerr :=
  match v with
  | VStr _ => inr RTypeMismatch
  | VNum x => let i := f64_to_i64_sat x in if (i <? 0)%Z then inr RIllegalQuantity else inl (Z.to_N i)
  end.

Definition rnd (x : f64) (st : rstate) : eres value :=
  let out g := VNum (f64_div (f64_of_Z (Z.of_N g)) (f64_of_Z (Z.of_N MODULUS))) in
  if f64_ltb x f64_zero then EErr RUnimplemented None
  else if f64_eqb x f64_zero then EOk (out (r_rng st)) st
  else let g := ((MULTIPLIER * r_rng st + INCREMENT) mod MODULUS)%N in EOk (out g) (set_rng' g st).

Section Eval.
  Variable eval : rstate -> rexpr -> eres value.      (* one level of fuel down *)

  Fixpoint eval_list (st : rstate) (es : list rexpr) : eres (list value) :=
    match es with
    | [] => EOk [] st
    | e :: r =>
        match eval st e with
        | EOk v st1 => match eval_list st1 r with
                       | EOk vs st2 => EOk (v :: vs) st2
                       | other => other
                       end
        | EErr er l => EErr er l
        | EFuel => EFuel
        end
    end.

  (* subscripts are evaluated and checked one by one, left to right *)
  Fixpoint eval_subscripts (st : rstate) (es : list rexpr) : eres (list N) :=
    match es with
    | [] => EOk [] st
    | e :: r =>
        match eval st e with
        | EOk v st1 =>
            match subscript v with
            | inr er => EErr er None
            | inl i => match eval_subscripts st1 r with
                       | EOk is st2 => EOk (i :: is) st2
                       | other => other
                       end
            end
        | EErr er l => EErr er l
        | EFuel => EFuel
        end
    end.

  Definition read_cell (name : bytes) (idx : list N) (st : rstate) : eres value :=
    match ensure_array name (length idx) st with
    | inr er => EErr er None
    | inl st1 =>
        match lookup name (r_arrays st1) with
        | None => EErr RBadSubscript None
        | Some a =>
            if negb (Nat.eqb (length idx) (length (ra_dims a))) then EErr RBadSubscript None
            else match offset idx (ra_dims a) 1%N with
                 | None => EErr RBadSubscript None
                 | Some o => match nth_error (ra_cells a) (N.to_nat o) with
                             | Some v => EOk v st1
                             | None => EErr RBadSubscript None
                             end
                 end
        end
    end.

  (* arguments: evaluated in the caller's scope, left to right, each checked
     against its parameter's kind before the next is evaluated *)
  Fixpoint bind_params (st : rstate) (ps : list bytes) (args : list rexpr) (acc : list (bytes * value))
    : eres (list (bytes * value)) :=
    match ps, args with
    | [], [] => EOk acc st
    | p :: pr, a :: ar =>
        match eval st a with
        | EOk v st1 => if kind_ok p v then bind_params st1 pr ar (update p v acc) else EErr RTypeMismatch None
        | EErr er l => EErr er l
        | EFuel => EFuel
        end
    | _, _ => EErr RSyntax None
    end.

  Definition eval_step (st : rstate) (e : rexpr) : eres value :=
    match e with
    | XNum x => EOk (VNum x) st
    | XStr s => EOk (VStr s) st
    | XVar v => EOk (read_var st v) st
    | XCell a idx =>
        match eval_subscripts st idx with
        | EOk is st1 => read_cell a is st1
        | EErr er l => EErr er l
        | EFuel => EFuel
        end
    | XPos a => eval st a
    | XNeg a => match eval st a with
                | EOk (VNum x) st1 => EOk (VNum (f64_neg x)) st1
                | EOk (VStr _) _ => EErr RTypeMismatch None
                | other => other
                end
    | XNot a => match eval st a with
                | EOk v st1 => EOk (of_bool (negb (truth v))) st1
                | other => other
                end
    | XBin op a b =>
        match eval st a with
        | EOk v st1 =>
            match eval st1 b with
            | EOk w st2 => match apply_bin op v w with inl r => EOk r st2 | inr er => EErr er None end
            | other => other
            end
        | other => other
        end
    | XAbs a => match eval st a with
                | EOk (VNum x) st1 => EOk (VNum (f64_abs x)) st1
                | EOk (VStr _) _ => EErr RTypeMismatch None
                | other => other
                end
    | XInt a => match eval st a with
                | EOk (VNum x) st1 => EOk (VNum (f64_floor x)) st1
                | EOk (VStr _) _ => EErr RTypeMismatch None
                | other => other
                end
    | XRnd a => match eval st a with
                | EOk (VNum x) st1 => rnd x st1
                | EOk (VStr _) _ => EErr RTypeMismatch None
                | other => other
                end
    | XFn f args =>
        match lookup f (r_fns st) with
        | None =>                                  (* not (yet) defined: an array cell *)
            match eval_subscripts st args with
            | EOk is st1 => read_cell f is st1
            | EErr er l => EErr er l
            | EFuel => EFuel
            end
        | Some d =>
            match bind_params st (rf_params d) args [] with
            | EOk binds st1 =>
                if Nat.eqb (depth st1) depth_cap then EErr RStackOverflow None
                else
                  match eval (set_frames' (binds :: r_frames st1) st1) (rf_body d) with
                  | EOk v st2 => EOk v (set_frames' (r_frames st1) st2)
                  | EErr er None => EErr er (Some (rf_line d))     (* the failure is in the body: the DEF's line *)
                  | other => other
                  end
            | EErr er l => EErr er l
            | EFuel => EFuel
            end
        end
    end.
End Eval.

Fixpoint eval (fuel : nat) (st : rstate) (e : rexpr) : eres value :=
  match fuel with
  | O => EFuel
  | S f => eval_step (eval f) st e
  end.

(* ------------------------------------------------------------------ *)
(* programs *)

Fixpoint find_line (p : rprogram) (n : N) (i : nat) : option nat :=
  match p with
  | [] => None
  | (k, _) :: r => if (k =? n)%N then Some i else find_line r n (S i)
  end.

Definition line_no (p : rprogram) (i : nat) : N := match nth_error p i with Some (n, _) => n | None => 0%N end.

(* the DATA list: all items, in line order then statement order *)
Definition data_of_stmt (s : rstmt) : list data_elem := match s with SData items => items | _ => [] end.
Definition data_list (p : rprogram) : list (data_elem * N) :=
  flat_map (fun l => map (fun d => (d, fst l)) (flat_map data_of_stmt (snd l))) p.

Inductive outcome :=
| Next (pc : rpc) (st : rstate)            (* continue there *)
| Done (st : rstate)                       (* END, or fell off the last line *)
| Fail (e : rerr) (line : N) (st : rstate)
| NoFuel.

Definition store_scalar (v : bytes) (x : value) (st : rstate) : rstate + rerr :=
  if kind_ok v x then inl (set_vars' (update v x (r_vars st)) st) else inr RTypeMismatch.

Definition store_cell (a : bytes) (idx : list N) (x : value) (st : rstate) : rstate + rerr :=
  if negb (kind_ok a x) then inr RTypeMismatch
  else
    match ensure_array a (length idx) st with
    | inr er => inr er
    | inl st1 =>
        match lookup a (r_arrays st1) with
        | None => inr RBadSubscript
        | Some arr =>
            if negb (Nat.eqb (length idx) (length (ra_dims arr))) then inr RBadSubscript
            else match offset idx (ra_dims arr) 1%N with
                 | None => inr RBadSubscript
                 | Some o =>
                     inl (set_arrays' (update a (mkra (ra_dims arr) (replace_nth (ra_cells arr) (N.to_nat o) x))
                                              (r_arrays st1)) st1)
                 end
        end
    end.

(* drop the loop on [v] and every loop nested inside it *)
Fixpoint drop_loop (v : bytes) (l : list rloop) : option (rloop * list rloop) :=
  match l with
  | [] => None
  | x :: r =>
      match drop_loop v r with
      | Some (found, kept) => Some (found, x :: kept)
      | None => if bytes_eqb (rl_var x) v then Some (x, []) else None
      end
  end.

Definition text_of (v : value) : bytes := match v with VStr s => s | VNum x => show_f64 x end.

Section Exec.
  Variable fuel : nat.
  Variable p : rprogram.

  Definition ev (st : rstate) (e : rexpr) : eres value := eval fuel st e.

  Definition jump (n : N) (here : N) (st : rstate) : outcome :=
    match find_line p n 0 with
    | Some i => Next (i, 0) st
    | None => Fail RUndefinedLine here st
    end.

  Definition fail_at (er : rerr) (l : option N) (here : N) (st : rstate) : outcome :=
    Fail er (match l with Some n => n | None => here end) st.

  (* PRINT: items left to right; `,` is a tab; a trailing `;` suppresses the newline *)
  Fixpoint print_items (st : rstate) (items : list pitem) (semi : bool) (text : bytes) : eres (bool * bytes) :=
    match items with
    | [] => EOk (semi, text) st
    | PSemi :: r => print_items st r true text
    | PComma :: r => print_items st r false (text ++ [9%N])
    | PExpr e :: r =>
        match ev st e with
        | EOk v st1 => print_items st1 r false (text ++ text_of v)
        | EErr er l => EErr er l
        | EFuel => EFuel
        end
    end.

  Fixpoint read_targets (st : rstate) (targets : list (bytes * list rexpr)) (here : N) : outcome + rstate :=
    match targets with
    | [] => inr st
    | (v, idx) :: r =>
        match eval_subscripts (eval fuel) st idx with
        | EErr er l => inl (fail_at er l here st)
        | EFuel => inl NoFuel
        | EOk is st1 =>
            match nth_error (data_list p) (r_dpos st1) with
            | None => inl (Fail ROutOfData here st1)
            | Some (d, dline) =>
                let st2 := set_dpos' (S (r_dpos st1)) st1 in
                let val := if str_name v
                           then inl (VStr (match d with DStr s => s | DNum x => show_f64 x end))
                           else match d with DNum x => inl (VNum x) | DStr _ => inr RDataTypeMismatch end in
                match val with
                | inr er => inl (Fail er dline st2)           (* attributed to the DATA statement's line *)
                | inl x =>
                    match (match idx with [] => store_scalar v x st2 | _ => store_cell v is x st2 end) with
                    | inl st3 => read_targets st3 r here
                    | inr er => inl (Fail er here st2)
                    end
                end
            end
        end
    end.

  (* [after]: where control continues after this statement completes normally *)
  Fixpoint exec (s : rstmt) (after : rpc) (li : nat) (st : rstate) {struct s} : outcome :=
    let here := line_no p li in
    match s with
    | SRem | SData _ => Next after st
    | SEnd => Done st
    | SLet v idx e =>
        match eval_subscripts (eval fuel) st idx with
        | EErr er l => fail_at er l here st
        | EFuel => NoFuel
        | EOk is st1 =>
            match ev st1 e with
            | EErr er l => fail_at er l here st1
            | EFuel => NoFuel
            | EOk x st2 =>
                match (match idx with [] => store_scalar v x st2 | _ => store_cell v is x st2 end) with
                | inl st3 => Next after st3
                | inr er => Fail er here st2
                end
            end
        end
    | SPrint items =>
        match print_items st items false [] with
        | EOk (semi, text) st1 => Next after (add_out (if semi then text else text ++ [10%N]) st1)
        | EErr er l => fail_at er l here st
        | EFuel => NoFuel
        end
    | SIf c t e =>
        match ev st c with
        | EErr er l => fail_at er l here st
        | EFuel => NoFuel
        | EOk v st1 =>
            if truth v then
              (* with an ELSE clause, the rest of the line belongs to the ELSE side *)
              let after_t := match e with Some _ => (S li, 0) | None => after end in
              match t with
              | ALine n => jump n here st1
              | AStmt s1 => exec s1 after_t li st1
              end
            else
              match e with
              | None => Next (S li, 0) st1                    (* the rest of the line is the THEN side *)
              | Some (ALine n) => jump n here st1
              | Some (AStmt s2) => exec s2 after li st1
              end
        end
    | SGoto n => jump n here st
    | SGosub n =>
        if Nat.eqb (depth st) depth_cap then Fail RStackOverflow here st
        else match find_line p n 0 with
             | Some i => Next (i, 0) (set_calls' (after :: r_calls st) st)
             | None => Fail RUndefinedLine here st
             end
    | SReturn =>
        match r_calls st with
        | [] => Fail RReturnWithoutGosub here st
        | ret :: rest => Next ret (set_calls' rest st)
        end
    | SFor v a b stp =>
        match ev st a with
        | EErr er l => fail_at er l here st
        | EFuel => NoFuel
        | EOk (VStr _) _ => Fail RTypeMismatch here st
        | EOk (VNum from) st1 =>
            match ev st1 b with
            | EErr er l => fail_at er l here st1
            | EFuel => NoFuel
            | EOk (VStr _) _ => Fail RTypeMismatch here st1
            | EOk (VNum to) st2 =>
                let with_step (step : f64) (st3 : rstate) : outcome :=
                  (* limit and step are fixed here; an earlier loop on the same variable — and
                     everything nested inside it — is forgotten *)
                  let kept := match drop_loop v (r_loops st3) with Some (_, k) => k | None => r_loops st3 end in
                  if Nat.eqb (length kept) depth_cap then Fail RStackOverflow here (set_loops' kept st3)
                  else
                    let st4 := set_loops' (kept ++ [mkrl v to step after]) st3 in
                    match store_scalar v (VNum from) st4 with
                    | inl st5 => Next after st5              (* the body always runs once *)
                    | inr er => Fail er here st4
                    end in
                match stp with
                | None => with_step f64_one st2
                | Some se =>
                    match ev st2 se with
                    | EErr er l => fail_at er l here st2
                    | EFuel => NoFuel
                    | EOk (VStr _) _ => Fail RTypeMismatch here st2
                    | EOk (VNum step) st3 => with_step step st3
                    end
                end
            end
        end
    | SNext v =>
        match (match lookup v (r_vars st) with Some x => x | None => default_of v end) with
        | VStr _ => Fail RTypeMismatch here st
        | VNum cur =>
            match drop_loop v (r_loops st) with
            | None => Fail RNextWithoutFor here st
            | Some (lp, kept) =>                              (* inner loops are forgotten *)
                let st1 := set_loops' kept st in
                let nv := f64_add cur (rl_step lp) in
                let again := if f64_leb f64_zero (rl_step lp) then f64_leb nv (rl_to lp) else f64_leb (rl_to lp) nv in
                let st2 := if again then set_loops' (kept ++ [lp]) st1 else st1 in
                match store_scalar v (VNum nv) st2 with
                | inl st3 => Next (if again then rl_body lp else after) st3
                | inr er => Fail er here st2
                end
            end
        end
    | SRead targets =>
        match read_targets st targets here with
        | inl o => o
        | inr st1 => Next after st1
        end
    | SRestore => Next after (set_dpos' 0 st)
    | SDim a idx =>
        match eval_subscripts (eval fuel) st idx with
        | EErr er l => fail_at er l here st
        | EFuel => NoFuel
        | EOk is st1 =>
            match lookup a (r_arrays st1) with
            | Some _ => Fail RRedim here st1
            | None => match new_array a is with
                      | inl arr => Next after (set_arrays' (update a arr (r_arrays st1)) st1)
                      | inr er => Fail er here st1
                      end
            end
        end
    | SDef f params body => Next after (set_fns' (update f (mkrf params body here) (r_fns st)) st)
    end.

  (* one statement of the program *)
  Definition rstep (pc : rpc) (st : rstate) : outcome :=
    match nth_error p (fst pc) with
    | None => Done st                                          (* fell off the end *)
    | Some (_, stmts) =>
        match nth_error stmts (snd pc) with
        | None => Next (S (fst pc), 0) st                      (* end of the line *)
        | Some s => exec s (fst pc, S (snd pc)) (fst pc) st
        end
    end.

  (* run for at most [n] statements *)
  Fixpoint rrun (n : nat) (pc : rpc) (st : rstate) : outcome :=
    match n with
    | O => Next pc st
    | S n' => match rstep pc st with
              | Next pc' st' => rrun n' pc' st'
              | other => other
              end
    end.
End Exec.

(* the transcript of a run: printed text and, on failure, the error kind and line *)
Definition transcript_of (o : outcome) : list bytes * option (rerr * N) :=
  match o with
  | Next _ st | Done st => (r_out st, None)
  | Fail e l st => (r_out st, Some (e, l))
  | NoFuel => ([], None)
  end.

Definition run_ref (fuel steps : nat) (seed : N) (p : rprogram) : outcome :=
  rrun fuel p steps (0, 0) (r_init seed).

Lemma lookup_update_same {V} k (v : V) l : lookup k (update k v l) = Some v.
Proof.
  induction l as [|[k' v'] l IH]; cbn [update lookup].
  - rewrite (proj2 (bytes_eqb_eq k k) eq_refl). reflexivity.
  - destruct (bytes_eqb k k') eqn:E; cbn [lookup]; [rewrite (proj2 (bytes_eqb_eq k k) eq_refl); reflexivity|rewrite E; exact IH].
Qed.
